(* C15 — Equality, ordering and map-key lookup are coherent across all value kinds.
   Only statements; the proofs are in Proofs/OrderProofs.v.
   Quantification: every value tree of any nesting depth that a tera::Value can be ([wf]:
   integers fit their variant, no two keys of one map are `==`; floats are arbitrary
   spec_float data, NaN and infinities included), every key in each of the seven
   representations, every association list (= HashMap in any iteration order) of any size.
   The model describes the code with fixes/D2-total-order.patch applied; the last theorem
   records that the statement is false for the unrepaired `Ord for Value`. *)
From Coq Require Import List ZArith NArith Permutation.
From TeraV Require Import Model.Value Gen.OrderTables Model.Order Proofs.OrderProofs.
Import ListNotations.

(* `==` is an equivalence on all values (NaN == NaN included) ... *)
Theorem C15_veq_equivalence :
  (forall a, wf a -> veq a a = true) /\
  (forall a b, wf a -> wf b -> veq a b = true -> veq b a = true) /\
  (forall a b c, wf a -> wf b -> wf c -> veq a b = true -> veq b c = true -> veq a c = true).
Proof. exact veq_equivalence. Qed.

(* ... structural on arrays and maps (a map entry matches an entry of the other map whose key has
   the same normal form), and blind to the safe mark *)
Theorem C15_veq_structural :
  (forall s f f', veq (VStr s f) (VStr s f') = true) /\
  (forall l l', veq (VArr l) (VArr l') = true <-> Forall2 (fun x y => veq x y = true) l l') /\
  (forall m m', wf (VMap m) -> wf (VMap m') ->
     (veq (VMap m) (VMap m') = true <->
      length m = length m' /\
      forall k v, In (k, v) m -> exists k' v', In (k', v') m' /\ key_norm k' = key_norm k /\ veq v v' = true)).
Proof. exact veq_structural. Qed.

(* numbers compare by mathematical value whatever their representation: every comparison the
   code makes between two numbers is the exact comparison [xcmp] of the represented
   (extended) dyadic rationals, with NaN above everything and equal to itself *)
Theorem C15_numbers_by_value : forall a b x y, wf a -> wf b -> sk a = Some (SNum x) -> sk b = Some (SNum y) ->
  vpcmp a b = Some (xcmp x y) /\ vcmp a b = xcmp x y /\
  veq a b = match xcmp x y with Eq => true | _ => false end.
Proof.
  intros a b x y Wa Wb Ha Hb.
  exact (conj (vpcmp_sk a b _ _ Wa Wb Ha Hb) (conj (vcmp_sk a b _ _ Wa Wb Ha Hb) (veq_sk a b _ _ Wa Wb Ha Hb))).
Qed.

(* the ordering used by sort/unique (Ord::cmp) is a total order, transitive, antisymmetric up to
   `==`, and Equal exactly when `==` *)
Theorem C15_vcmp_total_order :
  (forall a b, wf a -> wf b -> vcmp b a = CompOpp (vcmp a b)) /\
  (forall a b, wf a -> wf b -> vle a b \/ vle b a) /\
  (forall a b c, wf a -> wf b -> wf c -> vcmp a b = Lt -> vcmp b c = Lt -> vcmp a c = Lt) /\
  (forall a b c, wf a -> wf b -> wf c -> vle a b -> vle b c -> vle a c) /\
  (forall a b c, wf a -> wf b -> wf c -> vcmp a b = Eq -> vcmp a c = vcmp b c) /\
  (forall a b, wf a -> wf b -> vle a b -> vle b a -> veq a b = true) /\
  (forall a b, wf a -> wf b -> (vcmp a b = Eq <-> veq a b = true)).
Proof. exact vcmp_total_order. Qed.

(* `<` in templates (partial_cmp) is the same order wherever it answers at all *)
Theorem C15_partial_cmp_agrees : forall a, wf a -> forall b, wf b -> forall r,
  vpcmp a b = Some r -> vcmp a b = r.
Proof. exact vpcmp_some_vcmp. Qed.

(* values of different kind ranks are ordered by the rank table of the source, never == and never
   `<`-comparable *)
Theorem C15_rank_decides : forall a b, wf a -> wf b -> rank a <> rank b ->
  vcmp a b = N.compare (rank a) (rank b) /\ veq a b = false /\ vpcmp a b = None.
Proof. intros a b _ _. apply diff_rank. Qed.

(* keys: Eq, Ord and Hash all factor through one normal form that forgets the integer width
   and whether the string is owned or borrowed *)
Theorem C15_key_norm_sound :
  (forall a b, key_wf a = true -> key_wf b = true -> (key_eq a b = true <-> key_norm a = key_norm b)) /\
  (forall a b, key_wf a = true -> key_wf b = true -> key_cmp b a = CompOpp (key_cmp a b)) /\
  (forall a b c, key_wf a = true -> key_wf b = true -> key_wf c = true ->
     tr (key_cmp a b) (key_cmp b c) (key_cmp a c)) /\
  (forall a b, key_wf a = true -> key_wf b = true -> (key_cmp a b = Eq <-> key_eq a b = true)) /\
  (forall a, key_wf a = true -> key_hash a = nkey_hash (key_norm a)) /\
  (forall a b, key_wf a = true -> key_wf b = true -> key_eq a b = true -> key_hash a = key_hash b).
Proof. exact key_norm_sound. Qed.

Theorem C15_key_norm_forgets_representation :
  (forall r r' z, key_norm (KInt r z) = key_norm (KInt r' z)) /\
  (forall s o o', key_norm (KStr s o) = key_norm (KStr s o')).
Proof. split; reflexivity. Qed.

(* m[k], `k in m`, containing, m.k and get find an entry exactly when a key with the same normal
   form is stored, for maps of every size *)
Theorem C15_lookup_spec : forall m item k, wf (VMap m) -> wf item -> as_key item = Some k ->
  (forall v, map_get m k = Some v <-> exists k', In (k', v) m /\ key_norm k' = key_norm k) /\
  (map_get m k <> None <-> In (key_norm k) (map K m)) /\
  get_item_map m item = ROk (match map_get m k with Some v => v | None => VUndef end) /\
  contains (VMap m) item = ROk (is_some (map_get m k)) /\
  test_containing (VMap m) item = ROk (is_some (map_get m k)) /\
  (forall s f, item = VStr s f ->
     get_attr (VMap m) s = map_get m k /\
     forall d, filter_get m item d =
       match map_get m k with
       | Some v => ROk v
       | None => match d with Some x => ROk x | None => RErr ErrMsg end
       end).
Proof. exact lookup_spec. Qed.

(* `k in m` (and containing) hold exactly when some entry's key equals k by value — whatever
   value that entry stores, an undefined or none value included — and then m[k] is that value *)
Theorem C15_in_iff_key_present : forall m item k, wf (VMap m) -> wf item -> as_key item = Some k ->
  (contains (VMap m) item = ROk true <-> exists k' v, In (k', v) m /\ key_norm k' = key_norm k) /\
  (vm_in item (VMap m) = ROk (VBool true) <-> exists k' v, In (k', v) m /\ key_norm k' = key_norm k) /\
  (test_containing (VMap m) item = ROk true <-> exists k' v, In (k', v) m /\ key_norm k' = key_norm k) /\
  (forall k' v, In (k', v) m -> key_norm k' = key_norm k ->
     contains (VMap m) item = ROk true /\ get_item_map m item = ROk v).
Proof. exact in_map_iff_key_present. Qed.

(* the linear scan and the hash lookup of get_attr agree on every map, so the size cutoff
   (Gen.attr_scan_cutoff) is unobservable *)
Theorem C15_get_attr_scan_eq_hash : forall m attr,
  attr_scan m attr = attr_hash m attr /\
  get_attr (VMap m) attr = map_get m (KStr attr false).
Proof. intros m attr. exact (conj (attr_scan_eq_hash m attr) (get_attr_spec (VMap m) attr)). Qed.

(* the iteration order of the HashMap is unobservable by lookups *)
Theorem C15_lookup_order_independent : forall (m m' : list (key * value)) k,
  kwf m -> kdist m -> key_wf k = true -> Permutation m m' -> map_get m k = map_get m' k.
Proof. exact (@map_get_perm value). Qed.

(* "exactly when an equal key was inserted": a map built by any sequence of inserts answers with
   the last value inserted under an equal key, and finds nothing otherwise *)
Theorem C15_lookup_after_inserts : forall (l : list (key * value)) k, kwf l -> key_wf k = true ->
  (kwf (map_from_list l) /\ kdist (map_from_list l) /\
   map_get (map_from_list l) k = assoc_last l k) /\
  (assoc_last l k <> None <-> In (key_norm k) (map K l)).
Proof.
  intros l k Kl Hk. exact (conj (map_from_list_spec l k Kl Hk) (assoc_last_found l k Kl Hk)).
Qed.

(* D2: for the Ord impl as it stood before the patch the order theorem is false — two different
   maps are Equal, and Equal is not transitive on arrays with incomparable elements *)
Theorem C15_vcmp_total_order_refuted_before_fix :
  (exists a b, wf a /\ wf b /\ vcmp_unfixed a b = Eq /\ veq a b = false) /\
  (exists a b c, wf a /\ wf b /\ wf c /\
     vcmp_unfixed a b = Eq /\ vcmp_unfixed b c = Eq /\ vcmp_unfixed a c = Lt).
Proof. exact vcmp_unfixed_refuted. Qed.

Print Assumptions C15_veq_equivalence.
Print Assumptions C15_vcmp_total_order.
Print Assumptions C15_key_norm_sound.
Print Assumptions C15_lookup_spec.
Print Assumptions C15_lookup_after_inserts.
Print Assumptions C15_in_iff_key_present.

(* non-vacuity *)
Definition ex_map1 := VMap [(KInt I64 1, VStr [120%N] false); (KStr [97%N] true, VArr [VNone; VFloat S754_nan])].
Definition ex_map2 := VMap [(KStr [97%N] false, VArr [VNone; VFloat S754_nan]); (KInt U128 1, VStr [120%N] true)].
Example C15_ex_wf : wf ex_map1 /\ wf ex_map2.
Proof. split; vm_compute; reflexivity. Qed.
Example C15_ex_eq_maps : veq ex_map1 ex_map2 = true /\ vcmp ex_map1 ex_map2 = Eq.
Proof. split; vm_compute; reflexivity. Qed.
Example C15_ex_float_int :
  veq (VFloat (S754_finite false 4503599627370496 1)) (VInt U128 9007199254740992) = true /\
  vcmp (VFloat (S754_finite false 4503599627370496 1)) (VInt I64 9007199254740993) = Lt /\
  vcmp (VInt U128 340282366920938463463374607431768211455) (VFloat (S754_finite false 4503599627370496 76)) = Lt.
Proof. repeat split; vm_compute; reflexivity. Qed.
Example C15_ex_fixed_order :
  vcmp d2_m1 d2_m2 = Lt /\ vcmp d2_a1 d2_a2 = Gt /\ vcmp d2_a2 d2_a3 = Lt /\ vcmp d2_a1 d2_a3 = Lt.
Proof. repeat split; vm_compute; reflexivity. Qed.
Example C15_ex_in_with_undefined_value :
  wf (VMap [(KStr [107%N] true, VUndef); (KInt U64 1, VNone)]) /\
  vm_in (VStr [107%N] false) (VMap [(KStr [107%N] true, VUndef); (KInt U64 1, VNone)]) = ROk (VBool true) /\
  vm_in (VInt I128 1) (VMap [(KStr [107%N] true, VUndef); (KInt U64 1, VNone)]) = ROk (VBool true) /\
  vm_subscript_map false (VMap [(KStr [107%N] true, VUndef)]) (VStr [107%N] true) = ROk VUndef.
Proof. repeat split; vm_compute; reflexivity. Qed.
Example C15_ex_lookup :
  get_item_map [(KInt I64 1, VBool true)] (VInt U128 1) = ROk (VBool true) /\
  get_attr ex_map1 [97%N] = Some (VArr [VNone; VFloat S754_nan]).
Proof. split; vm_compute; reflexivity. Qed.
