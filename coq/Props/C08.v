(* C08 — Template text is reproduced verbatim except whitespace next to `-` markers.
   Only statements, each closed by `exact`, by a few lines that instantiate lemmas of the Proofs
   files or (the D6 witness) by evaluation; proofs live in Proofs/Utf8Proofs.v,
   Proofs/WsFilterProofs.v, Proofs/LexerProofs.v, Proofs/LexerSpans.v and Proofs/LexerLocal.v.

   Quantification: every document (list of items of any length; texts, comment bodies, raw
   bodies and expression sources are arbitrary byte lists), every placement of the `-` markers,
   every delimiter set accepted by `validate` (six arbitrary 2-byte strings with pairwise
   distinct start delimiters).  `wf_doc` (Spec/Doc.v) is the property's side condition "the
   delimiters do not occur in the text": no start delimiter begins inside a text, the first
   comment end is the real one, no block start inside a raw body begins an endraw tag, and the
   interior of an expression/tag is something whose end the lexer finds where the document says
   it is (`inside_ends_model`: expressions are opaque for this property).

   The model describes lexer.rs WITH fixes/D6-comment-resets-trim.patch (Model/Lexer.v,
   `comment_flag_fixed = true`); for the pinned code the central statement is false, see
   C08_ws_filter_spec_refuted_pinned. *)
From TeraV Require Import Model.Value Model.Utf8Lex Model.Lexer Spec.Doc Model.LexerDoc
  Proofs.Utf8Proofs Proofs.WsFilterProofs Proofs.LexerProofs Proofs.LexerSpans Proofs.LexerLocal.
Require Import Coq.Strings.String Coq.Strings.Ascii.

(* validate accepts exactly: six 2-byte strings, the three start delimiters pairwise distinct *)
Theorem C08_validate_spec : forall dl,
  validate dl = ROk tt <-> spelling_ok (spelling_of dl).
Proof. exact validate_spec. Qed.

(* the lexer model cuts the spelling of a well-formed document exactly at its item boundaries,
   with the markers as written and raw bodies verbatim (trimmed by their own inner markers) *)
Theorem C08_lex_print : forall dl dc,
  validate dl = ROk tt ->
  wf_doc (spelling_of dl) inside_ends_model dc ->
  template_items dl (print (spelling_of dl) dc) = ROk (items_of dc).
Proof.
  exact (fun dl dc V => lex_print_items dl (proj1 (validate_spec dl) V) dc).
Qed.

(* whitespace_filter followed by the parser's drop-empty-text rule is the adjacency
   specification — for EVERY document (no side condition): each text / raw body loses leading
   White_Space iff the directly preceding item ends with `-`, trailing iff the directly following
   item starts with `-`, raw bodies additionally by their inner markers, comments vanish,
   nothing else changes *)
Theorem C08_ws_filter_spec : forall dc,
  drop_empty (ws_filter (items_of dc)) = spec_toks dc.
Proof. exact wsf_fixed_spec. Qed.

(* D6: with the comment arm of the pinned lexer.rs (`if end_ws { remove_leading_ws = true }`,
   flag otherwise kept) the statement above is false; witness  A {{ 1 -}}{# c #}  B *)
Theorem C08_ws_filter_spec_refuted_pinned :
  exists dc, drop_empty (wsf false false (items_of dc)) <> spec_toks dc.
Proof. exists d6_witness. vm_compute. discriminate. Qed.

(* the filter may equally be run on the full token stream (interiors of tags included), as the
   real code does: on the lexer's output it commutes with the template-level view *)
Theorem C08_parser_view_spec : forall dl dc,
  validate dl = ROk tt ->
  wf_doc (spelling_of dl) inside_ends_model dc ->
  parser_view dl (print (spelling_of dl) dc) = ROk (spec_toks dc).
Proof.
  exact (fun dl dc V => parser_view_spec dl (proj1 (validate_spec dl) V) dc).
Qed.

(* end to end: source bytes -> lexer -> filter -> drop empty -> inert rendering = specification *)
Theorem C08_render_print_spec : forall dl out_of dc,
  validate dl = ROk tt ->
  wf_doc (spelling_of dl) inside_ends_model dc ->
  render_source out_of dl (print (spelling_of dl) dc) = ROk (spec_render out_of dc).
Proof.
  exact (fun dl out_of dc V => render_print_spec dl (proj1 (validate_spec dl) V) out_of dc).
Qed.

(* a source with no start-delimiter window is one Content token (none when empty) and renders
   to itself, byte for byte *)
Theorem C08_no_start_delimiter_renders_itself : forall dl out_of src,
  validate dl = ROk tt ->
  (forall p, ~ start_at (spelling_of dl) src p) ->
  template_items dl src = ROk (match src with [] => [] | _ => [TContent src] end)
  /\ render_source out_of dl src = ROk src.
Proof.
  exact (fun dl out_of src V => no_start_renders_itself dl (proj1 (validate_spec dl) V) out_of src).
Qed.

(* re-spelling a document with another accepted delimiter set does not change what it renders *)
Theorem C08_delimiter_respelling_invariant : forall dl1 dl2 out_of dc,
  validate dl1 = ROk tt -> validate dl2 = ROk tt ->
  wf_doc (spelling_of dl1) inside_ends_model dc ->
  wf_doc (spelling_of dl2) inside_ends_model dc ->
  render_source out_of dl1 (print (spelling_of dl1) dc)
  = render_source out_of dl2 (print (spelling_of dl2) dc).
Proof. exact respelling_invariant. Qed.

(* the trimming functions remove White_Space characters only, and compose as the
   specification composes them *)
Theorem C08_trim_removes_only_white_space : forall s,
  (exists w, ws_run w /\ s = w ++ trim_start s) /\ (exists w, ws_run w /\ s = trim_end s ++ w).
Proof. exact (fun s => conj (trim_start_removes_ws s) (trim_end_removes_ws s)). Qed.

Theorem C08_trim_algebra : forall s,
  trim_start (trim_start s) = trim_start s /\ trim_end (trim_end s) = trim_end s
  /\ trim_start (trim_end s) = trim_end (trim_start s).
Proof. exact (fun s => conj (trim_start_idem s) (conj (trim_end_idem s) (trim_start_end_comm s))). Qed.

(* a code point below U+3100 is one of the 25 White_Space code points (all of them are below:
   the largest is U+3000) exactly when its UTF-8 encoding is one of the byte patterns matched by
   the trimming functions; code points from U+3100 on are not covered by the statement *)
Theorem C08_ws_patterns_are_white_space : forall cp, (cp <? 0x3100)%N = true ->
  is_ws_cp cp = match ws_strip (utf8_encode_cp cp) with Some (_, []) => true | _ => false end.
Proof. exact ws_patterns_are_white_space. Qed.

(* the expression/tag side condition of wf_doc is local: it can be established by running the
   interior scanner on the item alone (source, marker, end delimiter), whatever follows — except
   for the one end delimiter `--`, after which a further `-` changes the reading *)
Theorem C08_inside_ends_by_item : forall e src r tail,
  List.length e = 2%nat -> e <> [dash; dash] ->
  inside_ends_model e (src ++ mk r ++ e) r [] ->
  inside_ends_model e (src ++ mk r ++ e ++ tail) r tail.
Proof.
  intros e src r tail Le Ne H. apply (inside_ends_local _ _ _ _ tail Le Ne) in H.
  repeat rewrite <- app_assoc in H. exact H.
Qed.

(* the span bookkeeping of `advance!` (line, column in characters, byte) is the line/column
   function of the source at the cumulative token offsets: line = 1 + newlines before the offset,
   column = characters since the last newline *)
Theorem C08_spans_are_linecol : forall src ts,
  spans_from src loc0 ts
  = map (fun '(t, (s, e)) => (t, (linecol src s, linecol src e)))
        (combine (map tok_of ts) (offsets 0 ts)).
Proof. intros src ts. exact (spans_from_offsets src ts 0). Qed.

(* every byte range of a successful run is well-ordered and lies inside the source *)
Theorem C08_token_ranges_in_source : forall dl src pt s e,
  validate dl = ROk tt -> lex_ptoks dl src = ROk pt -> In (s, e) (offsets 0 pt) ->
  (s <= e /\ e <= List.length src)%nat.
Proof. exact token_ranges_in_source. Qed.

(* every iteration consumes at least one byte: the token stream is finite and the model never
   runs out of fuel (ErrPanic is what the model would report for it); the nested scanners'
   results do not depend on their fuel either (scan_inside below, raw_loop: LexerSpans.raw_loop_fuel) *)
Theorem C08_lexer_total : forall dl src,
  validate dl = ROk tt -> lex_ptoks dl src <> RErr ErrPanic.
Proof. exact lex_ptoks_total. Qed.

Theorem C08_scan_inside_fuel_irrelevant : forall f1 f2 e s,
  (List.length s < f1)%nat -> (List.length s < f2)%nat -> scan_inside f1 e s = scan_inside f2 e s.
Proof. exact scan_inside_fuel. Qed.

Print Assumptions C08_validate_spec.
Print Assumptions C08_lex_print.
Print Assumptions C08_ws_filter_spec.
Print Assumptions C08_ws_filter_spec_refuted_pinned.
Print Assumptions C08_render_print_spec.
Print Assumptions C08_no_start_delimiter_renders_itself.
Print Assumptions C08_delimiter_respelling_invariant.
Print Assumptions C08_inside_ends_by_item.
Print Assumptions C08_spans_are_linecol.
Print Assumptions C08_lexer_total.
Print Assumptions C08_token_ranges_in_source.

Definition b (s : string) : bytes := map (fun a => N_of_ascii a) (list_ascii_of_string s).

(* a document with every item kind, markers, a raw body containing delimiters and an expression
   whose string contains the end delimiter; it is well-formed under two delimiter sets *)
Definition ex_doc : doc :=
  [Text (b "A  "); Expr true (b " 1 ") true; Comment false (b " c ") false; Text (b "  B }");
   Raw false true (b "  {{ x }} {% if %} ") false true; Text (b "  C ");
   Tag true (b " set x = 1 ") false; Expr false (b " ""a"" ") false].

Definition alt_delims : delims :=
  mkDelims (b "<%") (b "%>") (b "<<") (b ">>") (b "<#") (b "#>").

Example C08_ex_validate : validate default_delims = ROk tt /\ validate alt_delims = ROk tt.
Proof. split; reflexivity. Qed.

(* decidable parts of wf_doc are checked by running the model; the run also shows the lexer
   reading the printed document back *)
Example C08_ex_reads_back :
  template_items default_delims (print (spelling_of default_delims) ex_doc) = ROk (items_of ex_doc)
  /\ template_items alt_delims (print (spelling_of alt_delims) ex_doc) = ROk (items_of ex_doc).
Proof. split; vm_compute; reflexivity. Qed.

Example C08_ex_render :
  render_source (fun k => match k with O => b "1" | _ => b "a" end) default_delims
    (print (spelling_of default_delims) ex_doc)
  = ROk (b "A1  B }{{ x }} {% if %} Ca")
  /\ spec_render (fun k => match k with O => b "1" | _ => b "a" end) ex_doc
     = b "A1  B }{{ x }} {% if %} Ca".
Proof. split; vm_compute; reflexivity. Qed.

(* the D6 witness under the fixed rule: the text after the comment keeps its blanks *)
Example C08_ex_d6_fixed :
  render_source (fun _ => b "1") default_delims (b "A {{ 1 -}}{# c #}  B") = ROk (b "A 1  B")
  /\ render_source (fun _ => b "1") default_delims (b "A {{ 1 -}}{# c -#}  B") = ROk (b "A 1B").
Proof. split; vm_compute; reflexivity. Qed.

(* wf_doc is satisfiable for a document with an expression, a comment and a text *)
Example C08_ex_wf :
  wf_doc (spelling_of default_delims) inside_ends_model
    [Expr false (b " 1 ") true; Comment false (b " c ") false; Text (b "  B")].
Proof.
  cbn [wf_doc wf_item]. repeat split; try discriminate; try exact I.
  - exists [(TInteger 1, 1, 1)%nat], 1%nat. vm_compute. reflexivity.
  - intros p Hp. cbn in Hp. unfold occurs.
    do 3 (destruct p as [|p]; [vm_compute; discriminate|]). lia.
  - intros p Hp. cbn in Hp. unfold start_at, occurs.
    do 3 (destruct p as [|p]; [vm_compute; intros [H|[H|H]]; discriminate|]). lia.
Qed.
