(* C03 — Control flow, variable scoping, captures and includes behave as documented.
   Statements over the concrete VM model (Model/VM.v); proofs in Proofs/VMProofs.v (scopes, loop
   counters, assignments), Proofs/CompileProofs.v (the compiler against the reference interpreter)
   and, for the full world, Proofs/World1Proofs.v and World1Format.v.
   The model itself is tied to vm/interpreter.rs, vm/state.rs and vm/for_loop.rs by running the
   REAL finalized chunks of generated templates and template sets on it (Corr/CorrVM.v). *)
From TeraV Require Import Model.Value Model.Instr Model.VFormat Model.VM Model.World0 Spec.Stmt Model.Compile
  Proofs.VMProofs Proofs.CompileProofs.
Local Open Scope nat_scope.

(* Names resolve innermost loop first, then assignments, then the includer's scopes (only when
   they bind the name), then the render context, then the global context. *)
Theorem C03_scope_chain : forall loops setvars parent context global n,
  scope_get (Scope loops setvars parent context global) n =
  lookup_spec loops setvars (match parent with Some p => scope_get p n | None => VUndef end)
              context global n.
Proof. exact scope_chain. Qed.

(* loop.index0 / first / last / length and the current element after the k-th Iterate of a loop
   over `items` (array elements, string characters, map entries), for every k and every
   non-zero end_ip (compiled loops always have one: C09's iterate_forward side condition);
   per-iteration assignments are cleared when the next iteration starts *)
Theorem C03_loop_counters : forall items comp e k,
  e <> 0 -> 1 <= k <= length items ->
  let f := advance_n k (new_loop items comp) e in
  lf_index0 f = k - 1 /\
  lf_first f = Nat.eqb k 1 /\
  lf_last f = Nat.eqb k (length items) /\
  lf_length f = length items /\
  nth_error items (k - 1) = Some (lf_current f) /\
  lf_rest f = skipn k items /\
  lf_iterated f = true /\
  lf_end_ip f = e /\
  (2 <= k -> lf_context f = []).
Proof. exact loop_counters. Qed.

(* the `end_ip != 0` convention is load-bearing: with a zero end_ip the counters never move *)
Theorem C03_loop_counters_need_nonzero_end_ip : forall items comp k,
  lf_index0 (advance_n k (new_loop items comp) 0) = 0.
Proof. exact loop_counters_need_nonzero_end_ip. Qed.

(* an assignment inside a loop body goes to the innermost frame only; outside loops it is global *)
Theorem C03_store_local_in_loop : forall s f t n v,
  loops s = f :: t ->
  loops (store_local s n v) = lf_store f n v :: t /\ setvars (store_local s n v) = setvars s.
Proof. exact store_local_in_loop. Qed.

Theorem C03_store_local_outside_loop : forall s n v,
  loops s = [] -> store_local s n v = store_global s n v.
Proof. exact store_local_outside_loop. Qed.

(* set_global (and set outside loops) is what later lookups see, unless a loop variable shadows it *)
Theorem C03_set_global_persists : forall s n v,
  get_value (store_global s n v) n = v \/ exists f, In f (loops s) /\ lf_get f n <> None.
Proof. exact set_global_persists. Qed.

Print Assumptions C03_scope_chain.
Print Assumptions C03_loop_counters.

Example C03_ex_counters :
  let f := advance_n 2 (new_loop [(None, VInt U64 7); (None, VInt U64 8); (None, VInt U64 9)] false) 5 in
  (lf_index0 f, lf_first f, lf_last f, snd (lf_current f)) = (1, false, false, VInt U64 8).
Proof. vm_compute. reflexivity. Qed.


(* Spec/Stmt.v is a big-step, fuel-free interpreter of statement
   trees written from the documentation; Model/Compile.v is the port of compile_node/compile_expr
   (back-patched jump targets); Model/VM.v is the port of interpret().  For every template
   library (statement trees of ANY nesting: if/elif/else, for [key,] value with else over arrays,
   strings and maps, break/continue under any ifs in nested loops, set/set_global, set blocks and
   filter sections with filters, includes -- in captures, in loops), every context and global
   context, every world whose kwargs keys are strings and whose filters and functions do not
   inspect the VM state, and every non-failing appending writer: rendering the compiled library on the VM gives
   exactly the text of the reference interpreter, or both fail; any fuel >= n is enough.
   This contains what DESIGN §6 lists as for_loop_refinement, break_continue_innermost,
   if_first_truthy_branch (with C03_if_first_truthy_branch below) and capture exactness: those
   are its names for claims, no theorem is called so.
   Expressions covered (Spec/Stmt.v expr, Compile.wf_expr): constants, variables, loop.* fields,
   attributes (plain and optional `?.`), not/and/or, ==, every other binary operator (+ - * / //
   % ** < <= > >= != ~ in; `not in` = not (.. in ..)), unary minus, the ternary, subscripts and
   slices (plain and optional), tests, filters with keyword arguments.  The operators, subscript
   and slice are parameters of the reference interpreter (builtins b_binop, b_neg, b_subscript,
   b_slice: C13/C14/C17 own their meaning); what is proved here is evaluation order, error
   propagation, short-circuiting and that only the chosen branch of a ternary is evaluated.
   Function calls with keyword arguments are covered too (b_function; the world's functions must
   not read the VM state, as for filters; `super()` is excluded by wf_expr: it is not a function).
   EXCLUDED by wf_expr (compiled by Model/Compile.v and covered by C07_compile_always_checks,
   but compile_correct is not proved for them): array and map literals.
   Hypotheses on the trees (lib_wf = what the parser guarantees, Compile.wf_stmt): break/continue
   only in a loop and not across a capture, loop.* only inside a for, non-empty loop variable
   names, user variables not named __tera_context/__tera_loop_*, includes name templates listed
   later in the library (acyclic include graph, C11). *)
Theorem C03_compile_correct :
  forall (W : Type) (wr : W -> str -> option W) (wapp : W -> str -> W),
    (forall w t, wr w t = Some (wapp w t)) ->
    (forall w a b, wapp (wapp w a) b = wapp w (a ++ b)) ->
    (forall w, wapp w [] = w) ->
  forall wd : world,
    (forall k, w_as_key wd (VStr k false) = Some (KStr k true)) ->
    (forall n v k sc sc', w_filter wd n v k sc = w_filter wd n v k sc') ->
    (forall n k sc sc', w_function wd n k sc = w_function wd n k sc') ->
  forall (lib : list tdef) (name : str) (t : tdef) (cx glob : ctx) (w : W),
    world_has wd lib -> lib_wf lib -> find_t lib name = Some t ->
    match render (builtins_of_world wd) None lib name cx glob with
    | ROk text => exists n s', forall k,
        render_to W wr wd (n + k) (compile_tdef t) None cx glob w = RDone s' (SinkTop (wapp w text))
    | RErr _ => exists n e, forall k,
        render_to W wr wd (n + k) (compile_tdef t) None cx glob w = RFail e
    end.
Proof. exact compile_correct. Qed.

(* the instance the correspondence runs: string writer, the world of Model/World0.v whose template
   table is the compiled library *)
Theorem C03_compile_correct_world0 :
  forall (lib : list tdef) (name : str) (t : tdef) (cx glob : ctx) (w : str),
    NoDup (map td_name lib) -> lib_wf lib -> find_t lib name = Some t ->
    let wd := world0 (map (fun t => (td_name t, compile_tdef t)) lib) in
    match render (builtins_of_world wd) None lib name cx glob with
    | ROk text => exists n s', forall k,
        render_to str wr_str wd (n + k) (compile_tdef t) None cx glob w = RDone s' (SinkTop (w ++ text))
    | RErr _ => exists n e, forall k,
        render_to str wr_str wd (n + k) (compile_tdef t) None cx glob w = RFail e
    end.
Proof.
  intros lib name t cx glob w Hnd Hwf Hf wd.
  exact (compile_correct_str wd lib name t cx glob w (fun _ => eq_refl) (fun _ _ _ _ _ => eq_refl) (fun _ _ _ _ => eq_refl)
           Hnd eq_refl Hwf Hf).
Qed.

(* statement level, inside any chunk at any position: the "code at pc" invariant.  list_ok says:
   from pc, in any state, the compiled statements reach pc+length (normal end), the Iterate of
   the innermost enclosing loop (continue) or that loop's end (break) -- never another loop's --
   with the loops/assignments of the reference outcome and its text appended to the current
   sink (innermost capture buffer, else the output); or fail when the reference fails. *)
Theorem C03_body_correct :
  forall (W : Type) (wr : W -> str -> option W) (wapp : W -> str -> W),
    (forall w t, wr w t = Some (wapp w t)) ->
    (forall w a b, wapp (wapp w a) b = wapp w (a ++ b)) ->
    (forall w, wapp w [] = w) ->
  forall wd : world,
    (forall k, w_as_key wd (VStr k false) = Some (KStr k true)) ->
    (forall n v k sc sc', w_filter wd n v k sc = w_filter wd n v k sc') ->
    (forall n k sc sc', w_function wd n k sc = w_function wd n k sc') ->
  forall tpl ae depth ch inc okn,
    inc_sim W wr wapp wd ae depth inc okn ->
    forall body, list_ok W wr wapp wd tpl ae depth ch inc okn body.
Proof. exact body_correct. Qed.

(* if / elif* / else renders exactly the first branch whose condition is truthy (reference
   interpreter; C03_compile_correct carries it to the compiled code) *)
Theorem C03_if_first_truthy_branch : forall B ae inc branches els en,
  exec_list B ae inc (if_chain branches els) en
  = match first_truthy B branches els en with
    | ROk body => exec_list B ae inc body en
    | RErr x => RErr x
    end.
Proof. exact if_first_truthy_branch. Qed.

(* capture exactness.  PARTIAL: stated for compiled statement lists (every body a set block or
   filter section can have), not for arbitrary instruction segments between Capture and
   EndCapture: the captured string (run with a fresh buffer on the capture stack) is exactly the
   text the same code appends to the enclosing sink when run without it, includes included. *)
Theorem C03_capture_is_exact_partial :
  forall (W : Type) (wr : W -> str -> option W) (wapp : W -> str -> W),
    (forall w t, wr w t = Some (wapp w t)) ->
    (forall w a b, wapp (wapp w a) b = wapp w (a ++ b)) ->
    (forall w, wapp w [] = w) ->
  forall wd : world,
    (forall k, w_as_key wd (VStr k false) = Some (KStr k true)) ->
    (forall n v k sc sc', w_filter wd n v k sc = w_filter wd n v k sc') ->
    (forall n k sc sc', w_function wd n k sc = w_function wd n k sc') ->
  forall tpl ae depth ch inc okn,
    inc_sim W wr wapp wd ae depth inc okn ->
  forall body lex pc b stk l sv c o,
    forallb (wf_stmt okn lex false) body = true -> pre lex None b l ->
    code_at ch pc (compile_seq compile_node pc None body) ->
    match exec_list (builtins_of_world wd) (aesc tpl ae) inc body (absE b l sv) with
    | ROk (en1, text, SigNormal) =>
        let pe := pc + length (compile_seq compile_node pc None body) in
        (exists l' sv', en1 = absE b l' sv' /\
           steps W wr wd tpl ae depth ch pc (mk b stk l sv ([] :: c)) o pe (mk b stk l' sv' (text :: c)) o) /\
        (exists l' sv', en1 = absE b l' sv' /\
           steps W wr wd tpl ae depth ch pc (mk b stk l sv c) o pe
                 (mk b stk l' sv' (out_caps c text)) (out_sink W wapp c o text))
    | _ => True
    end.
Proof. exact capture_is_exact_compiled. Qed.

(* Include, for EVERY chunk, included chunk and outcome: the include's own final state is dropped;
   the includer goes on from its own unchanged state, only the text reaches its current sink *)
Theorem C03_include_state_is_fresh :
  forall (W : Type) (wr : W -> str -> option W) (wd : world) f tpl ae depth ch pc s (o : sink W) name t2,
    nth_error ch pc = Some (Include name) -> assoc_get (w_templates wd) name = Some t2 ->
    run W wr wd (S f) tpl ae depth ch pc s o
    = match caps s with
      | [] => match run W wr wd f t2 ae depth (t_root_chunk t2) 0 (inc_state (scope_of s) (context s)) o with
              | RDone _ o1 => run W wr wd f tpl ae depth ch (S pc) s o1
              | RFail e => RFail e
              | ROutOfFuel => ROutOfFuel
              end
      | c :: ct => match run W wr wd f t2 ae depth (t_root_chunk t2) 0 (inc_state (scope_of s) (context s)) (SinkBuf c) with
                   | RDone _ (SinkBuf c1) => run W wr wd f tpl ae depth ch (S pc) (upd_caps s (c1 :: ct)) o
                   | RDone _ (SinkTop _) => RFail ErrPanic
                   | RFail e => RFail e
                   | ROutOfFuel => ROutOfFuel
                   end
      end.
Proof. exact include_state_is_fresh. Qed.

(* a render (of the root chunk, no block selected) is a run from the fresh state, which is built
   from the context and the global context alone; there a name resolves to the context, then the
   global context, else Undefined *)
Theorem C03_nothing_survives_render :
  forall (W : Type) (wr : W -> str -> option W) (wd : world) fuel tpl cx glob (w : W),
    render_to W wr wd fuel tpl None cx glob w
    = run W wr wd fuel tpl None 0 (t_root_chunk tpl) 0 (fresh_state cx glob) (SinkTop w)
    /\ forall n, get_value (fresh_state cx glob) n
                 = match ctx_get cx n with
                   | Some v => v
                   | None => match ctx_get glob n with Some v => v | None => VUndef end
                   end.
Proof. exact nothing_survives_render. Qed.

Print Assumptions C03_compile_correct.
Print Assumptions C03_compile_correct_world0.
Print Assumptions C03_body_correct.
Print Assumptions C03_if_first_truthy_branch.
Print Assumptions C03_capture_is_exact_partial.
Print Assumptions C03_include_state_is_fresh.
Print Assumptions C03_nothing_survives_render.

(* non-vacuity: {% for x in a %}{% if x == 2 %}{% continue %}{% endif %}{% if x == 4 %}{% break %}{% endif %}
   {{ loop.index }}:{% include "i" %};{% else %}e{% endfor %}{{ x | default(value="n") }}
   with "i" = {{ x }}{% set x = 9 %}: continue and break act on the loop, the include sees the loop
   variable, its assignment does not reach the includer, the loop variable is gone after the loop *)
Definition ex_inc : tdef :=
  {| td_name := [105]%N; td_autoescape := false;
     td_body := [SPrint (EVar [120]%N); SAssign false [120]%N (EConst (VInt U64 9))] |}.
Definition ex_main : tdef :=
  {| td_name := [116]%N; td_autoescape := false;
     td_body :=
       [SFor None [120]%N (EVar [97]%N)
          [SIf (EEq (EVar [120]%N) (EConst (VInt U64 2))) [SContinue] [];
           SIf (EEq (EVar [120]%N) (EConst (VInt U64 4))) [SBreak] [];
           SPrint (ELoop LIndex); SText [58]%N; SInclude [105]%N; SText [59]%N]
          [SText [101]%N];
        SPrint (EFilter (EVar [120]%N) [100;101;102;97;117;108;116]%N
                  [([118;97;108;117;101]%N, EConst (VStr [110]%N false))])] |}.
Definition ex_lib := [ex_main; ex_inc].
Definition ex_ctx : ctx :=
  [([97]%N, VArr [VInt U64 1; VInt U64 2; VInt U64 3; VInt U64 4; VInt U64 5])].
Definition ex_world := world0 (map (fun t => (td_name t, compile_tdef t)) ex_lib).

Example C03_ex_lib_wf : lib_wf ex_lib /\ NoDup (map td_name ex_lib) /\ find_t ex_lib [116]%N = Some ex_main.
Proof.
  split; [vm_compute; repeat split|]. split; [|reflexivity].
  repeat constructor; cbn; intuition discriminate.
Qed.

Example C03_ex_reference :
  render (builtins_of_world ex_world) None ex_lib [116]%N ex_ctx [] = ROk [49;58;49;59;51;58;51;59;110]%N.
Proof. vm_compute. reflexivity. Qed.

Example C03_ex_vm :
  match render_to str wr_str ex_world 400 (compile_tdef ex_main) None ex_ctx [] [] with
  | RDone _ (SinkTop out) => out
  | _ => []
  end = [49;58;49;59;51;58;51;59;110]%N.
Proof. vm_compute. reflexivity. Qed.

(* the operator / ternary / subscript / slice / optional-chaining forms:
   {% for x in a %}{{ (x ~ "<") if x < 3 and x != 2 else ("k" in m) }}{{ a[1:][0] }}{{ m?.k }}{% endfor %}
   is well formed, and the reference interpreter and the compiled code on the VM agree *)
Definition ex2_main : tdef :=
  {| td_name := [116]%N; td_autoescape := false;
     td_body :=
       [SFor None [120]%N (EVar [97]%N)
          [SPrint (ETernary (EAnd (EBin BLt (EVar [120]%N) (EConst (VInt I64 3))) (EBin BNe (EVar [120]%N) (EConst (VInt I64 2))))
                            (EBin BConcat (EVar [120]%N) (EConst (VStr [60]%N false)))
                            (EBin BIn (EConst (VStr [107]%N false)) (EVar [109]%N)));
           SPrint (ESub false (ESlice false (EVar [97]%N) (Some (EConst (VInt I64 1))) None None) (EConst (VInt I64 0)));
           SPrint (EAttrOpt (EVar [109]%N) [107]%N)] []] |}.
Definition ex2_ctx : ctx :=
  [([97]%N, VArr [VInt U64 1; VInt U64 2; VInt U64 3]); ([109]%N, VMap [(KStr [107]%N true, VStr [118]%N false)])].
Definition ex2_world := world0 [([116]%N, compile_tdef ex2_main)].
Definition ex2_out : str := [49; 60; 50; 118; 116; 114; 117; 101; 50; 118; 116; 114; 117; 101; 50; 118]%N.   (* 1<2vtrue2vtrue2v *)

Example C03_ex_operators :
  wf_body (fun _ => false) (td_body ex2_main) = true /\
  render (builtins_of_world ex2_world) None [ex2_main] [116]%N ex2_ctx [] = ROk ex2_out /\
  match render_to str wr_str ex2_world 400 (compile_tdef ex2_main) None ex2_ctx [] [] with
  | RDone _ (SinkTop out) => out
  | _ => []
  end = ex2_out.
Proof. vm_compute. repeat split. Qed.

(* The full world (Model/World1.v): everything the VM delegates is, in World1, the per-property model of the Rust function: Number.v
   (C13), Order.v (C15), CollFilters.v (C16), Builtins.v (C17), Component.v (C05), Format.v (C19)
   with FloatFmt.v for `{:?}` of f64.  Family `vm1` runs the real chunks in that world. *)
From TeraV Require Model.World1 Model.Number Model.Order Model.Component Model.Format Model.Builtins
  Proofs.World1Proofs Proofs.World1Format Proofs.NumCmpProofs.

(* the main theorem transfers: World1 satisfies the three world hypotheses of C03_compile_correct by
   computation (Order.as_key turns a string into an owned string key; World1.filter1 and
   World1.function1 ignore the scope: every registered filter of tera.rs 432-467 takes `_: &State`),
   for any component table *)
Theorem C03_compile_correct_world1 :
  forall (lib : list tdef) (comps : list (str * (comp_def * list instr)))
         (name : str) (t : tdef) (cx glob : ctx) (w : str),
    NoDup (map td_name lib) -> lib_wf lib -> find_t lib name = Some t ->
    let wd := World1.world1 (map (fun t => (td_name t, compile_tdef t)) lib) comps in
    match render (builtins_of_world wd) None lib name cx glob with
    | ROk text => exists n s', forall k,
        render_to str World1.wr_str1 wd (n + k) (compile_tdef t) None cx glob w = RDone s' (SinkTop (w ++ text))
    | RErr _ => exists n e, forall k,
        render_to str World1.wr_str1 wd (n + k) (compile_tdef t) None cx glob w = RFail e
    end.
Proof.
  intros lib comps name t cx glob w Hnd Hwf Hf wd.
  (* compile_correct_str is stated with World0.wr_str; World1.wr_str1 is the same term, w ++ t *)
  exact (compile_correct_str wd lib name t cx glob w (fun _ => eq_refl) (fun _ _ _ _ _ => eq_refl) (fun _ _ _ _ => eq_refl)
           Hnd eq_refl Hwf Hf).
Qed.

(* World1 answers what World0 answers on the World0 subset: well-formed (Order.wf) float-free
   values; `<` between undefined/none/bool/integer/string operands; default, length, upper on
   ASCII text, safe on strings (`pushed` = the value ApplyFilter pushes: World0 flags `safe` as an
   is_safe filter, the engine and World1 do not -- the filter mints the safe string itself);
   tests defined/undefined.  w_format: C03_world1_format_extends_world0 below.  World0 has no
   arithmetic, functions or components to agree with (ErrOther / None there).  Outside the subset
   World0 is NOT the engine (see C03_world0_is_a_toy). *)
Theorem C03_world1_extends_world0 : forall tpls comps,
  let w1 := World1.world1 tpls comps in
  let w0 := world0 tpls in
  w_templates w1 = w_templates w0 /\
  w_max_depth w1 = w_max_depth w0 /\
  w_escape w1 = w_escape w0 /\
  (forall v, w_as_key w1 v = w_as_key w0 v) /\
  (forall v a, w_get_attr w1 v a = w_get_attr w0 v a) /\
  (forall m k, World1Proofs.kwf m -> Order.key_wf k = true -> w_map_get w1 m k = w_map_get w0 m k) /\
  (forall a b, Order.wf a -> World1Proofs.ffree a = true -> Order.wf b -> World1Proofs.ffree b = true ->
               w_eq w1 a b = w_eq w0 a b) /\
  (forall a b, Order.wf a -> Order.wf b -> World1Proofs.w0_scalar a = true -> World1Proofs.w0_scalar b = true ->
               w_cmp w1 a b = w_cmp w0 a b) /\
  (forall c n, Order.wf c -> World1Proofs.ffree c = true -> Order.wf n -> World1Proofs.ffree n = true ->
               w_contains w1 c n = w_contains w0 c n) /\
  (forall v k sc, w_filter w1 n_default v k sc = w_filter w0 n_default v k sc) /\
  (forall v k sc, w_filter w1 n_length v k sc = w_filter w0 n_length v k sc) /\
  (forall s o k sc, World1Proofs.pushed (w_filter w1 n_safe (VStr s o) k sc)
                    = World1Proofs.pushed (w_filter w0 n_safe (VStr s o) k sc)) /\
  (forall v k sc, (forall s o, v = VStr s o -> World1.is_ascii_str s = true) ->
                  w_filter w1 n_upper v k sc = w_filter w0 n_upper v k sc) /\
  (forall v k, w_test w1 n_defined v k = w_test w0 n_defined v k) /\
  (forall v k, w_test w1 n_undefined v k = w_test w0 n_undefined v k).
Proof.
  intros tpls comps w1 w0. repeat apply conj.
  1-3: reflexivity.
  - intros. symmetry. apply World1Proofs.as_key_vformat.
  - intros. symmetry. apply World1Proofs.get_attr_vformat.
  - intros. symmetry. apply World1Proofs.map_get_vformat; assumption.
  - intros. symmetry. apply World1Proofs.veq0_veq; assumption.
  - intros. symmetry. apply World1Proofs.vcmp0_vpcmp; assumption.
  - intros. symmetry. apply World1Proofs.contains0_contains; assumption.
  - exact World1Proofs.filter_default_w0.
  - exact World1Proofs.filter_length_w0.
  - exact World1Proofs.filter_safe_w0.
  - exact World1Proofs.filter_upper_w0.
  - exact World1Proofs.test_defined_w0.
  - exact World1Proofs.test_undefined_w0.
Qed.

(* Value::format: Format.v (C19) with World1's oracles prints what VFormat.v (World0) prints for
   every well-formed value without floats and byte strings -- in particular the two decimal
   printers (Coq's Z.to_int and the division loop of VFormat.z_to_str) give the same numeral *)
Theorem C03_world1_format_extends_world0 : forall tpls comps v,
  Order.wf v -> World1Format.plain v = true ->
  w_format (World1.world1 tpls comps) v = w_format (world0 tpls) v.
Proof. exact (fun _ _ v _ => World1Format.format1_plain v). Qed.   (* Order.wf is not used *)

(* where the toy world is not the engine (all three outside what the `vm` family generates):
   arrays are ordered, `safe` formats a non-string receiver, an ill-formed "unsigned -1" key *)
Theorem C03_world0_is_a_toy :
  (vcmp0 (VArr [VInt U64 1%Z]) (VArr [VInt U64 2%Z]) = None /\
   Order.vpcmp (VArr [VInt U64 1%Z]) (VArr [VInt U64 2%Z]) = Some Lt) /\
  (filter0 n_safe (VInt U64 1%Z) [] (Scope [] [] None [] None) = Some (RErr ErrMsg, true) /\
   World1.filter1 n_safe (VInt U64 1%Z) [] (Scope [] [] None [] None) = Some (ROk (VStr [49%N] true), false)) /\
  (key_eq (KInt I64 (-1)%Z) (KInt U64 (-1)%Z) = true /\ Order.key_eq (KInt I64 (-1)%Z) (KInt U64 (-1)%Z) = false).
Proof.
  exact (conj World1Proofs.vcmp0_differs_on_arrays
           (conj World1Proofs.filter_safe_differs_on_non_strings World1Proofs.key_eq_vformat_differs_on_ill_formed)).
Qed.

(* the models World1 plugs together agree where they describe the same Rust function *)

(* Key::eq and Key::cmp: VFormat.v (C01/C03), Format.v (C19), Component.v (C05) = Order.v (C15) on
   keys whose integer fits its variant *)
Theorem C03_models_agree_on_keys : forall a b, Order.key_wf a = true -> Order.key_wf b = true ->
  key_eq a b = Order.key_eq a b /\ Format.fkey_eqb a b = Order.key_eq a b /\
  Component.key_eqb a b = Order.key_eq a b /\
  key_cmp a b = Order.key_cmp a b /\ Format.fkey_cmp a b = Order.key_cmp a b.
Proof.
  exact (fun a b Ha Hb =>
    conj (World1Proofs.key_eq_vformat a b Ha Hb)
      (conj (World1Proofs.key_eq_format a b Ha Hb)
        (conj (World1Proofs.key_eq_component a b Ha Hb)
          (conj (World1Proofs.key_cmp_vformat a b Ha Hb) (World1Proofs.key_cmp_format a b Ha Hb))))).
Qed.

(* Map::get, Value::get_attr (VFormat.v looks up with Map::get, Order.v ports the linear scan under
   the cutoff + the hash lookup), kwargs.get(&Key::Str(name)) as Component.v and Builtins.v read it *)
Theorem C03_models_agree_on_lookups :
  (forall m k, World1Proofs.kwf m -> Order.key_wf k = true -> map_get m k = Order.map_get m k) /\
  (forall v a, get_attr v a = Order.get_attr v a) /\
  (forall v, as_key v = Order.as_key v) /\
  (forall m n, Component.kw_get m n = Order.map_get m (KStr n false)) /\
  (forall k n, Builtins.kw_find n (World1.kw_strs k) = Order.map_get k (KStr n false)).
Proof.
  exact (conj World1Proofs.map_get_vformat
          (conj World1Proofs.get_attr_vformat
            (conj World1Proofs.as_key_vformat
              (conj World1Proofs.kw_get_component World1Proofs.kw_find_strs)))).
Qed.

(* numeric == and partial_cmp: Number.v (C13, f64 primitives of SpecFloat) = Order.v (C15, exact
   dyadic comparison) for every pair of numbers the engine can hold *)
Theorem C03_models_agree_on_numbers : forall a b, NumCmpProofs.wf_num a -> NumCmpProofs.wf_num b ->
  Number.num_partial_cmp a b = Order.vpcmp a b /\ Number.num_eq a b = Order.veq a b.
Proof.
  exact (fun a b Wa Wb => conj (World1Proofs.num_partial_cmp_vpcmp a b Wa Wb) (World1Proofs.num_eq_veq a b Wa Wb)).
Qed.

(* utils::escape_html: Builtins.v (the escape_html filter) = VFormat.v (the escaper of WriteTop) *)
Theorem C03_models_agree_on_escape_html : forall s, Builtins.escape_html s = escape_html s.
Proof. exact World1Proofs.escape_html_builtins. Qed.

Print Assumptions C03_compile_correct_world1.
Print Assumptions C03_world1_extends_world0.
Print Assumptions C03_world1_format_extends_world0.
Print Assumptions C03_world0_is_a_toy.
Print Assumptions C03_models_agree_on_keys.
Print Assumptions C03_models_agree_on_lookups.
Print Assumptions C03_models_agree_on_numbers.
Print Assumptions C03_models_agree_on_escape_html.

(* non-vacuity: {{ (n + 1.5) * 2 }}|{{ xs | sort | join(sep="-") }}|{{ 7 // 2 }} in World1 *)
Example C03_ex_world1 :
  let tpl := {| t_name := [116]%N;
                t_chunk := [LoadName [110]%N; LoadConst (VFloat (S754_finite false 6755399441055744 (-52))); Plus;
                            LoadConst (VInt U64 2%Z); Mul; WriteTop; WriteText [124]%N;
                            LoadName [120;115]%N; LoadConst (VMap []); ApplyFilter [115;111;114;116]%N;
                            LoadConst (VMap [(KStr [115;101;112]%N true, VStr [45]%N false)]);
                            ApplyFilter [106;111;105;110]%N; WriteTop; WriteText [124]%N;
                            LoadConst (VInt U64 7%Z); LoadConst (VInt U64 2%Z); FloorDiv; WriteTop];
                t_root_chunk := []; t_lineage := []; t_autoescape := true |} in
  match run str World1.wr_str1 (World1.world1 [] []) 100 tpl None 0 (t_chunk tpl) 0
            (new_state [([110]%N, VInt U64 3%Z); ([120;115]%N, VArr [VInt U64 3%Z; VInt U64 1%Z; VInt U64 2%Z])])
            (SinkTop []) with
  | RDone _ (SinkTop out) => out
  | _ => []
  end = [57;46;48;124;49;45;50;45;51;124;51]%N.   (* 9.0|1-2-3|3 *)
Proof. vm_compute. reflexivity. Qed.
