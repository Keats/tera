(* C13 — Integer arithmetic is exact or an error; mixed comparisons are exact.
   Only statements, each closed by `exact` or by a few lines that instantiate lemmas (the closed
   examples by evaluation); proofs live in Proofs/NumberProofs.v (arithmetic),
   Proofs/NumCmpProofs.v (comparison; it takes the laws of the
   dyadic order from Proofs/OrderProofs.v) and Proofs/NumCmpQ.v (the dyadic order is that of the
   rationals).  Quantification: every integer operand in any of the four representations (the tag
   is universally quantified and never matters), every Z as its value (so also u128 values above
   i128::MAX, which are refused, never truncated), every double.

   `exact_or_error a b r` is: if a, b and r all fit i128 then Ok (VInt I128 r) else an error. *)
From TeraV Require Import Model.Value Model.Number Spec.Arith Proofs.NumberProofs
  Proofs.NumCmpProofs Proofs.NumCmpQ.

(* + - * and unary minus: the exact result iff operands and result fit, otherwise an error;
   nothing else can come out (no wrapped / truncated value, no panic) *)
Theorem C13_add_exact_or_error : forall ra a rb b,
  num_add (VInt ra a) (VInt rb b) = exact_or_error a b (a + b).
Proof. exact (math_checked Z.add _). Qed.

Theorem C13_sub_exact_or_error : forall ra a rb b,
  num_sub (VInt ra a) (VInt rb b) = exact_or_error a b (a - b).
Proof. exact (math_checked Z.sub _). Qed.

Theorem C13_mul_exact_or_error : forall ra a rb b,
  num_mul (VInt ra a) (VInt rb b) = exact_or_error a b (a * b).
Proof. exact (math_checked Z.mul _). Qed.

Theorem C13_neg_exact_or_error : forall ra a,
  num_negate (VInt ra a) = exact_or_error a a (- a).
Proof. exact neg_exact. Qed.

(* the same in the `<->` form of the design: Ok v iff operands in range, v exact, v in range *)
Theorem C13_exact_or_error_ok_iff : forall a b r v,
  exact_or_error a b r = Some (ROk v) <->
  fits_i128 a /\ fits_i128 b /\ v = VInt I128 r /\ fits_i128 r.
Proof. exact exact_or_error_ok. Qed.

Theorem C13_exact_or_error_else_error : forall a b r,
  exact_or_error a b r = Some (ROk (VInt I128 r)) \/ exact_or_error a b r = Some (RErr ErrMsg).
Proof. exact exact_or_error_total. Qed.

(* // and %: Euclidean quotient and remainder (the unique pair of the property text), each
   returned iff in range; division by zero is an error *)
Theorem C13_floordiv_rem_euclid : forall ra a rb b,
  b <> 0 ->
  num_floor_div (VInt ra a) (VInt rb b) = exact_or_error a b (euclid_div a b) /\
  num_rem (VInt ra a) (VInt rb b) = exact_or_error a b (euclid_mod a b) /\
  euclid_div a b * b + euclid_mod a b = a /\
  0 <= euclid_mod a b < Z.abs b.
Proof.
  exact (fun ra a rb b H =>
    conj (floor_div_exact ra a rb b H)
      (conj (rem_exact ra a rb b H) (euclid_spec_is_euclid a b H))).
Qed.

(* the specification's pair is THE pair satisfying the two laws of the property text *)
Theorem C13_euclid_pair_unique : forall a b q r,
  b <> 0 -> q * b + r = a /\ 0 <= r < Z.abs b -> q = euclid_div a b /\ r = euclid_mod a b.
Proof. exact euclid_unique. Qed.

(* the remainder always fits; the quotient fits except for i128::MIN // -1 *)
Theorem C13_euclid_results_fit : forall a b,
  b <> 0 -> fits_i128 a -> fits_i128 b ->
  fits_i128 (euclid_mod a b) /\
  (fits_i128 (euclid_div a b) <-> ~ (a = i128_min /\ b = -1)).
Proof.
  exact (fun a b H Ha Hb => conj (euclid_mod_fits two127 a b H Hb) (euclid_div_fits two127 a b H Ha Hb)).
Qed.

Theorem C13_division_by_zero_is_error : forall a rb s,
  (num_floor_div a (VInt rb 0) = Some (RErr ErrMsg) /\
   num_rem a (VInt rb 0) = Some (RErr ErrMsg) /\
   num_div a (VInt rb 0) = Some (RErr ErrMsg)) /\
  (num_floor_div a (VFloat (S754_zero s)) = Some (RErr ErrMsg) /\
   num_rem a (VFloat (S754_zero s)) = Some (RErr ErrMsg) /\
   num_div a (VFloat (S754_zero s)) = Some (RErr ErrMsg)).
Proof. split; eapply zero_divisor_errors; reflexivity. Qed.

(* D3: the function as it was before fixes/D3-rem-min-neg1.patch refuses i128::MIN % -1 *)
Theorem C13_rem_before_D3_refuted : exists a b,
  b <> 0 /\ fits_i128 a /\ fits_i128 b /\ fits_i128 (euclid_mod a b) /\
  num_rem_before_D3 (VInt I128 a) (VInt I64 b) <> exact_or_error a b (euclid_mod a b).
Proof.
  exists i128_min, (-1). repeat split; try (vm_compute; discriminate).
Qed.

(* **: exact iff in range for every non-negative exponent up to u32::MAX.  Exponents above
   u32::MAX are the known finding `pow:exponent>u32::MAX` (D4): always an error, although the
   result fits when the base is -1, 0 or 1. *)
Theorem C13_pow_exact : forall ra a rb b,
  0 <= b -> ~ pow_exponent_above_u32 b ->
  num_pow (VInt ra a) (VInt rb b) = exact_or_error a b (a ^ b).
Proof. exact pow_exact. Qed.

Theorem C13_pow_exact_refuted : exists a b,
  0 <= b /\ pow_exponent_above_u32 b /\ fits_i128 a /\ fits_i128 b /\ fits_i128 (a ^ b) /\
  num_pow (VInt U64 a) (VInt U64 b) = Some (RErr ErrMsg).
Proof.
  exists 1, 5000000000. rewrite Z.pow_1_l by lia.
  repeat split; try (vm_compute; congruence).
Qed.

Theorem C13_pow_above_u32_is_error : forall ra a rb b,
  pow_exponent_above_u32 b -> num_pow (VInt ra a) (VInt rb b) = Some (RErr ErrMsg).
Proof. exact pow_above_u32_errors. Qed.

(* std's checked_pow (square-and-multiply over checked_mul, ported literally with 32 units of
   fuel) never runs out of fuel for a u32 exponent and returns the exact power iff it fits *)
Theorem C13_checked_pow_loop_exact : forall a e,
  fits_i128 a -> 0 <= e <= u32_max ->
  checked_pow_loop a e = Some (if in_i128 (a ^ e) then Some (a ^ e) else None).
Proof. exact checked_pow_loop_spec. Qed.

(* `/` always yields the float quotient of the two operands converted to f64 *)
Theorem C13_div_is_float : forall a b l r,
  as_number a = Some l -> as_number b = Some r ->
  num_div a b =
    if num_is_zero r then Some (RErr ErrMsg)
    else Some (ROk (VFloat (SFdiv 53 1024 (into_float l) (into_float r)))).
Proof. exact div_is_float. Qed.

(* any float operand: the operation is the IEEE one on the operands converted to f64 *)
Theorem C13_float_operand_promotes : forall a b l r,
  as_number a = Some l -> as_number b = Some r ->
  num_is_float l || num_is_float r = true ->
  num_add a b = Some (ROk (VFloat (SFadd 53 1024 (into_float l) (into_float r)))) /\
  num_sub a b = Some (ROk (VFloat (SFsub 53 1024 (into_float l) (into_float r)))) /\
  num_mul a b = Some (ROk (VFloat (SFmul 53 1024 (into_float l) (into_float r)))).
Proof. exact float_operand_promotes. Qed.

(* an integer that does not fit i128 (a u128 above i128::MAX) is refused by every operation *)
Theorem C13_oversize_operand_is_error : forall op ra a b,
  in_i128 a = false ->
  num_binop op (VInt ra a) b = Some (RErr ErrMsg) /\ num_binop op b (VInt ra a) = Some (RErr ErrMsg).
Proof. exact oversize_operand_errors. Qed.

(* never a panic, for operands of any kind *)
Theorem C13_no_panic : forall op a b,
  vm_binop op a b <> Some (RErr ErrPanic) /\ vm_negative a <> Some (RErr ErrPanic).
Proof. exact (fun op a b => conj (vm_binop_no_panic op a b) (vm_negative_no_panic a)). Qed.

(* Comparison.  wf_num v: v is an integer within the range of its representation tag (any of U64 / I64 /
   U128 / I128) or a binary64 double (any: zeros, subnormals, infinities, NaN).
   xval v: its exact mathematical value (an integer, a dyadic rational m*2^e, -inf, +inf, NaN);
   xcmp: the exact order on those, NaN equal to itself and above everything. *)

(* the ordering and the equality the engine computes ARE the exact ones, for any two numbers in
   any of the five encodings *)
Theorem C13_num_cmp_exact : forall a b,
  wf_num a -> wf_num b ->
  num_partial_cmp a b = Some (xcmp (xval a) (xval b)) /\
  (num_eq a b = true <-> xeq (xval a) (xval b)).
Proof. exact num_cmp_exact. Qed.

(* the literal ports of cmp_f64_to_i128 / cmp_f64_to_u128 (guards at 2^127 and 2^128 through the
   rounded constants, floor, saturating cast, tie-break) compare a double with an integer exactly *)
Theorem C13_cmp_f64_to_i128_exact : forall x n,
  valid64 x -> fits_i128 n ->
  cmp_f64_to_i128 x n = xcmp (xval_float x) (XFin n 0).
Proof. exact cmp_f64_to_i128_exact. Qed.

Theorem C13_cmp_f64_to_u128_exact : forall x n,
  valid64 x -> 0 <= n <= u128_max ->
  cmp_f64_to_u128 x n = xcmp (xval_float x) (XFin n 0).
Proof. exact cmp_f64_to_u128_exact. Qed.

(* the six template operators == != < <= > >= answer according to the exact order *)
Theorem C13_vm_cmp_exact : forall op a b,
  wf_num a -> wf_num b ->
  vm_cmp op a b = ROk (VBool (spec_test op (xcmp (xval a) (xval b)))).
Proof. exact vm_cmp_exact. Qed.

(* IEEE comparison of two valid doubles is the exact comparison of their values *)
Theorem C13_float_compare_exact : forall x y,
  valid64 x -> valid64 y -> not_nan x -> not_nan y ->
  SFcompare x y = Some (xcmp (xval_float x) (xval_float y)).
Proof. exact SFcompare_exact. Qed.

(* the exact order is a total order (on values up to equality of value) *)
Theorem C13_xcmp_total_order : forall a b c r,
  xcmp a a = Eq /\ xcmp b a = CompOpp (xcmp a b) /\
  (xcmp a b = r -> xcmp b c = r -> xcmp a c = r) /\
  (xcmp a b = Eq -> xcmp a c = xcmp b c).
Proof.
  exact (fun a b c r => conj (xcmp_refl a) (conj (xcmp_swap a b)
           (conj (xcmp_trans r a b c) (xcmp_eq_l a b c)))).
Qed.

(* ... and it is the order of the rationals: comparing m1 * 2^e1 with m2 * 2^e2 in Coq's Q *)
Theorem C13_exact_order_is_rational_order : forall m1 e1 m2 e2,
  xcmp (XFin m1 e1) (XFin m2 e2) =
  QArith_base.Qcompare (dyQ m1 e1) (dyQ m2 e2).
Proof. exact dy_cmp_is_Qcompare. Qed.

(* hence: reflexive, antisymmetric / symmetric, transitive, == consistent with the ordering *)
Theorem C13_num_cmp_reflexive : forall a, wf_num a ->
  num_partial_cmp a a = Some Eq /\ num_eq a a = true.
Proof.
  intros a W. rewrite (num_partial_cmp_exact a a W W), (num_eq_exact a a W W), xcmp_refl.
  split; reflexivity.
Qed.

Theorem C13_num_cmp_antisymmetric : forall a b, wf_num a -> wf_num b ->
  num_partial_cmp b a = option_map CompOpp (num_partial_cmp a b) /\ num_eq b a = num_eq a b.
Proof. exact num_cmp_swap. Qed.

Theorem C13_num_cmp_transitive : forall r a b c, wf_num a -> wf_num b -> wf_num c ->
  num_partial_cmp a b = Some r -> num_partial_cmp b c = Some r -> num_partial_cmp a c = Some r.
Proof. exact num_cmp_trans. Qed.

Theorem C13_num_eq_transitive : forall a b c, wf_num a -> wf_num b -> wf_num c ->
  num_eq a b = true -> num_eq b c = true -> num_eq a c = true.
Proof. exact num_eq_trans. Qed.

Theorem C13_num_eq_iff_cmp_equal : forall a b, wf_num a -> wf_num b ->
  (num_eq a b = true <-> num_partial_cmp a b = Some Eq).
Proof.
  intros a b Wa Wb. rewrite (num_eq_exact a b Wa Wb), (num_partial_cmp_exact a b Wa Wb).
  rewrite is_Eq_true. split; congruence.
Qed.

(* comparison results never depend on how a number happened to be represented *)
Theorem C13_num_cmp_representation_independent : forall a a' b,
  wf_num a -> wf_num a' -> wf_num b -> num_eq a a' = true ->
  num_partial_cmp a b = num_partial_cmp a' b /\ num_eq a b = num_eq a' b /\
  num_partial_cmp b a = num_partial_cmp b a' /\ num_eq b a = num_eq b a'.
Proof. exact num_cmp_rep_independent. Qed.

Theorem C13_same_integer_any_tag : forall ra rb z b,
  rep_ok ra z = true -> rep_ok rb z = true -> wf_num b ->
  num_partial_cmp (VInt ra z) b = num_partial_cmp (VInt rb z) b /\
  num_eq (VInt ra z) b = num_eq (VInt rb z) b.
Proof. exact same_int_any_rep. Qed.

(* NaN equal to itself and ordered after every number; -0 = +0 = 0 *)
Theorem C13_nan_is_greatest : forall b, wf_num b ->
  num_partial_cmp (VFloat S754_nan) b = Some (match b with VFloat S754_nan => Eq | _ => Gt end) /\
  num_eq (VFloat S754_nan) (VFloat S754_nan) = true.
Proof. exact nan_is_greatest. Qed.

(* explicit clause for the zeros: -0.0, +0.0 and the integer 0 in any tag are equal and NEITHER
   IS BELOW THE OTHER — for each of the six operators the answer is the one for equal operands,
   in every pairing and operand order *)
Theorem C13_signed_zeros_equal_and_unordered : forall sa sb r op,
  vm_cmp op (VFloat (S754_zero sa)) (VFloat (S754_zero sb)) = ROk (VBool (spec_test op Eq)) /\
  vm_cmp op (VFloat (S754_zero sa)) (VInt r 0) = ROk (VBool (spec_test op Eq)) /\
  vm_cmp op (VInt r 0) (VFloat (S754_zero sa)) = ROk (VBool (spec_test op Eq)) /\
  num_partial_cmp (VFloat (S754_zero sa)) (VFloat (S754_zero sb)) = Some Eq /\
  num_eq (VFloat (S754_zero sa)) (VFloat (S754_zero sb)) = true.
Proof. intros sa sb r op. destruct sa, sb, op; vm_compute; auto. Qed.

(* explicit clause for NaN: equal to itself and ordered after every other number (integers of
   every width, every double, both infinities), on either side, for each of the six operators.
   spec_float has ONE NaN: sign bit and payload do not exist in the model, so the statement is
   about NaNs of either sign and any payload; that the code really does not look at them is what
   the correspondence run checks with eight NaN bit patterns (quiet/signalling, both signs). *)
Theorem C13_nan_equal_to_itself_and_last : forall b op, wf_num b -> b <> VFloat S754_nan ->
  vm_cmp op (VFloat S754_nan) b = ROk (VBool (spec_test op Gt)) /\
  vm_cmp op b (VFloat S754_nan) = ROk (VBool (spec_test op Lt)) /\
  vm_cmp op (VFloat S754_nan) (VFloat S754_nan) = ROk (VBool (spec_test op Eq)).
Proof. exact nan_clause. Qed.

Theorem C13_zeros_equal : forall r,
  num_eq (VFloat (S754_zero true)) (VFloat (S754_zero false)) = true /\
  num_eq (VFloat (S754_zero true)) (VInt r 0) = true /\
  num_eq (VInt r 0) (VFloat (S754_zero false)) = true /\
  num_partial_cmp (VFloat (S754_zero true)) (VInt r 0) = Some Eq.
Proof. intro r. vm_compute. auto. Qed.

Print Assumptions C13_add_exact_or_error.
Print Assumptions C13_floordiv_rem_euclid.
Print Assumptions C13_pow_exact.
Print Assumptions C13_no_panic.
Print Assumptions C13_num_cmp_exact.
Print Assumptions C13_vm_cmp_exact.
Print Assumptions C13_exact_order_is_rational_order.
Print Assumptions C13_checked_pow_loop_exact.
Print Assumptions C13_num_cmp_representation_independent.

(* non-vacuity *)
Example C13_ex_add_overflow :
  vm_binop OpAdd (VInt I128 i128_max) (VInt U64 1) = Some (RErr ErrRender).
Proof. vm_compute. reflexivity. Qed.
Example C13_ex_mixed_reps :
  vm_binop OpSub (VInt U128 5) (VInt U64 10) = Some (ROk (VInt I128 (-5))).
Proof. vm_compute. reflexivity. Qed.
Example C13_ex_euclid :
  vm_binop OpFloorDiv (VInt I64 (-7)) (VInt I64 2) = Some (ROk (VInt I128 (-4))) /\
  vm_binop OpRem (VInt I64 (-7)) (VInt I64 2) = Some (ROk (VInt I128 1)) /\
  vm_binop OpFloorDiv (VInt I64 7) (VInt I64 (-2)) = Some (ROk (VInt I128 (-3))) /\
  vm_binop OpRem (VInt I64 7) (VInt I64 (-2)) = Some (ROk (VInt I128 1)).
Proof. vm_compute. auto. Qed.
Example C13_ex_min_neg1 :
  vm_binop OpRem (VInt I128 i128_min) (VInt I64 (-1)) = Some (ROk (VInt I128 0)) /\
  vm_binop OpFloorDiv (VInt I128 i128_min) (VInt I64 (-1)) = Some (RErr ErrRender).
Proof. vm_compute. auto. Qed.
Example C13_ex_pow :
  vm_binop OpPow (VInt I64 (-2)) (VInt U64 127) = Some (ROk (VInt I128 i128_min)) /\
  vm_binop OpPow (VInt U64 2) (VInt U64 127) = Some (RErr ErrRender).
Proof. vm_compute. auto. Qed.

(* 2^53 + 1 is not representable: the double 2^53 is below it, the double 2^53 + 2 above it, and
   a lossy `as f64` comparison would call the first pair equal *)
Example C13_ex_cmp_2p53 :
  vm_cmp OpLt (VFloat (S754_finite false 4503599627370496 1)) (VInt U64 9007199254740993) = ROk (VBool true) /\
  vm_cmp OpEq (VFloat (S754_finite false 4503599627370496 1)) (VInt U64 9007199254740993) = ROk (VBool false) /\
  vm_cmp OpGt (VFloat (S754_finite false 4503599627370497 1)) (VInt I128 9007199254740993) = ROk (VBool true).
Proof. vm_compute. auto. Qed.
(* i128::MAX as f64 rounds to 2^127, which is above i128::MAX and equal to the u128 2^127 *)
Example C13_ex_cmp_2p127 :
  vm_cmp OpGt (VFloat (S754_finite false 4503599627370496 75)) (VInt I128 i128_max) = ROk (VBool true) /\
  vm_cmp OpEq (VFloat (S754_finite false 4503599627370496 75)) (VInt U128 two127) = ROk (VBool true) /\
  vm_cmp OpLt (VFloat (S754_finite false 4503599627370496 76)) (VInt U128 u128_max) = ROk (VBool false).
Proof. vm_compute. auto. Qed.
Example C13_ex_wf_satisfiable :
  wf_num (VInt U128 u128_max) /\ wf_num (VInt I128 i128_min) /\ wf_num (VFloat S754_nan) /\
  wf_num (VFloat (S754_finite true 1 (-1074))) /\ wf_num (VFloat (S754_finite false 9007199254740991 971)).
Proof. vm_compute. auto. Qed.

Example C13_ex_zero_not_below_zero :
  vm_cmp OpLt (VFloat (S754_zero true)) (VFloat (S754_zero false)) = ROk (VBool false) /\
  vm_cmp OpGe (VFloat (S754_zero true)) (VFloat (S754_zero false)) = ROk (VBool true) /\
  vm_cmp OpGt (VFloat S754_nan) (VFloat (S754_infinity false)) = ROk (VBool true) /\
  vm_cmp OpLe (VFloat S754_nan) (VFloat S754_nan) = ROk (VBool true).
Proof. vm_compute. auto. Qed.
