(* C12 — Errors identify the right template and source position and always display.
   Only statements, each closed by `exact` or by a few lines that instantiate lemmas of
   Proofs/ReportProofs.v, where the proofs are.
   Quantification: every source (any byte string that is a sequence of well-formed UTF-8
   characters — every Rust `str` is), every piece of it the lexer advances over, every span,
   every span table of a chunk, every error with any number of notes.  `None` of a model
   function = a panic of the Rust code.

   Reading of the property clause by clause:
     "a span that lies within that source on character boundaries, whose reported line and
      column designate a real position of that source consistent with the span's byte range"
                                   = span_wf src sp (Model/Report.v), with Spec.LineCol.linecol
                                     as the reference meaning of line/column of a byte offset;
     "formatting any error for display succeeds and quotes the line the span starts on"
                                   = generate_report e = Some txt /\ infix (line_containing ..) txt;
     "errors raised inside includes and components additionally name each call site"
                                   = the notes clause of C12_report_total (label and file name
                                     of every note appear) + the harness oracle on real renders;
     "carries the name of the template whose source contains the offending code"
                                   = C12_report_target_is_chunk_owner + the harness oracle. *)
From Coq Require Import List NArith Arith Bool Sorted.
From TeraV Require Import Spec.Utf8Chars Spec.LineCol Model.Report Proofs.ReportProofs.
Import ListNotations.

(* the bookkeeping invariant of lexer.rs advance!: if (line, col, byte) agree with the reference
   line/column of `byte`, they still do after advancing over any piece t of the source *)
Theorem C12_token_span_step : forall pre t post st,
  valid_utf8 t -> valid_utf8 post ->
  let src := pre ++ t ++ post in
  loc_ok src st -> l_byte st = length pre ->
  let st' := advance_over st t in
  loc_ok src st' /\ l_byte st' = length pre + length t.
Proof. exact token_span_step. Qed.

(* the lexer starts in a state that satisfies the invariant *)
Theorem C12_lexer_initial_state_ok : forall src, loc_ok src loc_init.
Proof. exact loc_init_ok. Qed.

(* hence every span built by make_span!(start) after advance!(|t|) is well-formed and is
   exactly the byte range of t *)
Theorem C12_token_span_wf : forall pre t post st,
  valid_utf8 t -> valid_utf8 post ->
  let src := pre ++ t ++ post in
  loc_ok src st -> l_byte st = length pre ->
  span_wf src (make_span st (advance_over st t)) /\
  rstart (make_span st (advance_over st t)) = length pre /\
  rend (make_span st (advance_over st t)) = length pre + length t.
Proof. exact token_span_wf. Qed.

(* advance!(n) does not panic when n is a character boundary of the rest of the input, and both
   pieces are again valid text (so the hypotheses of the two theorems above are re-established
   for the next token); off a boundary it panics *)
Theorem C12_advance_total_on_boundaries : forall st rest n, valid_utf8 rest ->
  n <= length rest -> is_char_boundary rest n = true ->
  exists st', advance st rest n = Some (st', firstn n rest, skipn n rest) /\
    valid_utf8 (firstn n rest) /\ valid_utf8 (skipn n rest) /\
    st' = advance_over st (firstn n rest).
Proof. exact advance_ok. Qed.

(* the induction step of the whole tokenizer loop: `rest` is the unread part, the location agrees
   with the reference at its beginning; one advance!(n) on a character boundary does not panic,
   yields a well-formed span for the skipped piece and re-establishes the situation *)
Theorem C12_advance_keeps_invariant : forall pre rest st n,
  valid_utf8 rest -> loc_ok (pre ++ rest) st -> l_byte st = length pre ->
  n <= length rest -> is_char_boundary rest n = true ->
  exists st' skipped rest',
    advance st rest n = Some (st', skipped, rest') /\
    rest = skipped ++ rest' /\ length skipped = n /\ valid_utf8 rest' /\
    loc_ok (pre ++ rest) st' /\ l_byte st' = length (pre ++ skipped) /\
    span_wf (pre ++ rest) (make_span st st').
Proof. exact advance_keeps_invariant. Qed.

Theorem C12_advance_panics_off_boundary : forall st rest n,
  is_char_boundary rest n = false -> advance st rest n = None.
Proof. exact advance_panics. Qed.

(* lex_reach src st rest: the tokenizer can be at location st with `rest` unread — it starts at
   (1, 0, 0) with the whole source and only moves by advance!, by any number of bytes (an
   over-approximation of basic_tokenize: every choice of lengths).  parser_span: a span built by
   make_span! between two such states, or derived by Span::expand towards a later token / eoi().
   Both are defined in Proofs/ReportProofs.v over Model/Report.v's advance; Model/Lexer.v is not
   involved. *)

(* whatever the bytes are — '\r' alone, "\n\r", "\r\r\n", VT, FF, U+0085, U+2028, no final line
   terminator — every state of every run agrees with the reference line/column *)
Theorem C12_lexer_run_invariant : forall src, valid_utf8 src -> forall st rest,
  lex_reach src st rest ->
  exists pre, src = pre ++ rest /\ l_byte st = length pre /\ valid_utf8 rest /\ loc_ok src st.
Proof. exact lex_reach_inv. Qed.

Theorem C12_parser_span_wf : forall src sp,
  valid_utf8 src -> parser_span src sp -> span_wf src sp.
Proof. exact parser_span_wf. Qed.

(* the agreement between the lexer's line numbers and the report printer's line table is a
   consequence of lex_reach (both count '\n' bytes and nothing else), not a hypothesis *)
Theorem C12_parser_span_line_in_table : forall src sp, valid_utf8 src -> parser_span src sp ->
  1 <= start_line sp <= length (get_line_starts src) /\
  1 <= end_line sp <= length (get_line_starts src).
Proof. exact parser_span_line_in_table. Qed.

(* end to end with lex_reach as the only premise on the spans: an error at any such span, with
   notes at such spans of their own sources, displays and quotes the lines the spans start on *)
Theorem C12_lexer_report_total : forall e,
  valid_utf8 (r_source e) -> parser_span (r_source e) (r_span e) ->
  Forall note_from_lexer (r_notes e) ->
  exists txt, generate_report e = Some txt /\
    infix (line_containing (r_source e) (rstart (r_span e))) txt /\
    Forall (fun n => infix (line_containing (n_source n) (rstart (n_span n))) txt /\
                     infix (n_label n) txt /\ infix (n_filename n) txt) (r_notes e).
Proof. exact lexer_report_total. Qed.

(* Span::expand takes the start of self and the end of other without any check: the result is
   well-formed when other does not end before self starts (the parser always passes the span of
   a token consumed later), and never otherwise *)
Theorem C12_expand_preserves_wf : forall src a b,
  span_wf src a -> span_wf src b -> rstart a <= rend b -> span_wf src (expand a b).
Proof. exact expand_preserves_wf. Qed.

Theorem C12_expand_needs_order : forall src a b,
  rend b < rstart a -> ~ span_wf src (expand a b).
Proof. exact expand_needs_order. Qed.

(* "Unexpected end of input": with fixes/D12-eoi-range.patch the span is the (empty) position
   at the end of the last token and is well-formed ... *)
Theorem C12_eoi_span_wf : forall src cur, span_wf src cur -> span_wf src (eoi cur).
Proof. exact eoi_span_wf. Qed.

(* ... whereas eoi() before that repair (D12) keeps range.start at the beginning of that token:
   `{{ 1 +` gives 1:6-1:6 (5..6) *)
Theorem C12_eoi_unpatched_refuted :
  exists src cur, valid_utf8 src /\ span_wf src cur /\ ~ span_wf src (eoi_unpatched cur).
Proof. exact eoi_unpatched_refuted. Qed.

(* expand_span over a table of well-formed spans: defined iff both end instructions carry a
   span (None = the `expect("to have a span for error")` panic), and well-formed when the first
   one does not start after the last one ends *)
Theorem C12_expand_span_spec : forall tbl s e,
  expand_span tbl (s, e) =
    match get_span tbl s, get_span tbl e with
    | Some a, Some b => Some (expand a b)
    | _, _ => None
    end.
Proof. exact expand_span_spec. Qed.

Theorem C12_expand_span_wf : forall src tbl s e a b,
  table_wf src tbl -> get_span tbl s = Some a -> get_span tbl e = Some b ->
  rstart a <= rend b ->
  exists sp, expand_span tbl (s, e) = Some sp /\ span_wf src sp /\
             rstart sp = rstart a /\ rend sp = rend b.
Proof. exact expand_span_wf. Qed.

(* combine_spans followed by expand_span is the hull of the two operand spans, and is
   well-formed, provided the first (resp. last) instructions of the two operands are in source
   order.  (Partial in one respect, hence the hypothesis: that the compiler emits operands in
   source order is observed on real chunks and errors by the harness, not proved here: nothing
   in C12 rests on the compiler port Model/Compile.v.) *)
Theorem C12_combine_hull_partial : forall src tbl A B a b,
  table_wf src tbl ->
  expand_span tbl A = Some a -> expand_span tbl B = Some b ->
  rstart a <= rend a -> rstart b <= rend b ->
  ordered_at tbl (fst A) (fst B) -> ordered_at tbl (fst B) (fst A) ->
  ordered_at tbl (snd A) (snd B) -> ordered_at tbl (snd B) (snd A) ->
  exists c, expand_span tbl (combine_spans A B) = Some c /\
            rstart c = Nat.min (rstart a) (rstart b) /\
            rend c = Nat.max (rend a) (rend b) /\
            span_wf src c.
Proof. exact combine_hull. Qed.

(* fusion keeps every span and their path order *)
Theorem C12_collected_spans_wf : forall src group,
  Forall (Forall (span_wf src)) group -> Forall (span_wf src) (collected_spans group).
Proof. exact (fun src group => proj2 (Forall_concat (span_wf src) group)). Qed.

Theorem C12_collected_spans_path_order : forall (l : list span) k,
  nth_error (collected_spans (map (fun s => [s]) l)) k = nth_error l k.
Proof. exact collected_spans_nth. Qed.

Theorem C12_get_span_at_wf : forall src tbl i k sp,
  table_wf src tbl -> get_span_at tbl i k = Some sp -> span_wf src sp.
Proof. exact get_span_at_wf. Qed.

(* the template an error is reported against is the one the running chunk belongs to *)
Theorem C12_report_target_is_chunk_owner : forall tpl_name chunk_name templates source_of r,
  registry_ok templates source_of ->
  report_target tpl_name (source_of tpl_name) chunk_name templates = Some r ->
  r = (chunk_name, source_of chunk_name).
Proof. exact report_target_is_chunk_owner. Qed.

(* get_line_starts: one entry per line; 0 and the offsets following each '\n'; increasing *)
Theorem C12_line_starts_spec : forall src,
  length (get_line_starts src) = num_lines src /\
  (forall p, In p (get_line_starts src) <->
             p = 0 \/ exists i, p = S i /\ nth_error src i = Some NL) /\
  StronglySorted lt (get_line_starts src).
Proof. exact line_starts_spec. Qed.

(* SourceLocation::new: every index is in bounds and no slice splits a character whenever the
   span's line number is the line of some offset of the source; the quoted text is then exactly
   the line containing that offset (without its '\n') *)
Theorem C12_source_location_quotes_line : forall src sp off,
  valid_utf8 src -> off <= length src -> start_line sp = fst (linecol src off) ->
  exists loc pad, source_location_new src sp = Some loc /\
    sl_line loc = line_containing src off /\
    sl_start_line loc = start_line sp /\ sl_start_col loc = start_col sp /\
    sl_underline loc = pad ++ repeat 94%N (underline_width sp) /\ length pad <= start_col sp.
Proof. exact source_location_at. Qed.

(* exact domain of SourceLocation::new: defined for line numbers 1..=num_lines, a panic outside *)
Theorem C12_source_location_defined : forall src sp,
  valid_utf8 src -> 1 <= start_line sp <= num_lines src ->
  exists loc, source_location_new src sp = Some loc.
Proof. exact source_location_defined. Qed.

Theorem C12_source_location_panics : forall src sp,
  start_line sp = 0 \/ num_lines src < start_line sp -> source_location_new src sp = None.
Proof. exact source_location_panics. Qed.

Theorem C12_span_wf_line_range : forall src sp,
  span_wf src sp -> 1 <= start_line sp <= num_lines src.
Proof. intros src sp H. apply (loc_ok_line_range src (span_start sp)), (span_wf_ends src sp H). Qed.

(* Display of an error whose span and notes are well-formed for their sources
   succeeds, quotes the line the span starts on, the message and the file name, and for every
   note the line of its span, its label ("called from") and its file name *)
Theorem C12_report_total : forall e,
  valid_utf8 (r_source e) -> span_wf (r_source e) (r_span e) -> Forall note_ok (r_notes e) ->
  exists txt, generate_report e = Some txt /\
    infix (line_containing (r_source e) (rstart (r_span e))) txt /\
    infix (r_message e) txt /\ infix (r_filename e) txt /\
    Forall (fun n => infix (line_containing (n_source n) (rstart (n_span n))) txt /\
                     infix (n_label n) txt /\ infix (n_filename n) txt) (r_notes e).
Proof. exact report_total. Qed.

(* why span correctness matters for "always display": a line number outside the source panics *)
Theorem C12_report_panics_on_bad_line : forall e,
  start_line (r_span e) = 0 \/ num_lines (r_source e) < start_line (r_span e) ->
  generate_report e = None.
Proof.
  intros e H. unfold generate_report. rewrite (source_location_panics _ _ H). reflexivity.
Qed.

Theorem C12_linecol_monotone : forall src a b, a <= b ->
  let (la, ca) := linecol src a in let (lb, cb) := linecol src b in
  la < lb \/ (la = lb /\ ca <= cb).
Proof. exact linecol_monotone. Qed.

(* what one byte does to the reference line/column: only '\n' (byte 10) starts a new line;
   a continuation byte changes nothing; every other byte, '\r' (13), VT (11), FF (12) and the
   lead bytes of U+0085 (C2 85) and U+2028 (E2 80 A8) included, is one more column *)
Theorem C12_linecol_step : forall pre b post,
  let lc := linecol (pre ++ b :: post) (length pre) in
  let lc' := linecol (pre ++ b :: post) (S (length pre)) in
  (b = NL -> lc' = (S (fst lc), 0)) /\
  (b <> NL -> is_cont b = true -> lc' = lc) /\
  (b <> NL -> is_cont b = false -> lc' = (fst lc, S (snd lc))).
Proof. exact linecol_step_cases. Qed.

(* the column is the number of characters `chars` finds after the last '\n' before the offset,
   the line one more than the number of '\n' before it.  A character is counted at its first
   byte, so this holds at every offset (the three hypotheses are not needed); on a character
   boundary of valid text they are whole characters. *)
Theorem C12_linecol_counts_chars : forall src off,
  valid_utf8 src -> off <= length src -> is_char_boundary src off = true ->
  snd (linecol src off) = length (chars (after_last_nl (firstn off src))) /\
  fst (linecol src off) = 1 + count_nl (firstn off src).
Proof. exact (fun src off _ _ _ => conj (char_starts_chars _) eq_refl). Qed.

(* what the correspondence run evaluates on the implementation's spans is the predicate above *)
Theorem C12_span_wfb_ok : forall src sp, span_wfb src sp = true <-> span_wf src sp.
Proof. exact span_wfb_ok. Qed.

(* the correspondence run checks all spans of a source against one table of line/columns: the
   same predicate *)
Theorem C12_spans_wfb_ok : forall src sps, spans_wfb src sps = forallb (span_wfb src) sps.
Proof. exact spans_wfb_ok. Qed.

Theorem C12_valid_utf8b_ok : forall l, valid_utf8b l = true -> valid_utf8 l.
Proof. exact valid_utf8b_ok. Qed.

Print Assumptions C12_token_span_step.
Print Assumptions C12_token_span_wf.
Print Assumptions C12_advance_total_on_boundaries.
Print Assumptions C12_advance_keeps_invariant.
Print Assumptions C12_lexer_run_invariant.
Print Assumptions C12_parser_span_line_in_table.
Print Assumptions C12_lexer_report_total.
Print Assumptions C12_linecol_step.
Print Assumptions C12_expand_preserves_wf.
Print Assumptions C12_eoi_span_wf.
Print Assumptions C12_eoi_unpatched_refuted.
Print Assumptions C12_expand_span_wf.
Print Assumptions C12_combine_hull_partial.
Print Assumptions C12_line_starts_spec.
Print Assumptions C12_source_location_quotes_line.
Print Assumptions C12_report_total.
Print Assumptions C12_linecol_monotone.
Print Assumptions C12_linecol_counts_chars.

(* the hypotheses can be met, and the model computes what the Rust code prints *)

(* "é\n日{{ x }}" : bytes c3 a9 0a e6 97 a5 7b 7b 20 78 20 7d 7d; the token `x` is bytes 9..10,
   line 2, column 4 (日 { { space), not column 6 (bytes) *)
Definition ex_src : list N := [195; 169; 10; 230; 151; 165; 123; 123; 32; 120; 32; 125; 125]%N.
Definition ex_x : span := mkspan 2 4 2 5 9 10.

Example ex_src_valid : valid_utf8 ex_src.
Proof. apply valid_utf8b_ok. vm_compute. reflexivity. Qed.

Example ex_x_wf : span_wf ex_src ex_x.
Proof. apply span_wfb_ok. vm_compute. reflexivity. Qed.

Example ex_bytes_col_not_wf : ~ span_wf ex_src (mkspan 2 6 2 7 9 10).
Proof. intros H. apply span_wfb_ok in H. vm_compute in H. discriminate. Qed.

(* a range that splits 日 is not well-formed *)
Example ex_split_char_not_wf : ~ span_wf ex_src (mkspan 2 0 2 1 3 4).
Proof. intros H. apply span_wfb_ok in H. vm_compute in H. discriminate. Qed.

(* the lexer model run over the example: content "é\n日", then `{{`, gap, `x` *)
Example ex_lexer_run :
  let st1 := advance_over loc_init (firstn 6 ex_src) in
  let st2 := advance_over st1 (firstn 2 (skipn 6 ex_src)) in
  let st3 := advance_over st2 (firstn 1 (skipn 8 ex_src)) in
  let st4 := advance_over st3 (firstn 1 (skipn 9 ex_src)) in
  make_span st3 st4 = ex_x /\ make_span loc_init st1 = mkspan 1 0 2 1 0 6.
Proof. vm_compute. split; reflexivity. Qed.

(* the report for "Variable `x` is not defined." at that span in "t.html" *)
Example ex_report :
  generate_report (mkreport [109]%N [116]%N ex_src ex_x []) =
  Some ([101; 114; 114; 111; 114; 58; 32; 109; 10;          (* error: m *)
         32; 45; 45; 62; 32; 116; 58; 50; 58; 53; 10;       (*  --> t:2:5 *)
         32; 32; 124; 10;                                   (*   | *)
         50; 32; 124; 32; 230; 151; 165; 123; 123; 32; 120; 32; 125; 125; 10;  (* 2 | 日{{ x }} *)
         32; 32; 124; 32; 32; 32; 32; 32; 94]%N).            (*   |     ^ *)
Proof. vm_compute. reflexivity. Qed.

(* line 3 does not exist in the example source: Display would panic *)
Example ex_report_bad_line : generate_report (mkreport [] [] ex_src (mkspan 3 0 3 0 13 13) []) = None.
Proof. vm_compute. reflexivity. Qed.

Example ex_line_starts : get_line_starts [102; 111; 111; 10; 98; 97; 114; 13; 10; 10; 98; 97; 122]%N = [0; 4; 9; 10].
Proof. vm_compute. reflexivity. Qed.

(* D12 before and after the repair, for `{{ 1 +` *)
Example ex_eoi_unpatched : eoi_unpatched d12_cur = mkspan 1 6 1 6 5 6.
Proof. reflexivity. Qed.
Example ex_eoi_fixed : eoi d12_cur = mkspan 1 6 1 6 6 6 /\ span_wf d12_src (eoi d12_cur).
Proof. split; [reflexivity|]. apply span_wfb_ok. vm_compute. reflexivity. Qed.

(* expand_span / combine_spans on the table of `{{ s < 1 }}`: LoadName s (3..4), LoadConst 1
   (7..8), LessThan (3..8), WriteTop (no span) *)
Example ex_hull :
  let tbl := [[mkspan 1 3 1 4 3 4]; [mkspan 1 7 1 8 7 8]; [mkspan 1 3 1 8 3 8]; []] in
  expand_span tbl (combine_spans (0, 0) (1, 1)) = Some (mkspan 1 3 1 8 3 8) /\
  expand_span tbl (3, 3) = None.
Proof. vm_compute. split; reflexivity. Qed.

(* line-ending flavours.  "a\r{{ 1 | nope }}": the lone '\r' is a character of line 1, so `nope`
   (bytes 9..13) is at 1:9; the printer's line table has one entry *)
Definition cr_src : list N := [97; 13; 123; 123; 32; 49; 32; 124; 32; 110; 111; 112; 101; 32; 125; 125]%N.
Example ex_cr_line_starts : get_line_starts cr_src = [0].
Proof. vm_compute. reflexivity. Qed.
Example ex_cr_span : span_wf cr_src (mkspan 1 9 1 13 9 13) /\ ~ span_wf cr_src (mkspan 2 7 2 11 9 13).
Proof.
  split; [apply span_wfb_ok; vm_compute; reflexivity|].
  intros H. apply span_wfb_ok in H. vm_compute in H. discriminate.
Qed.
(* the model of the lexer, run over "a\r", "{{", " ", "1", ..., gives 1:9 for `nope` *)
Example ex_cr_lexer_run :
  let st1 := advance_over loc_init (firstn 9 cr_src) in
  let st2 := advance_over st1 (firstn 4 (skipn 9 cr_src)) in
  make_span st1 st2 = mkspan 1 9 1 13 9 13.
Proof. vm_compute. reflexivity. Qed.
(* a span that called the lone '\r' a line break (line 2) cannot be displayed: the printer panics *)
Example ex_cr_line2_panics :
  generate_report (mkreport [] [] cr_src (mkspan 2 7 2 11 9 13) []) = None.
Proof. vm_compute. reflexivity. Qed.
(* "\r\r\n" is two characters and then a line break; U+2028 / U+0085 / VT / FF are one column each *)
Example ex_flavours :
  linecol [13; 13; 10; 120]%N 3 = (2, 0) /\ linecol [13; 13; 10; 120]%N 2 = (1, 2) /\
  linecol [10; 13; 120]%N 2 = (2, 1) /\
  linecol [226; 128; 168; 194; 133; 11; 12; 120]%N 7 = (1, 4).
Proof. vm_compute. repeat split; reflexivity. Qed.
