(* C18 — Output channels agree, write failures surface, rendering is pure (and, observed only:
   thread-safe). Statements and one worked example; proofs in Proofs/WriterProofs.v.

   Vocabulary (Model/Writer.v, Model/VM.v):
   * `run W wr wd fuel tpl ae depth ch ip s o` is interpret(); `render_to W wr ...` is
     VirtualMachine::render_to; `tera_render_to / tera_render_block_to / tera_render_component_to /
     tera_render_str_to` are the public `_to` functions of tera.rs, `tera_render / ..._block /
     ..._component / ..._str / tera_one_off` the String-returning ones (a fresh Vec<u8>, the `_to`
     variant, String::from_utf8).
   * a writer is a total step `pw : W -> str -> W * bool` (state after the call, whole text taken?);
     `wr_of pw` is what the VM sees through `write_all(..)?`; `sticky pw` is the same writer watched
     from outside: it lets the run go on but is frozen from its first failed call, so its final
     state is the state the real writer is left in when render_to returns Err(Io). `pw_lawful pw acc`
     says the step appends to the observation `acc` a prefix of the text, all of it on success.
   * `wr_str` is Vec<u8> (infallible), `wr_log` records the sequence of write_all calls.

   PARTIAL BY NATURE (DESIGN §10): the concurrency half of C18 — thread interleavings on one shared
   instance and the Send/Sync bounds — is not a statement about a Gallina function; it is observed
   and compile-checked by harness/src/bin/c18.rs on every run. What is proved here: the writer half
   (for every program, state, writer and failure point) and purity on the model.
   Not expressible on Model/VM.v: "the text accepted before the failure is a prefix of what the
   infallible run had written when the TEMPLATE ITSELF failed" — `RFail` carries no sink; that case
   is covered by the implementation-side oracle (the error class part is the second clause of
   C18_failing_writer_prefix). *)
From TeraV Require Import Model.Value Model.Instr Model.VFormat Model.VM Model.World0 Model.Writer
                          Proofs.WriterProofs.
Local Open Scope nat_scope.

(* failing_writer_prefix — for every world, template, block, context, fuel, writer, start state *)
Theorem C18_failing_writer_prefix :
  forall (W : Type) (pw : pwriter W) (acc : W -> str), pw_lawful pw acc ->
  forall wd fuel tpl block c g w0,
  let gen := render_to W (wr_of pw) wd fuel tpl block c g w0 in
  let obs := render_to (W * bool)%type (sticky pw) wd fuel tpl block c g (w0, true) in
  let inf := render_to str wr_str wd fuel tpl block c g [] in
  (forall s w, gen = RDone s (SinkTop w) ->
     exists out, inf = RDone s (SinkTop out) /\ acc w = acc w0 ++ out /\ obs = RDone s (SinkTop (w, true))) /\
  (forall e, gen = RFail e -> inf = RFail e \/ e = ErrIo) /\
  (forall s out, inf = RDone s (SinkTop out) ->
     exists w live p, obs = RDone s (SinkTop (w, live)) /\ acc w = acc w0 ++ p /\ prefix p out /\
       (if live then gen = RDone s (SinkTop w) /\ p = out else gen = RFail ErrIo)) /\
  (gen = ROutOfFuel -> inf = ROutOfFuel).
Proof.
  exact (fun W pw acc Hl wd fuel tpl block c g w0 =>
    failing_writer_prefix _ (render_to_simulable wd fuel tpl block c g) W pw acc Hl w0).
Qed.

(* the same for interpret() on any chunk from any state (includes, blocks, components start here) *)
Theorem C18_failing_writer_prefix_run :
  forall (W : Type) (pw : pwriter W) (acc : W -> str), pw_lawful pw acc ->
  forall wd fuel tpl ae depth ch ip st w0,
  let gen := run W (wr_of pw) wd fuel tpl ae depth ch ip st (SinkTop w0) in
  let obs := run (W * bool)%type (sticky pw) wd fuel tpl ae depth ch ip st (SinkTop (w0, true)) in
  let inf := run str wr_str wd fuel tpl ae depth ch ip st (SinkTop []) in
  (forall s w, gen = RDone s (SinkTop w) ->
     exists out, inf = RDone s (SinkTop out) /\ acc w = acc w0 ++ out /\ obs = RDone s (SinkTop (w, true))) /\
  (forall e, gen = RFail e -> inf = RFail e \/ e = ErrIo) /\
  (forall s out, inf = RDone s (SinkTop out) ->
     exists w live p, obs = RDone s (SinkTop (w, live)) /\ acc w = acc w0 ++ p /\ prefix p out /\
       (if live then gen = RDone s (SinkTop w) /\ p = out else gen = RFail ErrIo)) /\
  (gen = ROutOfFuel -> inf = ROutOfFuel).
Proof.
  exact (fun W pw acc Hl wd fuel tpl ae depth ch ip st w0 =>
    failing_writer_prefix _ (run_simulable wd fuel tpl ae depth ch ip st) W pw acc Hl w0).
Qed.

(* the success clause without the pwriter vocabulary: an arbitrary VM-level writer with an observation
   of the accepted text *)
Theorem C18_accepting_writer_agrees :
  forall (W : Type) (wr : W -> str -> option W) (acc : W -> str),
  (forall w t w', wr w t = Some w' -> acc w' = acc w ++ t) ->
  forall wd fuel tpl block c g w0 s w,
  render_to W wr wd fuel tpl block c g w0 = RDone s (SinkTop w) ->
  exists out, render_to str wr_str wd fuel tpl block c g [] = RDone s (SinkTop out) /\ acc w = acc w0 ++ out.
Proof.
  exact (fun W wr acc Ha wd fuel tpl block c g w0 s w =>
    accepting_writer_agrees _ (render_to_simulable wd fuel tpl block c g) W wr acc Ha w0 s w).
Qed.

(* the writers the correspondence uses are lawful *)
Theorem C18_model_writers_lawful :
  pw_lawful budget_writer acc_pair /\ pw_lawful failing_at_call acc_pair /\ pw_lawful pw_str acc_str.
Proof. exact (conj budget_writer_lawful (conj failing_at_call_lawful pw_str_lawful)). Qed.

(* write_calls_are_ordered — the calls any writer receives are exactly the write_all calls of
   the infallible run at empty capture stack (the log), in that order, up to its first failure *)
Theorem C18_write_calls_are_ordered :
  forall wd fuel tpl block c g (W : Type) (pw : pwriter W) (w0 : W) (out0 : str) s l,
  render_to (list str) wr_log wd fuel tpl block c g [] = RDone s (SinkTop l) ->
  render_to str wr_str wd fuel tpl block c g out0 = RDone s (SinkTop (out0 ++ concat l)) /\
  render_to (W * bool)%type (sticky pw) wd fuel tpl block c g (w0, true)
    = RDone s (SinkTop (fold_left (sticky_step pw) l (w0, true))) /\
  render_to W (wr_of pw) wd fuel tpl block c g w0
    = match feed (wr_of pw) w0 l with Some w => RDone s (SinkTop w) | None => RFail ErrIo end.
Proof.
  exact (fun wd fuel tpl block c g W pw w0 out0 s l =>
    write_calls_are_ordered _ (render_to_simulable wd fuel tpl block c g) W pw w0 out0 s l).
Qed.

Theorem C18_write_calls_failing_run :
  forall wd fuel tpl block c g (W : Type) (wr : W -> str -> option W) (w0 : W),
  let log := render_to (list str) wr_log wd fuel tpl block c g [] in
  let gen := render_to W wr wd fuel tpl block c g w0 in
  (forall e, log = RFail e -> gen = RFail e \/ gen = RFail ErrIo) /\
  (log = ROutOfFuel -> gen = ROutOfFuel \/ gen = RFail ErrIo).
Proof.
  exact (fun wd fuel tpl block c g W wr w0 =>
    write_calls_failing_run _ (render_to_simulable wd fuel tpl block c g) W wr w0).
Qed.

(* render_eq_render_to — each String-returning API function against its `_to` variant run on
   an arbitrary accepting writer: same text; same error class or ErrIo; and a Vec<u8> that already
   holds `h` receives exactly `h ++` what the String variant returns *)
Definition agrees (F : runner) (string_result : res str) : Prop :=
  (forall (W : Type) (wr : W -> str -> option W) (acc : W -> str),
     (forall w t w', wr w t = Some w' -> acc w' = acc w ++ t) ->
     forall w0 s w, F W wr w0 = RDone s (SinkTop w) ->
     exists out, string_result = ROk out /\ acc w = acc w0 ++ out) /\
  (forall (W : Type) (wr : W -> str -> option W) w0 e,
     F W wr w0 = RFail e -> string_result = RErr e \/ e = ErrIo) /\
  (forall h, F str wr_str h = shift h (F str wr_str [])).

Theorem C18_render_eq_render_to : forall wd fuel name c g,
  agrees (fun W wr w => tera_render_to W wr wd fuel name c g w) (tera_render wd fuel name c g).
Proof. exact (fun wd fuel name c g => string_variant_agrees _ (tera_render_to_simulable wd fuel name c g)). Qed.

Theorem C18_render_block_eq_render_block_to : forall wd fuel name block c g,
  agrees (fun W wr w => tera_render_block_to W wr wd fuel name block c g w)
         (tera_render_block wd fuel name block c g).
Proof. exact (fun wd fuel name block c g => string_variant_agrees _ (tera_render_block_to_simulable wd fuel name block c g)). Qed.

Theorem C18_render_component_eq_render_component_to : forall wd fuel comp src supplied body ae,
  agrees (fun W wr w => tera_render_component_to W wr wd fuel comp src supplied body ae w)
         (tera_render_component wd fuel comp src supplied body ae).
Proof. exact (fun wd fuel comp src supplied body ae => string_variant_agrees _ (tera_render_component_to_simulable wd fuel comp src supplied body ae)). Qed.

Theorem C18_render_str_eq_render_str_to : forall wd fuel one_off ae c g,
  agrees (fun W wr w => tera_render_str_to W wr wd fuel one_off ae c g w)
         (tera_render_str wd fuel one_off ae c g).
Proof. exact (fun wd fuel one_off ae c g => string_variant_agrees _ (render_to_simulable wd fuel _ None c g)). Qed.

(* both channels of render_component run the component chunk at component_recursion_depth 0, so
   they reach MAX_COMPONENT_RECURSION_DEPTH at the same nesting (w_max_depth is consulted in `run`
   with `S depth`) *)
Theorem C18_component_channels_same_depth :
  forall wd fuel comp src supplied body ae def cchunk cctx,
  assoc_get (w_components wd) comp = Some (def, cchunk) ->
  w_build_ctx wd def supplied (option_map (fun b => VStr b true) body) = ROk cctx ->
  (forall (W : Type) (wr : W -> str -> option W) (w : W),
     tera_render_component_to W wr wd fuel comp src supplied body ae w
     = run W wr wd fuel src (Some ae) 0 cchunk 0 (new_state cctx) (SinkTop w)) /\
  tera_render_component wd fuel comp src supplied body ae
  = res_of_run (run str wr_str wd fuel src (Some ae) 0 cchunk 0 (new_state cctx) (SinkTop [])).
Proof.
  (* by definition of the two entry points; the engine side is the channel-agreement oracle swept across
     MAX_COMPONENT_RECURSION_DEPTH *)
  intros wd fuel comp src supplied body ae def cchunk cctx Hc Hb.
  unfold tera_render_component, tera_render_component_to. rewrite Hc, Hb. split; reflexivity.
Qed.

(* Tera::one_off is render_str on a default instance with an empty global context *)
Theorem C18_one_off_eq_render_str_to : forall default_world fuel one_off ae c,
  agrees (fun W wr w => tera_render_str_to W wr default_world fuel one_off ae c [] w)
         (tera_one_off default_world fuel one_off ae c).
Proof. exact (fun default_world fuel one_off ae c => string_variant_agrees _ (render_to_simulable default_world fuel _ None c [])). Qed.

(* the block variant: everything is rendered into io::sink(), then block_buffer is written:
   the writer receives exactly block_buffer of the final state *)
Theorem C18_render_block_two_step : forall wd fuel tpl b c g h s out,
  render_to str wr_str wd fuel tpl (Some b) c g h = RDone s (SinkTop out) ->
  out = h ++ block_buffer s /\
  exists discarded,
    run str wr_str wd fuel tpl None 0 (t_root_chunk tpl) 0
        {| stack := []; loops := []; setvars := []; caps := []; blocks := []; cur_block := None;
           parent := None; context := c; global := Some g; capture_block := Some b; block_buffer := [] |}
        (SinkBuf []) = RDone s discarded.
Proof. exact render_block_two_step. Qed.

(* render_pure — render_to is a Gallina function of (world, template, block, context, global,
   writer state): the world and the contexts are arguments, not results, and no other state exists.
   The two statements with content: the result does not depend on what the buffer already holds
   (nothing written earlier is ever read back), and renders performed one after another into one
   buffer equal the same renders performed independently *)
Theorem C18_render_pure_history : forall wd fuel tpl block c g h,
  render_to str wr_str wd fuel tpl block c g h = shift h (render_to str wr_str wd fuel tpl block c g []).
Proof. exact (fun wd fuel tpl block c g h => buffer_history_irrelevant _ (render_to_simulable wd fuel tpl block c g) h). Qed.

Theorem C18_render_pure_sequence : forall reqs, Forall simulable reqs -> forall h,
  render_seq reqs h = option_map (fun os => h ++ concat os) (render_each reqs).
Proof. exact render_seq_independent. Qed.

Theorem C18_render_requests_simulable : forall wd fuel tpl block c g,
  simulable (fun W wr w => render_to W wr wd fuel tpl block c g w).
Proof. exact render_to_simulable. Qed.

(* render_pure, the data side: interpret() never writes the context or the global context (they
   are behind `&` in Rust; here: the fields of the final state equal those of the initial one, for
   every instruction, nested run, writer and failure point), and render_to hands back exactly
   what it was given. The world `wd` (the engine: templates, components, filters) is an argument
   of `run` and not part of any result, so there is nothing to state for it. *)
Theorem C18_interpret_leaves_context_unchanged :
  forall (W : Type) (wr : W -> str -> option W) wd fuel tpl ae depth ch ip s o s' o',
  run W wr wd fuel tpl ae depth ch ip s o = RDone s' o' ->
  context s' = context s /\ global s' = global s.
Proof.
  intros W wr wd fuel tpl ae depth ch ip s o s' o' E.
  pose proof (run_same_ctx W wr wd fuel tpl ae depth ch ip s o) as H. rewrite E in H. exact H.
Qed.

Theorem C18_render_leaves_context_unchanged :
  forall (W : Type) (wr : W -> str -> option W) wd fuel tpl block c g w s o,
  render_to W wr wd fuel tpl block c g w = RDone s o -> context s = c /\ global s = Some g.
Proof. exact render_to_same_ctx. Qed.

(* render_pure over histories (the definition behind the purity-history oracle): whatever renders
   are interleaved with registrations / configuration changes, the engine afterwards is the one
   the registrations alone produce, and each render returns what it returns on the engine built
   by the registrations before it. By construction of the model (render takes the world, returns
   only a result); the engine side is harness/src/c18_history.rs. *)
Theorem C18_history_renders_leave_no_trace :
  forall (req : Type) (render : world -> req -> res str) (h : list (hop req)) (wd : world),
  fst (run_history req render wd h) = fst (run_history req render wd (strip_renders req h)) /\
  snd (run_history req render wd (strip_renders req h)) = [].
Proof. intros req render h wd. rewrite history_strip. split; reflexivity. Qed.

Theorem C18_history_render_result :
  forall (req : Type) (render : world -> req -> res str) (h1 : list (hop req)) (r : req) (h2 : list (hop req)) (wd : world),
  nth_error (snd (run_history req render wd (h1 ++ HRender req r :: h2)))
            (length (filter (fun o => negb (is_reg req o)) h1))
  = Some (render (fst (run_history req render wd (strip_renders req h1))) r).
Proof. exact history_render_result. Qed.

Print Assumptions C18_failing_writer_prefix.
Print Assumptions C18_interpret_leaves_context_unchanged.
Print Assumptions C18_failing_writer_prefix_run.
Print Assumptions C18_write_calls_are_ordered.
Print Assumptions C18_render_eq_render_to.
Print Assumptions C18_render_pure_sequence.

(* non-vacuity: `ab{{ x }}c` with x = "<", autoescape on *)
Definition ex_tpl : template :=
  {| t_name := [116%N]; t_chunk := [WriteText [97;98]%N; LoadName [120%N]; WriteTop; WriteText [99%N]];
     t_root_chunk := [WriteText [97;98]%N; LoadName [120%N]; WriteTop; WriteText [99%N]];
     t_lineage := []; t_autoescape := true |}.
Definition ex_ctx : ctx := [([120%N], VStr [60%N] false)].
Definition ex_world := world0 [([116%N], ex_tpl)].

(* infallible: "ab&lt;c"; three write_all calls at model granularity *)
Example C18_ex_full :
  exists s, render_to str wr_str ex_world 100 ex_tpl None ex_ctx [] [] = RDone s (SinkTop [97;98;38;108;116;59;99]%N)
         /\ render_to (list str) wr_log ex_world 100 ex_tpl None ex_ctx [] []
            = RDone s (SinkTop [[97;98]; [38;108;116;59]; [99]]%N).
Proof. eexists. vm_compute. split; reflexivity. Qed.

(* a writer failing at its second call: ErrIo, and it is left holding "ab" *)
Example C18_ex_fail_at_call :
  render_to _ (wr_of failing_at_call) ex_world 100 ex_tpl None ex_ctx [] ([], 1) = RFail ErrIo /\
  exists s k, render_to _ (sticky failing_at_call) ex_world 100 ex_tpl None ex_ctx [] (([], 1), true)
              = RDone s (SinkTop (([97;98]%N, k), false)).
Proof. split; [vm_compute; reflexivity|]. eexists. eexists. vm_compute. reflexivity. Qed.

(* a budget of 4 characters: ErrIo, left holding "ab&l" (the short write inside the second call) *)
Example C18_ex_budget :
  render_to _ (wr_of budget_writer) ex_world 100 ex_tpl None ex_ctx [] ([], 4) = RFail ErrIo /\
  exists s k, render_to _ (sticky budget_writer) ex_world 100 ex_tpl None ex_ctx [] (([], 4), true)
              = RDone s (SinkTop (([97;98;38;108]%N, k), false)).
Proof. split; [vm_compute; reflexivity|]. eexists. eexists. vm_compute. reflexivity. Qed.

(* a budget that suffices: success, same text *)
Example C18_ex_budget_enough :
  exists s, render_to _ (wr_of budget_writer) ex_world 100 ex_tpl None ex_ctx [] ([], 7)
            = RDone s (SinkTop ([97;98;38;108;116;59;99]%N, 0)).
Proof. eexists. vm_compute. reflexivity. Qed.
