(* C20 — tera-contrib codecs are lossless and emit only their target alphabet.
   Only statements, each closed by `exact` or by a few lines that instantiate lemmas; the proofs
   are in Proofs/CodecB64Proofs.v (base64), Proofs/CodecProofs.v (percent-encoding, slug, UTF-8)
   and Proofs/CodecJsonProofs.v (json_encode).
   Quantification: every string of Unicode scalar values (any length), every value tree (any depth and
   width, every kind, every key kind), both layouts, all four (url_safe, padded) combinations.
   The theorems are about the Gallina models of the filters AND of the third-party crates behind them
   (base64, percent-encoding, serde_json, slug: modelled from their source/RFCs, tied to the real
   code only by the correspondence run).  Tables (`b64_encode_table`, `b64_decode_table`,
   `urlencode_chain`, `urlencode_strict_chain`, `json_pretty_table`) are Gen.CodecTables,
   re-extracted from tera-contrib on every run. *)
From TeraV Require Import Model.Value Model.Utf8 Gen.CodecTables Model.Codec Spec.Codec
  Proofs.CodecProofs Proofs.CodecB64Proofs Proofs.CodecJsonProofs.
From Coq Require Import List NArith.
Import ListNotations.
Open Scope N_scope.

(* b64_decode(b64_encode(s)) = s for each of the four option combinations (decoder called with the
   same url_safe; it never sees `padded`) *)
Theorem C20_b64_roundtrip : forall u p s,
  scalars s ->
  exists t, b64_encode_filter u p s = ROk t /\ b64_decode_filter u t = ROk s.
Proof. exact b64_filter_roundtrip. Qed.

(* byte level, every byte string (not only UTF-8): Engine::decode (indifferent padding, trailing bits
   rejected) inverts each of the four engines *)
Theorem C20_b64_bytes_roundtrip : forall e l,
  bytes l ->
  b64_decode_bytes (alphabet_of (fst (engine_cfg e))) Indifferent false (b64_encode_engine e l) = DOk l.
Proof. exact b64_engine_roundtrip. Qed.

(* the encoded text is body ++ "=" * k with body in the engine's alphabet, k <= 2, k = 0 when not
   padded, total length a multiple of 4 when padded *)
Theorem C20_b64_alphabet : forall e l,
  bytes l ->
  exists body k,
    b64_encode_engine e l = body ++ repeat 61 k /\
    Forall (fun c => is_b64_char (url_of (fst (engine_cfg e))) c = true) body /\
    (k <= 2)%nat /\ (snd (engine_cfg e) = false -> k = 0%nat) /\
    (snd (engine_cfg e) = true -> (length (b64_encode_engine e l) mod 4 = 0)%nat).
Proof. exact b64_engine_shape. Qed.

(* any character outside the alphabet (other than "=") anywhere in the input makes the decoder fail,
   in every padding mode, with or without tolerated trailing bits *)
Theorem C20_b64_decode_invalid_is_err : forall a mode allow_trailing x l,
  is_b64_char (url_of a) x = false -> x <> 61 -> In x l ->
  exists e, b64_decode_bytes (alphabet_of a) mode allow_trailing l = DErr e.
Proof.
  intros a mode tr x l Hc Hne Hin. apply b64_decode_err, (dq_invalid _ _ _ x); auto using unsym_none.
Qed.

(* SOUNDNESS of the decoder used by the filter (indifferent padding, trailing bits rejected): every text
   it accepts is the canonical unpadded encoding of the bytes it returns, followed only by "=" signs.
   With the round trip this characterises the accepted texts; in particular a foreign character, a
   misplaced "=", a length of 1 mod 4 and non-zero trailing bits are all errors. *)
Theorem C20_b64_decode_sound : forall a l bs,
  b64_decode_bytes (alphabet_of a) Indifferent false l = DOk bs ->
  exists k, l = b64_encode_engine (no_pad_engine a) bs ++ repeat 61 k /\ bytes bs.
Proof.
  intros a l bs H. apply b64_accepts in H. destruct H as (Hb & k & _ & ->). exists k. now rewrite encode_no_pad.
Qed.

(* encoding block by block: cutting the input after a multiple of 3 bytes gives the same text (every
   block but the last encoded without padding); cutting elsewhere does not - the pieces' encodings
   concatenated differ from the encoding of the whole and do not decode back to it.  (This is the
   periodicity the harness uses to print long texts in run-length form, and the class of defect
   "encoder fed in blocks of 4096 bytes".) *)
Theorem C20_b64_blockwise : forall e l1 l2,
  (length l1 mod 3 = 0)%nat ->
  b64_encode_engine e (l1 ++ l2) =
  b64_encode_engine (no_pad_engine (fst (engine_cfg e))) l1 ++ b64_encode_engine e l2.
Proof.
  intros e l1 l2 H. rewrite encode_no_pad, !encode_engine_sextets. destruct (sextets_app l1 l2 H) as [-> ->].
  now rewrite map_app, app_assoc.
Qed.

Theorem C20_b64_blockwise_needs_multiple_of_3 :
  exists e l1 l2, b64_encode_engine e (l1 ++ l2) <> b64_encode_engine e l1 ++ b64_encode_engine e l2 /\
                  b64_decode_bytes (alphabet_of (fst (engine_cfg e))) Indifferent false
                                   (b64_encode_engine e l1 ++ b64_encode_engine e l2) <> DOk (l1 ++ l2).
Proof. exists STANDARD, [97], [98]. vm_compute. split; discriminate. Qed.

(* a text of length 1 mod 4 is never accepted *)
Theorem C20_b64_decode_bad_length_is_err : forall al mode allow_trailing l,
  (length l mod 4 = 1)%nat -> exists e, b64_decode_bytes al mode allow_trailing l = DErr e.
Proof. intros al mode tr l H. now apply b64_decode_err, dq_bad_length. Qed.

(* the filter returns a string only when the decoded bytes are well-formed UTF-8 (otherwise an error) *)
Theorem C20_b64_decode_ok_is_utf8 : forall u s t,
  b64_decode_filter u s = ROk t ->
  exists a mode tr bs, lookup_bool b64_decode_table u = Some (a, mode, tr) /\
    b64_decode_bytes (alphabet_of a) mode tr (utf8_encode s) = DOk bs /\ utf8_decode bs = Some t.
Proof. exact b64_decode_ok_utf8. Qed.

(* percent-decoding the output gives back the UTF-8 bytes of s, which decode to s *)
Theorem C20_pct_roundtrip : forall s,
  scalars s ->
  pct_decode (urlencode_filter s) = Some (utf8_encode s) /\
  pct_decode (urlencode_strict_filter s) = Some (utf8_encode s) /\
  utf8_decode (utf8_encode s) = Some s.
Proof. exact pct_roundtrip_filters. Qed.

(* only unreserved characters (plus "/" for the non-strict form) and %XX escapes *)
Theorem C20_pct_alphabet : forall s,
  scalars s ->
  pct_shape (fun c => c =? 47) (urlencode_filter s) = true /\
  pct_shape (fun _ => false) (urlencode_strict_filter s) = true.
Proof. exact pct_alphabet_filters. Qed.

(* the python-compatible set leaves precisely unreserved + "/" unescaped; the strict set leaves
   letters and digits unescaped, and nothing that is not unreserved (the third conjunct, in the
   shape pct_shape reads a set).  That the strict set is exactly the letters and digits, so that
   "-._~" are escaped by urlencode_strict, is CodecProofs.urlencode_strict_set. *)
Theorem C20_pct_sets_exact : forall b,
  (should_percent_encode urlencode_chain b = false <-> is_unreserved b || (b =? 47) = true) /\
  (is_alnum b = true -> should_percent_encode urlencode_strict_chain b = false) /\
  (should_percent_encode urlencode_strict_chain b = false -> is_unreserved b || false = true).
Proof. exact pct_sets_exact. Qed.

(* For every value tree (non-finite floats included: they are written as null and canon maps them to
   null), both layouts: the output is well-formed JSON (the RFC 8259 reference reader accepts it,
   consuming all of it) and reads back as the data `canon ft v`.
   FLOATS ARE AN ORACLE: `ft` is the text serde_json prints for a float; the hypothesis `floats_ok`
   says that for each finite float in v that text is a JSON number token, not an integer token,
   whose exact decimal value rounds (to nearest, ties to even) to the float.  The correspondence
   run checks this hypothesis on every float text the implementation produced. *)
Theorem C20_json_roundtrip : forall ft p v,
  floats_ok ft v ->
  exists text, json_encode_filter ft p v = ROk text /\ json_read text = Some (canon ft v).
Proof. exact json_filter_roundtrip. Qed.

(* objects as data: looking a member up by the key's text finds exactly that entry's value, provided
   the keys of the map stay pairwise distinct once written as member names ... *)
Theorem C20_json_object_faithful : forall ft m,
  NoDup (member_names m) ->
  forall k x, In (k, x) m ->
  exists ms, canon ft (VMap m) = JObj ms /\ In (key_text k, canon ft x) ms /\
             forall j, In (key_text k, j) ms -> j = canon ft x.
Proof. exact json_object_faithful. Qed.

(* ... which distinct tera keys need not do: 1 and "1" (known finding
   json:map-keys-collide-after-stringify; the harness reproduces it on the real filter) *)
Theorem C20_json_distinct_keys_refuted :
  exists m : list (key * value), NoDup (map fst m) /\ ~ NoDup (member_names m).
Proof. exact json_key_collision_refuted. Qed.

(* for ANY transliteration oracle (ASCII or not): only [a-z0-9-], no leading, trailing or doubled hyphen *)
Theorem C20_slug_alphabet : forall deunicode_char s,
  let out := slugify deunicode_char s in
  Forall (fun c => is_slug_char c = true) out /\ hd 0 out <> 45 /\ last out 0 <> 45 /\
  (forall l1 l2, out <> l1 ++ 45 :: 45 :: l2).
Proof. exact slug_alphabet_gen. Qed.

(* UTF-8, through which all of the above go *)
Theorem C20_utf8_roundtrip : forall s, scalars s -> utf8_decode (utf8_encode s) = Some s.
Proof. exact utf8_roundtrip. Qed.

Print Assumptions C20_b64_roundtrip.
Print Assumptions C20_b64_alphabet.
Print Assumptions C20_pct_roundtrip.
Print Assumptions C20_json_roundtrip.
Print Assumptions C20_slug_alphabet.
Print Assumptions C20_json_object_faithful.
Print Assumptions C20_b64_decode_invalid_is_err.
Print Assumptions C20_b64_decode_sound.
Print Assumptions C20_b64_blockwise.

(* non-vacuity *)
Example C20_ex_b64 :
  b64_encode_filter true false [60; 60; 63; 63; 62; 62; 233] = ROk [80; 68; 119; 95; 80; 122; 52; 45; 119; 54; 107]
  /\ b64_decode_filter true [80; 68; 119; 95; 80; 122; 52; 45; 119; 54; 107] = ROk [60; 60; 63; 63; 62; 62; 233].
Proof. vm_compute. split; reflexivity. Qed.

Example C20_ex_b64_trailing_bits : b64_decode_filter false [90; 104] = RErr ErrMsg      (* "Zh" *)
  /\ b64_decode_filter false [90; 103] = ROk [102]                                      (* "Zg" *)
  /\ b64_decode_filter false [90; 103; 61] = ROk [102].                                 (* "Zg=" *)
Proof. vm_compute. repeat split; reflexivity. Qed.

Example C20_ex_url : urlencode_filter [97; 47; 98; 63; 126; 233] = [97; 47; 98; 37; 51; 70; 126; 37; 67; 51; 37; 65; 57]
  /\ urlencode_strict_filter [97; 47; 126] = [97; 37; 50; 70; 37; 55; 69].
Proof. vm_compute. split; reflexivity. Qed.

Example C20_ex_json :
  let ft := fun _ : spec_float => [49; 46; 53] in
  let v := VMap [(KInt I64 (-5), VArr [VFloat (S754_finite false 6755399441055744 (-52)); VStr [34; 10; 233] false; VNone])] in
  floats_ok ft v /\
  json_read (json_write ft true 0 v) = Some (canon ft v) /\
  canon ft v = JObj [([45; 53], JArr [JNum (JN false 15 (-1) false); JStr [34; 10; 195; 169]; JNull])].
Proof.
  cbv zeta. split; [|vm_compute; split; reflexivity].
  (* not under vm_compute: it would normalise the body of float_text_ok at a variable *)
  repeat constructor.
Qed.

(* what "the same data" cannot mean: map keys of different kinds collide once stringified *)
Example C20_json_key_kinds_collide :
  let ft := fun _ : spec_float => [] in
  canon ft (VMap [(KInt U64 1, VNone); (KStr [49] false, VNone)]) = JObj [([49], JNull); ([49], JNull)].
Proof. vm_compute. reflexivity. Qed.

Example C20_ex_slug : slugify (fun _ => Some [65; 69]) [32; 72; 198; 108; 108; 111; 32; 33; 87; 45] = [104; 97; 101; 108; 108; 111; 45; 119].
Proof. vm_compute. reflexivity. Qed.
