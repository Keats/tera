(* C04 — Inheritance: blocks resolve to the most-derived override and super() walks up.
   Each theorem is an instance of one of Proofs/LineageMain.v (registration, chains, renders) or
   Proofs/LineageNoNest.v (no_self_nesting); then the counterexample for the code before
   the D8 repair, and concrete sets.

   Reading guide.  ts : the registered template set (names distinct); ord / ord' : the
   iteration orders of every HashMap finalize_templates walks (any permutations);
   is_chain ts (T :: anc) : T extends the head of anc, ... , the last one extends nothing;
   register = parse-level checks + finalize_templates; render_model / render_block_model =
   the VM on the finalized set (with fixes/D8 applied; *_pinned = the code before it);
   spec_* = Spec/Inherit.v, written from the property text.
   Termination.  Model and specification carry the SAME fuel (depth of nested block/super()
   activations), so the render theorems hold for every fuel without a termination hypothesis
   (a render that exceeds the fuel says EOutOfFuel on both sides).  The finalize modelled has
   fixes/D13 applied: it rejects every set whose (block, level) graph has a cycle (EBlockCycle;
   ported as find_block_cycle / cycle_pass), including sets whose render would stop with an error before
   looping; "accepted => the render terminates" is plausible but NOT proved here
   (accepted_no_block_cycle only states that the ported check found nothing). *)
From Coq Require Import List NArith Bool.
From TeraV Require Import Model.Lineage Spec.Inherit Proofs.LineageRender Proofs.LineageProofs Proofs.LineageMain Proofs.LineageNoNest.
Import ListNotations.

(* block_lineage(T)(b) = most-derived definition, then - while the previous one calls super() -
   the nearest ancestors defining b (the list stops at the first definition without super():
   nothing further can be reached); absent iff nobody in the chain defines b.
   For every chain and every iteration order. *)
Theorem lineage_spec : forall ord ts fr T anc b,
  orders_ok ord -> NoDup (tnames ts) -> register ord ts = Ok fr -> is_chain ts (T :: anc) ->
  lineage_of fr (t_name T) b = nonempty (map code_of (spec_lineage (T :: anc) b)).
Proof. (* the second of registered_chain's three conjuncts *) intros. eapply registered_chain; eauto. Qed.

(* verdict (accepted / which error), parents and every lineage entry are the same for all
   iteration orders of the template map, the blocks maps, tpl_parents and the cloned parent maps *)
Theorem finalize_order_independent : forall ord ord' ts,
  orders_ok ord -> orders_ok ord' -> NoDup (tnames ts) ->
  rmap (fun _ => tt) (register ord ts) = rmap (fun _ => tt) (register ord' ts) /\
  forall fr fr', register ord ts = Ok fr -> register ord' ts = Ok fr' ->
    f_tpls fr = f_tpls fr' /\
    forall t, In t ts ->
      ancl (f_parents fr) (t_name t) = ancl (f_parents fr') (t_name t) /\
      forall b, lineage_of fr (t_name t) b = lineage_of fr' (t_name t) b.
Proof. exact register_order_independent. Qed.

(* the VM render of T = the root ancestor's body with every block (any depth, inside captures)
   replaced by its most-derived definition, super() = same block in the nearest defining
   ancestor, error if none.  Any chain length, any nesting, any fuel. *)
Theorem render_chain_spec : forall ord ts fr fuel T anc,
  orders_ok ord -> NoDup (tnames ts) -> register ord ts = Ok fr -> is_chain ts (T :: anc) ->
  render_model fuel fr (t_name T) = rmap flat (spec_render fuel (T :: anc)).
Proof. intros. eapply render_chain_spec_l; eauto. Qed.

(* an accepted set: in every chain, every top-level block of a child is defined (anywhere) by
   an ancestor *)
Theorem child_blocks_must_exist : forall ord ts fr ch,
  orders_ok ord -> NoDup (tnames ts) -> register ord ts = Ok fr -> is_chain ts ch ->
  spec_accepts ch = true.
Proof. intros. eapply accepted_chain_ok; eauto. Qed.

(* ... and a chain that breaks the rule makes registration fail with the orphan-block error
   (sets without duplicate block names in which every template has a chain) *)
Theorem child_blocks_must_exist_rejects : forall ord ts ch,
  orders_ok ord -> NoDup (tnames ts) ->
  (forall t, In t ts -> NoDup (map fst (blocks_of (t_body t)))) ->
  (forall t, In t ts -> exists anc, is_chain ts (t :: anc)) ->
  is_chain ts ch -> spec_accepts ch = false ->
  register ord ts = Err EOrphanBlock.
Proof. intros. eapply chain_bad_rejected; eauto. Qed.

(* the orphan rule looks at top-level blocks only: whatever blocks children introduce inside
   other blocks, a set whose chains pass the rule is not rejected by it.  What is left is
   finalize's block-cycle check (the D13 repair, find_block_cycle): registration succeeds unless
   that check finds a block that ends up rendering itself.  (EPanic / EOutOfFuel are the
   model's explicit markers for an impossible index / too little fuel inside the ported walk;
   the correspondence run never meets them; they are not excluded by proof.) *)
Theorem nested_new_blocks_allowed : forall ord ts,
  orders_ok ord -> NoDup (tnames ts) ->
  (forall t, In t ts -> NoDup (map fst (blocks_of (t_body t)))) ->
  (forall t, In t ts -> exists anc, is_chain ts (t :: anc)) ->
  (forall ch, is_chain ts ch -> spec_accepts ch = true) ->
  forall e, register ord ts = Err e -> e = EBlockCycle \/ e = EPanic \/ e = EOutOfFuel.
Proof. intros. eapply chains_ok_only_cycle_rejection; eauto. Qed.

(* an accepted set passed the block-cycle check for every template *)
Theorem accepted_no_block_cycle : forall ord ts fr,
  orders_ok ord -> NoDup (tnames ts) -> register ord ts = Ok fr ->
  cycle_pass (f_tpls fr) (f_lineage fr) = Ok [].
Proof. (* the cycle_pass conjunct of `finalized` *) intros ord ts fr Ho Hnd Hr. apply (register_ok_inv ord ts fr Ho Hnd Hr). Qed.

(* single-block rendering, exact form: the block buffer after the full render's tree *)
Theorem render_block_spec : forall ord ts fr fuel T anc b,
  orders_ok ord -> NoDup (tnames ts) -> register ord ts = Ok fr -> is_chain ts (T :: anc) ->
  render_block_model fuel fr (t_name T) b =
  match resolve (T :: anc) b with
  | None => Err EBlockNotFound
  | Some _ => rmap (lastw (Some b) []) (spec_render fuel (T :: anc))
  end.
Proof. intros. eapply render_block_spec_l; eauto. Qed.

(* a finite render never activates a block inside its own activation (an activation does not
   depend on its context, so it would contain itself) *)
Theorem no_block_inside_itself : forall fuel ch b tr,
  spec_render fuel ch = Ok tr -> self_nested b tr = false.
Proof. intros. eapply no_self_nesting; eauto. Qed.

(* render_block(T, b) = exactly the text block b writes during the full render of T: the text
   under its TBlock node (all its activations write the same text; the buffer keeps the last
   one), "" if the render never reaches it; the same error if the render fails; "not found" iff
   nobody in the chain defines b. *)
Theorem render_block_is_slice_of_render : forall ord ts fr fuel T anc b,
  orders_ok ord -> NoDup (tnames ts) -> register ord ts = Ok fr -> is_chain ts (T :: anc) ->
  match resolve (T :: anc) b with
  | None => render_block_model fuel fr (t_name T) b = Err EBlockNotFound
  | Some _ =>
      match spec_render fuel (T :: anc) with
      | Ok tr => render_model fuel fr (t_name T) = Ok (flat tr) /\
                 render_block_model fuel fr (t_name T) b = Ok (last (block_writes b tr) [])
      | Err e => render_model fuel fr (t_name T) = Err e /\
                 render_block_model fuel fr (t_name T) b = Err e
      end
  end.
Proof. intros. eapply render_block_slice_l; eauto. Qed.

Local Open Scope N_scope.

Definition d8_base : template :=
  {| t_name := 0; t_extends := None;
     t_body := [Text 1; FilterSection KFilter [Text 2; BlockDef 0 [Text 3]; Text 4]; Text 5] |}.

(* before fixes/D8-render-block-in-capture.patch: render_block of a block inside a filter
   section returns "" although the block writes t3 during the full render *)
Theorem render_block_is_slice_of_render_pinned_refuted :
  exists ts fr T b tr,
    register id_orders ts = Ok fr /\ is_chain ts [T] /\
    spec_render 5 [T] = Ok tr /\ self_nested b tr = false /\
    block_writes b tr = [[OText 3]] /\
    render_block_model_pinned 5 fr (t_name T) b = Ok [] /\
    render_block_model 5 fr (t_name T) b = Ok [OText 3].
Proof.
  eexists [d8_base], _, d8_base, 0, _. split; [vm_compute; reflexivity|].
  split; [cbn; auto|]. split; [vm_compute; reflexivity|]. repeat split; vm_compute; reflexivity.
Qed.

Print Assumptions lineage_spec.
Print Assumptions finalize_order_independent.
Print Assumptions render_chain_spec.
Print Assumptions child_blocks_must_exist.
Print Assumptions child_blocks_must_exist_rejects.
Print Assumptions nested_new_blocks_allowed.
Print Assumptions accepted_no_block_cycle.
Print Assumptions render_block_spec.
Print Assumptions no_block_inside_itself.
Print Assumptions render_block_is_slice_of_render.
Print Assumptions render_block_is_slice_of_render_pinned_refuted.

(* the hypotheses can be met: a three-level set, its registration and renders by computation *)

Definition ex_base : template :=
  {| t_name := 0; t_extends := None;
     t_body := [Text 1; BlockDef 10 [Text 2; FilterSection KFilter [BlockDef 11 [Text 3]]; Text 4]; Text 5] |}.
Definition ex_mid : template :=
  {| t_name := 1; t_extends := Some 0; t_body := [BlockDef 11 [Text 6; Super]] |}.
Definition ex_kid : template :=
  {| t_name := 2; t_extends := Some 1; t_body := [BlockDef 10 [Text 7; Super; BlockDef 12 [Text 8]]] |}.

Definition on_reg {A} (ts : list template) (k : freg -> rres A) : rres A :=
  match register id_orders ts with Ok fr => k fr | Err e => Err e end.

Example ex_chain : is_chain [ex_base; ex_mid; ex_kid] [ex_kid; ex_mid; ex_base].
Proof. cbn. tauto. Qed.

Example ex_render :
  on_reg [ex_base; ex_mid; ex_kid] (fun fr => render_model 10 fr 2) =
  Ok [OText 1; OText 7; OText 2; OOpen; OText 6; OText 3; OClose; OText 4; OText 8; OText 5].
Proof. vm_compute. reflexivity. Qed.

Example ex_render_block :
  on_reg [ex_base; ex_mid; ex_kid] (fun fr => render_block_model 10 fr 2 11) = Ok [OText 6; OText 3].
Proof. vm_compute. reflexivity. Qed.

Example ex_lineage :
  on_reg [ex_base; ex_mid; ex_kid] (fun fr => Ok (lineage_of fr 2 11)) =
  Ok (Some [[IText 6; ISuper]; [IText 3]]).
Proof. vm_compute. reflexivity. Qed.

(* super() where no ancestor defines the block is an error *)
Example ex_super_top :
  on_reg [{| t_name := 0; t_extends := None; t_body := [BlockDef 0 [Text 1; Super]] |}]
         (fun fr => render_model 10 fr 0) = Err ESuperTop.
Proof. vm_compute. reflexivity. Qed.

(* orphan top-level block rejected; the same block nested in an overridden block accepted *)
Example ex_orphan :
  rmap (fun _ => tt)
       (register id_orders [{| t_name := 0; t_extends := None; t_body := [BlockDef 0 [Text 1]] |};
                            {| t_name := 1; t_extends := Some 0; t_body := [BlockDef 1 [Text 2]] |}])
  = Err EOrphanBlock.
Proof. vm_compute. reflexivity. Qed.
Example ex_nested_new :
  on_reg [{| t_name := 0; t_extends := None; t_body := [BlockDef 0 [Text 1]] |};
          {| t_name := 1; t_extends := Some 0; t_body := [BlockDef 0 [Text 2; BlockDef 1 [Text 3]]] |}]
         (fun fr => render_model 10 fr 1) = Ok [OText 2; OText 3].
Proof. vm_compute. reflexivity. Qed.

(* D13 (owned by C11): block nesting cyclic through the chain is rejected by finalize (the D13
   repair); the specification of its render has no finite expansion *)
Definition d13_base : template :=
  {| t_name := 0; t_extends := None; t_body := [BlockDef 0 [Text 1; BlockDef 1 [Text 2]]] |}.
Definition d13_child : template :=
  {| t_name := 1; t_extends := Some 0; t_body := [BlockDef 1 [BlockDef 0 [Super]]] |}.
Example d13_rejected :
  rmap (fun _ => tt) (register id_orders [d13_base; d13_child]) = Err EBlockCycle /\
  spec_render 300 [d13_child; d13_base] = Err EOutOfFuel.
Proof. split; vm_compute; reflexivity. Qed.

(* the check is static: this set is rejected although its render would stop with the super()
   error of the root block before it could loop *)
Example static_cycle_rejected :
  rmap (fun _ => tt)
       (register id_orders
          [{| t_name := 0; t_extends := None; t_body := [BlockDef 0 [Super; BlockDef 1 [Text 1]]] |};
           {| t_name := 1; t_extends := Some 0; t_body := [BlockDef 1 [BlockDef 0 [Super]]] |}])
  = Err EBlockCycle /\
  spec_render 300 [{| t_name := 1; t_extends := Some 0; t_body := [BlockDef 1 [BlockDef 0 [Super]]] |};
                   {| t_name := 0; t_extends := None; t_body := [BlockDef 0 [Super; BlockDef 1 [Text 1]]] |}]
  = Err ESuperTop.
Proof. split; vm_compute; reflexivity. Qed.
