(* C01 — Autoescaping: data never reaches an autoescaped output unescaped.
   Statements, each closed by the lemma of Proofs/AutoescapeProofs.v that proves it or by a few
   lines that instantiate lemmas; definitions in Model/Taint.v (clean, vok, chunk_ok, tpl_ok, events,
   the suffix registry), Model/CapCheck.v (bodies_from_capture) and Model/WorldC01.v (the concrete
   world of the correspondence). Everything is over the concrete VM model
   Model/VM.v (a port of vm/interpreter.rs interpret(), tied to the engine by running the real
   finalized chunks on it: Corr/CorrC01.v, Corr/CorrVM.v), for ALL instruction sequences, all
   contexts, all worlds satisfying the stated hypotheses, all fuel.

   Reading guide.
   * `ok : N -> bool` is any set of characters, `clean ok s` = every character of s is in it,
     `vok ok v` = every string inside v that carries the safe flag is clean. `ok_html` is
     "none of  <  >  double-quote  apostrophe".
   * (A) C01_safe_flag_invariant is the induction (every instruction, nested runs for include /
     block / super() / component): in every reachable state every safe-flagged string (stack,
     nested in arrays/maps, set variables, loop frames, includer scopes, contexts), every capture
     buffer, the block buffer and the output are clean -- whatever dirty unflagged data the
     context holds. C01_no_raw_data_when_autoescape_on instantiates it for render/render_block
     with the generated default escaper. This is the special case "literal template text and
     constants contain no special character" of the property: then NO  < > quote apostrophe
     reaches the output at all. The general case (specials allowed in literal text: the output's
     specials are exactly the literal ones) is decided on every run by the implementation-side
     oracle of harness/src/bin/c01.rs (literal text erased, remainder checked), and by the
     sink-level statements (B) below.
   * The VM marks the body operand of RenderBodyComponent safe whatever it is (interpreter.rs:158),
     which is sound only because the compiler always emits Capture ... EndCapture in front of it.
     For arbitrary instruction sequences the unconditional statement is FALSE of the model:
     C01_body_mint_needs_capture is the witness. The theorems therefore carry the DECIDABLE
     chunk-level side condition `bodies_from_capture c` (Model/CapCheck.v: an abstract
     interpretation of the value stack and the loop stack against a table, in the style of the C07
     validator, whose only refusal is a RenderBodyComponent whose body slot is not known to have
     been pushed by EndCapture / a component result / super() / a flagged constant). It is
     evaluated on EVERY real chunk in the correspondence run (Corr/CorrC01.v); compiled code
     satisfies it, a compiler that skips the capture (seeded change S46) does not.
     C01_body_operand_is_minted states what the condition gives at that instruction.
   * "No use of safe" is the hypothesis on w_filter / w_function: what they return, after the VM
     applied their is_safe flag, contains no dirty flagged string when their inputs contain none.
     The `safe` filter violates it by design.
   * Floats: Value::format of an f64 is an oracle `fp` assumed to print clean text. *)
From TeraV Require Import Model.Value Model.Instr Model.Slice Model.VFormat Model.VM Model.World0 Model.StackCheck
     Model.CapCheck Model.Taint Model.WorldC01 Gen.Tables Gen.SafeTables Proofs.AutoescapeProofs.
Local Open Scope nat_scope.

(* Model/VM.v's value_is_safe is the match of value/mod.rs 691-697 as regenerated into Gen/SafeTables.v *)
Theorem C01_value_is_safe_matches_source : forall v, value_is_safe v = is_safe_gen v.
Proof. exact value_is_safe_matches_source. Qed.

(* the default escaper's output never contains  < > quote apostrophe  (over Gen.Tables.escape_html_map) *)
Theorem C01_default_escaper_clean : forall s, clean ok_html (escape_html s) = true.
Proof. exact escape_html_clean. Qed.

(* ... and every & it writes starts one of the table's entities, which contain no other & *)
Theorem C01_default_escaper_entities : forall s,
  escape_html s = concat (map (esc_lookup escape_html_map) s) /\
  Forall (fun piece => (exists c, piece = [c] /\ c <> amp) \/
                       (exists r, piece = amp :: r /\ ~ In amp r /\ In piece (map snd escape_html_map)))
         (map (esc_lookup escape_html_map) s).
Proof. exact escape_html_entities. Qed.

(* every kind is_safe lets through unescaped formats to clean text (a safe string: by the invariant) *)
Theorem C01_scalar_format_clean : forall (fp : spec_float -> str),
  (forall f, clean ok_html (fp f) = true) ->
  forall v, value_is_safe v = true -> vok ok_html v = true -> clean ok_html (format_with fp v) = true.
Proof. exact scalar_format_clean. Qed.

(* (A) the invariant *)

(* any character set, any escape function with clean output, any writer, any autoescape override *)
Theorem C01_safe_flag_invariant :
  forall (W : Type) (wr : W -> str -> option W) (wd : world) (ok : N -> bool) (Wok : W -> Prop) (ae : option bool)
         (T : str -> Prop),          (* anything that holds of literal text, formatted safe values, escaper results *)
  world_ok wd ok ae T ->
  (forall w t w', wr w t = Some w' -> Wok w -> clean ok t = true -> T t -> Wok w') ->
  (forall v, value_is_safe v = true -> T (w_format wd v)) ->
  (forall v, value_is_safe v = false -> T (w_escape wd (w_format wd v))) ->
  forall fuel tpl depth ch ip s o,
  tpl_okP ok ae T tpl ->
  chunk_okP ok T ch ->                    (* chunk_ok ok ch = true /\ bodies_from_capture ch = true /\ T of every WriteText *)
  cmatch (the_table ch) ip s ->           (* the state is one the checked table allows at ip (any state at ip = 0) *)
  SInv ok T s -> OInv W ok Wok o ->
  match run W wr wd fuel tpl ae depth ch ip s o with
  | RDone s' o' => SInv ok T s' /\ OInv W ok Wok o'
  | _ => True
  end.
Proof. exact run_inv. Qed.

(* at a RenderBodyComponent of a checked chunk the slot under the kwargs holds a flagged string:
   mark_safe changes nothing there, the body is clean by the invariant *)
Theorem C01_body_operand_is_minted : forall ch ip n s kw b rest,
  bodies_from_capture ch = true -> nth_error ch ip = Some (RenderBodyComponent n) ->
  cmatch (the_table ch) ip s -> stack s = kw :: b :: rest -> exists x, b = VStr x true.
Proof. exact body_operand_flagged. Qed.

(* every state matches the entry of a checked chunk *)
Theorem C01_any_state_enters : forall c s, bodies_from_capture c = true -> cmatch (the_table c) 0 s.
Proof. intros c s H. exact (cmatch_entry c (the_table c) s H). Qed.

Theorem C01_no_raw_data_when_autoescape_on :
  forall (wd : world) (fp : spec_float -> str),
  (* default escaper; Value::format with a clean float printer *)
  w_escape wd = escape_html -> w_format wd = format_with fp -> (forall f, clean ok_html (fp f) = true) ->
  (* no use of safe: filters and functions do not hand out dirty flagged strings *)
  (forall n v k sc r sf, w_filter wd n v k sc = Some (ROk r, sf) ->
      vok ok_html v = true -> kw_ok ok_html k = true -> scope_ok ok_html sc = true ->
      vok ok_html (if sf then mark_safe r else r) = true) ->
  (forall n k sc r sf, w_function wd n k sc = Some (ROk r, sf) ->
      kw_ok ok_html k = true -> scope_ok ok_html sc = true -> vok ok_html (if sf then mark_safe r else r) = true) ->
  (* arithmetic, map lookup, attribute lookup, component argument binding only pass values on *)
  (forall i a b c, w_math wd i a b = ROk c -> vok ok_html a = true -> vok ok_html b = true -> vok ok_html c = true) ->
  (forall a c, w_negate wd a = ROk c -> vok ok_html a = true -> vok ok_html c = true) ->
  (forall m k x, w_map_get wd m k = Some x -> kw_ok ok_html m = true -> vok ok_html x = true) ->
  (forall v a x, w_get_attr wd v a = Some x -> vok ok_html v = true -> vok ok_html x = true) ->
  (forall n d ch, assoc_get (w_components wd) n = Some (d, ch) ->
      forall k b c, w_build_ctx wd d k b = ROk c -> kw_ok ok_html k = true ->
      obody_ok ok_html b = true -> ctx_ok ok_html c = true) ->
  (* every chunk that can run: clean literal text, no dirty flagged constant, bodies minted; every
     template autoescaped *)
  (forall n d c, assoc_get (w_components wd) n = Some (d, c) ->
      chunk_ok ok_html c = true /\ bodies_from_capture c = true) ->
  (forall n t, assoc_get (w_templates wd) n = Some t -> tpl_ok ok_html t = true /\ tpl_bodies_ok t = true) ->
  forall fuel tpl block c g,
  tpl_ok ok_html tpl = true -> tpl_bodies_ok tpl = true ->
  (* the data: arbitrary, as long as no string ALREADY flagged safe by the Rust API is dirty *)
  ctx_ok ok_html c = true -> ctx_ok ok_html g = true ->
  match render_to str wr_str wd fuel tpl block c g [] with
  | RDone _ (SinkTop out) => clean ok_html out = true
  | _ => True
  end.
Proof. exact no_raw_data_when_autoescape_on. Qed.

(* render_component(name, ctx, body, autoescape = true) *)
Theorem C01_render_component_clean :
  forall (wd : world) (fp : spec_float -> str),
  w_escape wd = escape_html -> w_format wd = format_with fp -> (forall f, clean ok_html (fp f) = true) ->
  (forall n v k sc r sf, w_filter wd n v k sc = Some (ROk r, sf) ->
      vok ok_html v = true -> kw_ok ok_html k = true -> scope_ok ok_html sc = true ->
      vok ok_html (if sf then mark_safe r else r) = true) ->
  (forall n k sc r sf, w_function wd n k sc = Some (ROk r, sf) ->
      kw_ok ok_html k = true -> scope_ok ok_html sc = true -> vok ok_html (if sf then mark_safe r else r) = true) ->
  (forall i a b c, w_math wd i a b = ROk c -> vok ok_html a = true -> vok ok_html b = true -> vok ok_html c = true) ->
  (forall a c, w_negate wd a = ROk c -> vok ok_html a = true -> vok ok_html c = true) ->
  (forall m k x, w_map_get wd m k = Some x -> kw_ok ok_html m = true -> vok ok_html x = true) ->
  (forall v a x, w_get_attr wd v a = Some x -> vok ok_html v = true -> vok ok_html x = true) ->
  (forall n d ch, assoc_get (w_components wd) n = Some (d, ch) ->
      forall k b c, w_build_ctx wd d k b = ROk c -> kw_ok ok_html k = true ->
      obody_ok ok_html b = true -> ctx_ok ok_html c = true) ->
  (forall n d c, assoc_get (w_components wd) n = Some (d, c) ->
      chunk_ok ok_html c = true /\ bodies_from_capture c = true) ->
  (forall n t, assoc_get (w_templates wd) n = Some t -> tpl_chunks_ok ok_html t = true /\ tpl_bodies_ok t = true) ->
  forall fuel tpl cchunk cctx,
  tpl_chunks_ok ok_html tpl = true -> tpl_bodies_ok tpl = true ->
  chunk_ok ok_html cchunk = true -> bodies_from_capture cchunk = true -> ctx_ok ok_html cctx = true ->
  match run str wr_str wd fuel tpl (Some true) 0 cchunk 0 (new_state cctx) (SinkTop []) with
  | RDone _ (SinkTop out) => clean ok_html out = true
  | _ => True
  end.
Proof. exact render_component_clean. Qed.

(* the unconditional statement is false for instruction sequences the compiler never emits: every
   hypothesis but bodies_from_capture holds and the raw poison comes out; the check refuses this
   chunk and accepts the compiled form of the same call *)
Theorem C01_body_mint_needs_capture :
  tpl_ok ok_html bad_tpl = true /\ ctx_ok ok_html [(s_p, VStr poison0 false)] = true /\
  render_to str wr_str (world1 false fp_placeholder [(s_p, bad_tpl)] bad_comps) 50 bad_tpl None
            [(s_p, VStr poison0 false)] [] []
  = RDone (new_state_with_global [(s_p, VStr poison0 false)] []) (SinkTop poison0) /\
  clean ok_html poison0 = false /\
  bodies_from_capture bad_chunk = false /\ bodies_from_capture good_chunk = true.
Proof. vm_compute. repeat split; reflexivity. Qed.

(* the world used by the correspondence (default/upper/length/escape_html filters, real component
   binding, no `safe`) meets every world hypothesis above *)
Theorem C01_world1_satisfies_hypotheses : forall fp tpls comps,
  (forall n d c, assoc_get comps n = Some (d, c) -> def_ok ok_html d = true) ->
  let wd := world1 false fp tpls comps in
  w_escape wd = escape_html /\ w_format wd = format_with fp /\
  (forall n v k sc r sf, w_filter wd n v k sc = Some (ROk r, sf) ->
      vok ok_html v = true -> kw_ok ok_html k = true -> scope_ok ok_html sc = true ->
      vok ok_html (if sf then mark_safe r else r) = true) /\
  (forall n k sc r sf, w_function wd n k sc = Some (ROk r, sf) ->
      kw_ok ok_html k = true -> scope_ok ok_html sc = true -> vok ok_html (if sf then mark_safe r else r) = true) /\
  (forall i a b c, w_math wd i a b = ROk c -> vok ok_html a = true -> vok ok_html b = true -> vok ok_html c = true) /\
  (forall a c, w_negate wd a = ROk c -> vok ok_html a = true -> vok ok_html c = true) /\
  (forall m k x, w_map_get wd m k = Some x -> kw_ok ok_html m = true -> vok ok_html x = true) /\
  (forall v a x, w_get_attr wd v a = Some x -> vok ok_html v = true -> vok ok_html x = true) /\
  (forall n d ch, assoc_get (w_components wd) n = Some (d, ch) ->
      forall k b c, w_build_ctx wd d k b = ROk c -> kw_ok ok_html k = true ->
      obody_ok ok_html b = true -> ctx_ok ok_html c = true).
Proof.
  intros fp tpls comps Hdefs wd. cbn.
  split; [reflexivity|]. split; [reflexivity|].
  split; [intros; eapply filter1_ok; eassumption|].
  split; [discriminate|]. split; [discriminate|]. split; [discriminate|].
  split; [intros; eapply map_get_ok; eassumption|].
  split; [intros; eapply get_attr_ok; eassumption|].
  intros n d ch E k b c Eb Hk Hb. eapply build_ctx1_ok; [eapply Hdefs, E|exact Eb|exact Hk|exact Hb].
Qed.

(* the escape function is a parameter (Tera::set_escape_fn) *)

(* The invariant above never looks inside w_escape. Two corollaries make that explicit.

   (a) ANY escape function and ANY character set it avoids: the statement of
   C01_no_raw_data_when_autoescape_on with `escape_html`/`ok_html` replaced by an arbitrary pair. *)
Theorem C01_no_raw_data_any_escaper :
  forall (wd : world) (ok : N -> bool),
  (forall s, clean ok (w_escape wd s) = true) ->
  (forall v, value_is_safe v = true -> vok ok v = true -> clean ok (w_format wd v) = true) ->
  (forall n v k sc r sf, w_filter wd n v k sc = Some (ROk r, sf) ->
      vok ok v = true -> kw_ok ok k = true -> scope_ok ok sc = true -> vok ok (if sf then mark_safe r else r) = true) ->
  (forall n k sc r sf, w_function wd n k sc = Some (ROk r, sf) ->
      kw_ok ok k = true -> scope_ok ok sc = true -> vok ok (if sf then mark_safe r else r) = true) ->
  (forall i a b c, w_math wd i a b = ROk c -> vok ok a = true -> vok ok b = true -> vok ok c = true) ->
  (forall a c, w_negate wd a = ROk c -> vok ok a = true -> vok ok c = true) ->
  (forall m k x, w_map_get wd m k = Some x -> kw_ok ok m = true -> vok ok x = true) ->
  (forall v a x, w_get_attr wd v a = Some x -> vok ok v = true -> vok ok x = true) ->
  (forall n d ch, assoc_get (w_components wd) n = Some (d, ch) ->
      forall k b c, w_build_ctx wd d k b = ROk c -> kw_ok ok k = true -> obody_ok ok b = true -> ctx_ok ok c = true) ->
  (forall n d c, assoc_get (w_components wd) n = Some (d, c) -> chunk_ok ok c = true /\ bodies_from_capture c = true) ->
  (forall n t, assoc_get (w_templates wd) n = Some t -> tpl_ok ok t = true /\ tpl_bodies_ok t = true) ->
  forall fuel tpl block c g,
  tpl_ok ok tpl = true -> tpl_bodies_ok tpl = true -> ctx_ok ok c = true -> ctx_ok ok g = true ->
  match render_to str wr_str wd fuel tpl block c g [] with
  | RDone _ (SinkTop out) => clean ok out = true
  | _ => True
  end.
Proof.
  intros wd ok H1 H2 H3 H4 H5 H6 H7 H8 H9. apply no_raw_data_any_escaper.
  intros ae T Htpls Hcomps. constructor; assumption.
Qed.

(* an instance that is not HTML: the xNN-style JS-string escaper the harness installs *)
Theorem C01_js_escaper_clean : forall s, clean ok_js (escape_js s) = true.
Proof. exact escape_js_clean. Qed.

(* (b) THE MARKER FORM. The top-level writer records every write_all as one piece. Whatever the
   escape function, the filters and the data are -- the only hypotheses are about the chunks
   (autoescape on, bodies minted, WriteText carries literal text `Lit`) -- every piece is
   literal text, a SAFE value as formatted, or the escape function applied to the formatted value
   of a value that is NOT safe: the escaper is called on exactly the unsafe writes, once each,
   and nothing else reaches the output. (Text captured earlier is such a safe value: its own
   pieces were subject to the same statement when they were written into the buffer -- that is
   the invariant. A constant string printed by `{{ "lit" }}` is an unsafe value: an optimiser
   that turns it into WriteText makes `Lit` false of that chunk, which is how seeded change S82
   shows up.) *)
Theorem C01_writes_are_pieces :
  forall (wd : world) (ae : option bool) (Lit : str -> Prop),
  (forall n t, assoc_get (w_templates wd) n = Some t -> tpl_okP allok ae (piece wd Lit) t) ->
  (forall n d c, assoc_get (w_components wd) n = Some (d, c) -> chunk_okP allok (piece wd Lit) c) ->
  forall fuel tpl depth ch ip s w,
  tpl_okP allok ae (piece wd Lit) tpl -> chunk_okP allok (piece wd Lit) ch -> cmatch (the_table ch) ip s ->
  blocks_okP allok (piece wd Lit) (blocks s) -> Forall (piece wd Lit) w ->
  match run (list str) wr_pieces wd fuel tpl ae depth ch ip s (SinkTop w) with
  | RDone _ (SinkTop w') => Forall (piece wd Lit) w'
  | _ => True
  end.
Proof. exact writes_are_pieces. Qed.

(* (B) the sinks and the mint points *)

(* every WriteTop / WritePath write is one event: ERaw v (text = format v) or EEsc v (text = escape (format v)) *)
Theorem C01_write_is_event : forall W wr wd a s o v,
  write_value W wr wd a s o v = emit W wr s o (event_text wd (write_event a v)).
Proof. exact write_value_is_event. Qed.

Theorem C01_raw_only_if_safe : forall v, write_event true v = ERaw v -> value_is_safe v = true.
Proof. exact raw_only_if_safe. Qed.

Theorem C01_escaped_unless_safe : forall v, value_is_safe v = false -> write_event true v = EEsc v.
Proof. exact escaped_unless_safe. Qed.

(* safe = a flagged string or a non-string scalar; containers are never written raw *)
Theorem C01_safe_values : forall v,
  value_is_safe v = true <-> (exists s, v = VStr s true) \/
                             (match v with VStr _ _ | VArr _ | VMap _ | VBytes _ => False | _ => True end).
Proof. exact safe_values. Qed.

Theorem C01_autoescape_off_writes_verbatim : forall W wr wd s o v,
  write_value W wr wd false s o v = emit W wr s o (w_format wd v).
Proof. exact autoescape_off_writes_verbatim. Qed.

Theorem C01_safe_value_bypasses_escaper : forall W wr wd a s o v,
  value_is_safe v = true -> write_value W wr wd a s o v = emit W wr s o (w_format wd v).
Proof. exact safe_value_bypasses_escaper. Qed.

(* a captured body printed as is is written as captured: the escaper is not applied a second time *)
Theorem C01_no_double_escape : forall W wr wd fuel tpl ae depth s o c t,
  caps s = c :: t ->
  run W wr wd (S (S (S fuel))) tpl ae depth [EndCapture; WriteTop] 0 s o =
  match emit W wr (upd_stack (upd_caps s t) (stack s)) o (w_format wd (VStr c true)) with
  | Some (s2, o2) => RDone s2 o2
  | None => RFail ErrIo
  end.
Proof. exact no_double_escape. Qed.

(* a mint point: EndCapture flags exactly the text of the buffer it closes *)
Theorem C01_end_capture_mints : forall W wr wd fuel tpl ae depth ch ip s o c t,
  nth_error ch ip = Some EndCapture -> caps s = c :: t ->
  run W wr wd (S fuel) tpl ae depth ch ip s o =
  run W wr wd fuel tpl ae depth ch (S ip) (push (upd_caps s t) (VStr c true)) o.
Proof.
  intros W wr wd fuel tpl ae depth ch ip s o c t Hi Hc.
  rewrite (RunStep.run_pure wd W wr _ _ _ _ _ _ _ _ _ _ Hi eq_refl), Hc. reflexivity.
Qed.

(* ~ never keeps a flag *)
Theorem C01_str_concat_is_normal : forall W wr wd fuel tpl ae depth ch ip s o a b st,
  nth_error ch ip = Some StrConcat -> stack s = b :: a :: st ->
  exists r, run W wr wd (S fuel) tpl ae depth ch ip s o =
            run W wr wd fuel tpl ae depth ch (S ip) (push (upd_stack s st) (VStr r false)) o.
Proof.
  intros W wr wd fuel tpl ae depth ch ip s o a b st Hi Hs.
  rewrite (RunStep.run_pure wd W wr _ _ _ _ _ _ _ _ _ _ Hi eq_refl). unfold pop2. rewrite Hs. eexists. reflexivity.
Qed.

(* index and slice keep the flag and only select characters of the receiver *)
Theorem C01_index_slice_keep_flag_sublist :
  (forall s fl item c fl', get_item_seq (VStr s fl) item = ROk (VStr c fl') -> fl' = fl /\ incl c s) /\
  (forall s fl a b st r fl', value_slice (VStr s fl) a b st = ROk (VStr r fl') -> fl' = fl /\ incl r s).
Proof. exact index_slice_keep_flag_sublist. Qed.

(* NOT proved as one reachability statement: "every flagged string of a reachable state descends
   from the initial context, a mint point, an is_safe filter/function or an index/slice of such".
   What is proved instead: the invariant above (whose only cases that
   CREATE a flag are exactly EndCapture, component result/body, super(), w_filter/w_function with
   the flag, index/slice, flagged constants) and the local statements just given about single
   instructions (C01_end_capture_mints, C01_str_concat_is_normal, C01_index_slice_keep_flag_sublist). *)

Theorem C01_ends_with_spec : forall s suf, ends_with s suf = true <-> exists p, s = p ++ suf.
Proof. exact ends_with_spec. Qed.

(* set_templates_auto_escape runs at the end of every finalize and in autoescape_on: after any
   non-empty history the flag of every template is "name ends with one of the CURRENT suffixes" *)
Theorem C01_autoescape_flag_by_suffix : forall ops r, ops <> [] ->
  let r' := fold_left apply_op ops r in
  forall n t, In (n, t) (r_templates r') ->
    t_autoescape t = existsb (ends_with n) (r_suffixes r') /\
    (t_autoescape t = true <-> exists suf p, In suf (r_suffixes r') /\ n = p ++ suf).
Proof. exact autoescape_flag_by_suffix. Qed.

Print Assumptions C01_safe_flag_invariant.
Print Assumptions C01_no_raw_data_when_autoescape_on.
Print Assumptions C01_render_component_clean.
Print Assumptions C01_default_escaper_clean.
Print Assumptions C01_autoescape_flag_by_suffix.
Print Assumptions C01_writes_are_pieces.
Print Assumptions C01_no_raw_data_any_escaper.

(* {% set s %}[{{ p }}]{% endset %}{{ s }}|{{ s[1:3] }}|{{ p }}  with p = the six specials, as the real
   compiler emits it (fused WritePath), in world1: hypotheses hold, output is escaped once *)
Definition ex_chunk : list instr :=
  [Capture; WriteText [91]%N; WritePath [s_p]; WriteText [93]%N; EndCapture; SetI [115]%N;
   WritePath [[115]%N]; WriteText [124]%N;
   LoadName [115]%N; LoadConst (VInt U64 1); LoadConst (VInt U64 3); LoadConst VNone; Slice; WriteTop;
   WriteText [124]%N; WritePath [s_p]].
Definition ex_tpl : template :=
  {| t_name := s_p; t_chunk := ex_chunk; t_root_chunk := ex_chunk; t_lineage := []; t_autoescape := true |}.

Example C01_ex_hypotheses :
  tpl_ok ok_html ex_tpl = true /\ tpl_bodies_ok ex_tpl = true /\ ctx_ok ok_html [(s_p, VStr poison0 false)] = true.
Proof. vm_compute. repeat split; reflexivity. Qed.

Example C01_ex_render :
  match render_to str wr_str (world1 false fp_placeholder [(s_p, ex_tpl)] []) 200 ex_tpl None
                  [(s_p, VStr poison0 false)] [] [] with
  | RDone _ (SinkTop out) =>
      clean ok_html out = true /\
      out = [91] ++ escape_html poison0 ++ [93;124] ++ firstn 2 (skipn 1 ([91] ++ escape_html poison0)) ++ [124]
            ++ escape_html poison0
  | _ => False
  end%N.
Proof. vm_compute. split; reflexivity. Qed.

(* the same program under the marker escaper, with the piece-recording writer: literal, escaped
   unsafe value, literal, RAW safe capture, ... -- and the literal-expression case of S82 *)
Example C01_ex_pieces :
  match render_to (list str) wr_pieces (with_escape (world1 false fp_placeholder [(s_p, ex_tpl)] []) escape_marker) 200 ex_tpl None
                  [(s_p, VStr poison0 false)] [] [] with
  | RDone _ (SinkTop w) =>
      w = [ [91] ++ escape_marker poison0 ++ [93];          (* the capture, printed as is: one raw piece *)
            [124];
            firstn 2 (skipn 1 ([91] ++ escape_marker poison0));   (* slice of the capture: still raw *)
            [124];
            escape_marker poison0 ]
  | _ => False
  end%N.
Proof. vm_compute. reflexivity. Qed.

Example C01_ex_literal_expression_is_escaped :
  let lit := [122; 167; 47]%N in
  let ch := [LoadConst (VStr lit false); WriteTop] in
  match render_to (list str) wr_pieces
          (with_escape (world1 false fp_placeholder [] []) escape_marker) 20
          {| t_name := s_p; t_chunk := ch; t_root_chunk := ch; t_lineage := []; t_autoescape := true |} None [] [] [] with
  | RDone _ (SinkTop w) => w = [escape_marker lit]
  | _ => False
  end.
Proof. vm_compute. reflexivity. Qed.

(* with autoescape off `{{ p }}` writes the poison verbatim *)
Example C01_ex_render_off :
  match render_to str wr_str (world1 false fp_placeholder [] []) 200
                  {| t_name := s_p; t_chunk := [WritePath [s_p]]; t_root_chunk := [WritePath [s_p]];
                     t_lineage := []; t_autoescape := false |} None
                  [(s_p, VStr poison0 false)] [] [] with
  | RDone _ (SinkTop out) => out = poison0
  | _ => False
  end.
Proof. vm_compute. reflexivity. Qed.
