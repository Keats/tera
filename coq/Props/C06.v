(* C06 — Registering any source text ends in Ok or Err: no panic, hang or stack overflow.
   PARTIAL BY NATURE (DESIGN §10): native stack exhaustion, panics and hangs are runtime
   behaviour; they are observed by the child-process oracle of harness/src/bin/c06.rs.  What is
   logic is proved here, over the skeleton model of parser.rs (Model/ParseDepth.v): the counters
   bound the native recursion of the parser and the depth of the AST it hands to the (recursive)
   compiler and destructors, independently of the input length.

   Statements; proofs in Proofs/ParseDepthProofs.v, ParseDepthLimits.v, ParseDepthNoPanic.v (here
   `exact`, a few lines that instantiate their lemmas, or the evaluation of a witness);
   the lexer half restates three results of Props/C08.v and Props/C12.v (the two files are
   required for reference only: no term here refers to them) and adds Proofs/LexerBoundary.v,
   LexerTokenCuts.v.
   `cfg` = the five limits of the parser; `cfg_tree` = their values in the working tree
   (re-extracted on every run: Gen/Tables.v, Gen/ParseLimits.v); `cfg_unrepaired` = the tree
   before fixes/D11-ast-depth.patch (no MAX_EXPRESSION_DEPTH / MAX_ELIF_DEPTH). *)
From Coq Require Import List Arith ZArith Lia.
From TeraV Require Import Model.Value Model.Instr Model.Optimize Proofs.OptimizeProofs Props.C09.
From TeraV Require Spec.Utf8Chars Spec.Doc Model.Lexer Model.LexerSlices Model.Report Proofs.LexerSpans
  Proofs.ReportProofs Proofs.LexerBoundary Proofs.LexerTokenCuts Props.C08 Props.C12.
From TeraV Require Import Gen.Tables Gen.ParseLimits Model.ParseDepth
  Proofs.ParseDepthProofs Proofs.ParseDepthLimits Proofs.ParseDepthNoPanic.
Import ListNotations.
Local Open Scope nat_scope.

(* NATIVE DEPTH.  For every limit configuration with an elif limit L, every token list and every
   fuel: whatever the outcome (accepted, syntax error, even the unreachable arm), the number of
   nested Rust function frames of the parser never exceeds 7 * MAX_RECURSION_DEPTH + L + 7. *)
Theorem C06_parser_depth_bounded : forall (C : cfg) (L : nat),
  c_elif_limit C = Some L ->
  forall fuel ts,
    match parse C fuel ts with
    | ROk _ s => peak s <= 7 * c_max_rd C + L + 7
    | RErr s => peak s <= 7 * c_max_rd C + L + 7
    | RPanic s => peak s <= 7 * c_max_rd C + L + 7
    | RFuel => True
    end.
Proof. exact native_depth_bounded. Qed.

(* ... and that is FALSE of the tree before the repair: `{% if a %}` + 1000 x `{% elif a %}` is
   accepted with more native frames than 7 * MAX_RECURSION_DEPTH + 7 + 700, one per elif
   (parse_if recursed per elif, uncounted: D11 a) *)
Definition elif_chain (n : nat) : list tok :=
  [TTagStart; TWord WIf; TWord (WId 0); TTagEnd] ++
  concat (repeat [TTagStart; TWord WElif; TWord (WId 0); TTagEnd] n) ++
  [TTagStart; TWord WEndif; TTagEnd].
Theorem C06_parser_depth_bounded_refuted :
  exists ts, length ts <= 4 * 1000 + 7 /\
    match parse cfg_unrepaired (fuel_for ts) ts with
    | ROk _ s => 7 * c_max_rd cfg_unrepaired + 7 + 700 < peak s
    | _ => False
    end.
Proof.
  exists (elif_chain 1000). split; [apply Nat.leb_le; reflexivity|].
  apply elif_chain_deep; [reflexivity | apply Nat.leb_le; reflexivity ..].
Qed.

(* AST DEPTH is not bounded in the tree before the repair (D11 b): the iterative operator loop
   builds a left-deep tree, one level per link *)
Definition plus_chain (n : nat) : list tok :=
  [TVarStart; TAtom] ++ concat (repeat [TSym SPlus; TAtom] n) ++ [TVarEnd].
Theorem C06_ast_depth_bounded_refuted :
  exists ts, length ts <= 2 * 2000 + 3 /\
    match parse cfg_unrepaired (fuel_for ts) ts with
    | ROk nodes _ => 2000 < depth_list nodes
    | _ => False
    end.
Proof. exists (plus_chain 2000). vm_compute. split; [lia | lia]. Qed.

(* ... and with the two limits of the repair present (chain limit E = MAX_EXPRESSION_DEPTH, elif
   limit L = MAX_ELIF_DEPTH) every accepted token list, of any length, yields an AST of depth at
   most E + 2 * MAX_RECURSION_DEPTH + L + 2 (838 with the values of the patch): the recursion of
   compile_expr / compile_node / Drop / Clone on it is bounded by the limits alone. *)
Theorem C06_ast_depth_bounded : forall (C : cfg) (E L : nat),
  c_expr_limit C = Some E -> c_elif_limit C = Some L ->
  forall fuel ts nodes s,
    parse C fuel ts = ROk nodes s -> depth_list nodes <= E + 2 * c_max_rd C + L + 2.
Proof. exact ast_depth_bounded. Qed.

(* NESTING BEYOND A LIMIT IS A SYNTAX ERROR, for every continuation of the input.
   Local form: at each check, a counter at its limit gives the error outcome. *)
Theorem C06_nesting_limit_is_syntax_error_expression : forall C f bp s,
  c_max_rd C <= rd s -> inner_parse_expression C (S f) bp s = RErr s.
Proof. exact ipe_at_limit. Qed.
Theorem C06_nesting_limit_is_syntax_error_tags : forall C f endp s,
  c_max_rd C <= rd s -> parse_until C (S f) endp s = RErr s.
Proof. exact until_at_limit. Qed.
Theorem C06_nesting_limit_is_syntax_error_arrays : forall C f s,
  c_max_ad C <= ad s -> parse_array C (S f) s = RErr (set_ad (S (ad s)) s).
Proof. exact array_at_limit. Qed.
Theorem C06_nesting_limit_is_syntax_error_brackets : forall C f e s r,
  toks s = TLBracket :: r -> c_max_nb C <= nb s ->
  parse_subscript C (S f) e s = RErr (set_nb (S (nb s)) (set_toks r s)).
Proof. exact subscript_at_limit. Qed.
Theorem C06_nesting_limit_is_syntax_error_elif : forall C A (m : M A) lim s,
  c_elif_limit C = Some lim -> lim <= el s -> elif_counted C m s = RErr (set_el (S (el s)) s).
Proof. exact elif_at_limit. Qed.
Theorem C06_nesting_limit_is_syntax_error_chain : forall C lim s,
  c_expr_limit C = Some lim -> lim <= ht s -> bump C s = RErr s.
Proof. exact bump_at_limit. Qed.
Theorem C06_unary_chain_is_syntax_error : forall C f bp s r t u,
  toks s = t :: u :: r ->
  (t = TMinus \/ t = TWord WNot) -> (u = TMinus \/ u = TWord WNot) ->
  parse_expr_bp C (S f) bp s = RErr (set_toks (u :: r) s).
Proof. exact unary_unary_rejected. Qed.

(* Family form: `{{ ((( ... ` with at least MAX_RECURSION_DEPTH - 1 parentheses is never accepted,
   whatever follows and whatever the fuel *)
Theorem C06_nesting_limit_is_syntax_error_parens : forall C n fuel rest,
  c_max_rd C <= n + 1 ->
  nok (parse C fuel (TVarStart :: repeat TLParen n ++ rest)).
Proof. exact parens_beyond_limit_rejected. Qed.

(* THE `unreachable!` ARM OF parse_until_inner (parser.rs:1699) IS DEAD on every token stream the
   lexer can produce: template-level tokens in the Template state, anything else inside
   {{ }} / {% %}, each closed by its own end token, the stream stopping anywhere or at the first
   error item (lexer_shaped, Proofs/ParseDepthNoPanic.v) - for every limit configuration and
   every fuel.  (The other `unreachable!`/`expect` sites of parser.rs - 277 `start.expect`, 715 -
   are dead by construction in the model: the corresponding match arms do not exist; those of
   compiler.rs are outside this skeleton and stay with the runtime oracle.) *)
Theorem C06_parser_unreachables_unreachable : forall C fuel ts,
  lexer_shaped MT ts = true ->
  match parse C fuel ts with RPanic _ => False | _ => True end.
Proof.
  intros C fuel ts H. apply parse_never_panics; [apply (shaped_cok _ _ H) | apply (shaped_headok _ H)].
Qed.

(* the hypothesis actually used is weaker and local: each Content / VariableEnd / TagEnd token
   before the first error item is followed by the end of the stream or by a template-level token,
   and the stream starts with one *)
Theorem C06_parser_unreachables_unreachable_local : forall C fuel ts,
  cok ts = true -> headok ts = true ->
  match parse C fuel ts with RPanic _ => False | _ => True end.
Proof. exact parse_never_panics. Qed.

(* ... and some such hypothesis is needed: on a token list no lexer run yields (an expression
   token at template level) the arm IS reached *)
Theorem C06_parser_unreachable_reached_off_lexer_streams :
  exists ts, lexer_shaped MT ts = false /\
    match parse cfg_tree (fuel_for ts) ts with RPanic _ => True | _ => False end.
Proof. exists [TAtom]. vm_compute. split; [reflexivity | exact I]. Qed.

(* THE LEXER HALF, numbered as the five conjuncts below: 1, 2 and 5 are the statements of theorems
   of Props/C08.v and Props/C12.v, 4 is C12_advance_total_on_boundaries seen from a position inside
   the source, 3 is Proofs/LexerBoundary.v.
   Model/Lexer.v (C08) is a byte-level port of the WHOLE of
   basic_tokenize: the Template state (delimiter tests, check_ws_start!, raw blocks through
   skip_tag / memstr, comments, text up to find_start_marker) and the Variable/Tag state
   (scan_inside: whitespace skipping, end-delimiter tests, and inner_token = spread, two- and
   one-byte operators, lex_string! with its escape flag and unescaping, lex_number! with the i64
   range test, identifiers, true/false).
     1. TERMINATION (C08_lexer_total): for every delimiter set accepted by validate and every
        source, the run never needs more iterations than bytes + 1: each iteration of the main
        loop and of scan_inside consumes at least one byte.
     2. IN BOUNDS (C08_token_ranges_in_source): every (start, end) byte range of an accepted run
        is ordered and lies inside the source, so no advance!(n) has n > rest.len().
     3. EVERY CUT IS ON A CHARACTER BOUNDARY (Model/LexerSlices.v, Proofs/LexerBoundary.v).
        Model/LexerSlices.v lists, next to the token model, every offset into the source at which
        basic_tokenize cuts its `&str` - each advance!(n) (check_ws_start!, raw block, comment, text,
        whitespace in a tag, end delimiters, spread and operators, lex_number!, lex_string!,
        identifiers), `&s[1..s.len() - 1]` of lex_string!, `&rest.as_bytes()[offset..]`,
        `&rest[offset..]` and `&rest[body_start..body_end]` of the raw-block loop - also for a run
        that ends in a syntax error (the cuts made before the error).  Theorem: for every delimiter
        set accepted by validate whose six strings are valid UTF-8 and every valid UTF-8 source, every
        one of these offsets is a character boundary of the source.
        The UTF-8 hypothesis on the delimiters is not an extra assumption about the caller: the
        fields of `Delimiters` are `Cow<'static, str>` (delimiters.rs 9-22), and a Rust `str` is valid
        UTF-8 by type invariant; validate (delimiters.rs 39-87) adds `len() == 2`, so a delimiter is two
        ASCII characters or one 2-byte character - it cannot be a fragment of a character.  (The
        model type `delims` holds arbitrary byte lists, hence the explicit hypothesis
        `LexerSlices.delims_utf8`.)  The proof is UTF-8 self-synchronisation: a byte that announces
        a k-byte character is, in a valid string, followed k bytes later by a boundary; so a byte
        match of a delimiter (memstr, find_start_marker, starts2) starts and ends on boundaries and
        every run that ends in an ASCII byte ends on one.
     4, 5. SLICING (C12_advance_total_on_boundaries / C12_advance_panics_off_boundary, Model/Report.v):
        advance!(n) = split_at(n) + location bookkeeping succeeds, with both pieces valid UTF-8
        again, when n is a character boundary of the valid-UTF-8 rest (4), and panics otherwise (5).
        With 3, no slicing panic: at a position reached by a listed cut, an advance!(k) to another
        listed cut returns the two pieces, both valid UTF-8 again.
   Not modelled, left to the runtime oracle: `num.parse::<f64>()`, the Display of tokens inside
   error messages, `strip_prefix` / `trim_start` / `trim_end` (std functions on `str` that cannot
   cut off a boundary).  Correspondence: family `slices` (Corr/CorrC06Lex.v) compares the model's
   token byte ranges with the real lexer's and checks that every real token start/end is one of
   the listed offsets, on sources with multi-byte characters next to every kind of delimiter and
   on 2-byte-character delimiter sets. *)
Theorem C06_lexer_total_and_boundary_safe :
  (forall dl src, Lexer.validate dl = Value.ROk tt ->
     Lexer.lex_ptoks dl src <> Value.RErr Value.ErrPanic) /\
  (forall dl src pt s e, Lexer.validate dl = Value.ROk tt -> Lexer.lex_ptoks dl src = Value.ROk pt ->
     In (s, e) (LexerSpans.offsets 0 pt) -> s <= e /\ e <= length src) /\
  (forall dl src, Lexer.validate dl = Value.ROk tt -> LexerSlices.delims_utf8 dl ->
     Utf8Chars.valid_utf8 src ->
     forall n, In n (LexerSlices.slice_offsets dl src) -> Report.is_char_boundary src n = true) /\
  (forall src p rest k st, Utf8Chars.valid_utf8 src -> src = p ++ rest ->
     Report.is_char_boundary src (length p) = true ->
     Report.is_char_boundary src (length p + k) = true ->
     exists st', Report.advance st rest k = Some (st', firstn k rest, skipn k rest) /\
       Utf8Chars.valid_utf8 (firstn k rest) /\ Utf8Chars.valid_utf8 (skipn k rest) /\
       Utf8Chars.valid_utf8 rest) /\
  (forall st rest n, Report.is_char_boundary rest n = false -> Report.advance st rest n = None).
Proof. exact LexerBoundary.lexer_total_and_boundary_safe. Qed.

(* `rest.get(a..a+2) == Some(delim)` - the CHECKED slice, None off a boundary - is the byte
   comparison Model/Lexer.v uses for it: on valid UTF-8 the bytes of a delimiter cannot start or end
   inside a character, so the model is not wrong about the boundary test it does not perform *)
Theorem C06_checked_get_is_byte_test : forall s d a,
  Utf8Chars.valid_utf8 s -> Utf8Chars.valid_utf8 d -> length d = 2 ->
  (LexerSlices.get2 s a = Some d <-> Doc.window s a = d).
Proof. exact LexerBoundary.get2_is_window. Qed.

(* the cuts and the token ranges describe the same run: every token of an accepted run starts at
   0, at the previous cut or after the whitespace advance!, and ends where an advance! ended
   (Proofs/LexerTokenCuts.v); so every token byte range - the `range` of every lexer Span, which
   C12 needs on character boundaries - lies on character boundaries of the source *)
Theorem C06_token_ranges_are_cuts : forall dl src pt s e,
  Lexer.lex_ptoks dl src = Value.ROk pt -> In (s, e) (LexerSpans.offsets 0 pt) ->
  (s = 0 \/ In s (LexerSlices.slice_offsets dl src)) /\ In e (LexerSlices.slice_offsets dl src).
Proof. exact LexerTokenCuts.token_ranges_are_cuts. Qed.

Theorem C06_token_ranges_on_boundaries : forall dl src pt s e,
  Lexer.validate dl = Value.ROk tt -> LexerSlices.delims_utf8 dl -> Utf8Chars.valid_utf8 src ->
  Lexer.lex_ptoks dl src = Value.ROk pt -> In (s, e) (LexerSpans.offsets 0 pt) ->
  Report.is_char_boundary src s = true /\ Report.is_char_boundary src e = true.
Proof. exact LexerTokenCuts.token_ranges_on_boundaries. Qed.

(* the hypothesis on the delimiters is needed by the MODEL (whose delimiters are byte lists): with
   the second half of `é` and the first half of another character as "delimiter" - not a Rust
   str - the run cuts inside a character *)
Theorem C06_boundary_needs_utf8_delimiters :
  exists dl src, Lexer.validate dl = Value.ROk tt /\ Utf8Chars.valid_utf8 src /\
    exists n, In n (LexerSlices.slice_offsets dl src) /\ Report.is_char_boundary src n = false.
Proof. exact LexerBoundary.boundary_needs_utf8_delimiters. Qed.

(* THE FUSION PASS NEVER INDEXES OUT OF BOUNDS (panic-freedom of Chunk::optimize): for every
   chunk whose jump targets are in range the ported pass returns Some, i.e. no index_map /
   is_jump_target access fell outside (reuse of the C09 structure theorem) *)
Theorem C06_optimize_indices_in_bounds : forall p,
  unfused p -> targets_in_range p ->
  exists o, optimize p = Some o /\ length (expand (map fst o)) = length p.
Proof.
  intros p H1 H2. destruct (C09_optimize_structure p H1 H2) as (o & Ho & _ & _ & Hl & _).
  exists o. split; assumption.
Qed.

Print Assumptions C06_parser_depth_bounded.
Print Assumptions C06_parser_depth_bounded_refuted.
Print Assumptions C06_ast_depth_bounded_refuted.
Print Assumptions C06_ast_depth_bounded.
Print Assumptions C06_nesting_limit_is_syntax_error_parens.
Print Assumptions C06_optimize_indices_in_bounds.
Print Assumptions C06_parser_unreachables_unreachable.
Print Assumptions C06_parser_unreachable_reached_off_lexer_streams.
Print Assumptions C06_lexer_total_and_boundary_safe.
Print Assumptions C06_checked_get_is_byte_test.
Print Assumptions C06_boundary_needs_utf8_delimiters.
Print Assumptions C06_token_ranges_are_cuts.
Print Assumptions C06_token_ranges_on_boundaries.

(* non-vacuity: real runs with enough fuel *)
Example C06_ex_accepts :
  match parse cfg_tree 200 [TVarStart; TWord (WId 0); TSym SPlus; TAtom; TSym SMul; TAtom; TVarEnd] with
  | ROk [T KExprNode [T KBin [T KVar []; T KBin [T KConst []; T KConst []]]]] s => peak s = 10
  | _ => False
  end.
Proof. vm_compute. reflexivity. Qed.

(* 38 parentheses are accepted, 39 are a syntax error, at the tree's MAX_RECURSION_DEPTH *)
Example C06_ex_paren_limit :
  (match parse cfg_tree 400 (TVarStart :: repeat TLParen 38 ++ TAtom :: repeat TRParen 38 ++ [TVarEnd]) with
   | ROk _ _ => True | _ => False end) /\
  (match parse cfg_tree 400 (TVarStart :: repeat TLParen 39 ++ TAtom :: repeat TRParen 39 ++ [TVarEnd]) with
   | RErr _ => True | _ => False end).
Proof. vm_compute. split; exact I. Qed.

(* with the limits of the patch: a 200-link chain is accepted (depth 202: the node, 200 operators,
   a leaf), a 300-link chain and a 501-branch elif are syntax errors *)
Definition cfg_patched : cfg := mkcfg 40 2 4 (Some 256) (Some 500).
Example C06_ex_chain_limits :
  (match parse cfg_patched (fuel_for (plus_chain 200)) (plus_chain 200) with
   | ROk nodes _ => depth_list nodes = 202 | _ => False end) /\
  (match parse cfg_patched (fuel_for (plus_chain 300)) (plus_chain 300) with
   | RErr _ => True | _ => False end) /\
  (match parse cfg_patched (fuel_for (elif_chain 500)) (elif_chain 500) with
   | ROk nodes _ => depth_list nodes = 502 | _ => False end) /\
  (match parse cfg_patched (fuel_for (elif_chain 501)) (elif_chain 501) with
   | RErr _ => True | _ => False end).
Proof. vm_compute. repeat split. Qed.

(* a real template shape: `x{{ a }}{% if a %}x{% endif %}` is lexer-shaped and accepted *)
Example C06_ex_lexer_shaped :
  let ts := [TText; TVarStart; TWord (WId 0); TVarEnd; TTagStart; TWord WIf; TWord (WId 0); TTagEnd; TText;
             TTagStart; TWord WEndif; TTagEnd] in
  lexer_shaped MT ts = true /\ match parse cfg_tree (fuel_for ts) ts with ROk _ _ => True | _ => False end.
Proof. vm_compute. split; [reflexivity | exact I]. Qed.

(* the lexer half is not vacuous: a delimiter set made of 2-byte characters (÷ × {{ }} é è) is
   accepted and satisfies the UTF-8 hypothesis *)
Definition dl_2byte : Lexer.delims :=
  Lexer.mkDelims [0xC3; 0xB7]%N [0xC3; 0x97]%N [0x7B; 0x7B]%N [0x7D; 0x7D]%N [0xC3; 0xA9]%N [0xC3; 0xA8]%N.
Example C06_ex_2byte_delimiters_accepted :
  Lexer.validate dl_2byte = Value.ROk tt /\ LexerSlices.delims_utf8 dl_2byte.
Proof.
  split; [reflexivity|]. repeat split; apply ReportProofs.valid_utf8b_ok; vm_compute; reflexivity.
Qed.

(* `é{{ 'é' }}`: text cut at 2, `{{` at 4, whitespace at 5, the string advance! at 9 and its
   inner `&s[1..len-1]` at 6 and 8, whitespace at 10, `}}` at 12 *)
Example C06_ex_slice_offsets :
  LexerSlices.slice_offsets Lexer.default_delims
    [0xC3; 0xA9; 0x7B; 0x7B; 0x20; 0x27; 0xC3; 0xA9; 0x27; 0x20; 0x7D; 0x7D]%N
  = [2; 4; 5; 9; 6; 8; 10; 12].
Proof. vm_compute. reflexivity. Qed.

(* with é as comment start and è as comment end, `aé-日è` is text, then a comment: cuts at 1
   (text), 4 (`é-`), 9 (comment end found by memstr after the 3-byte character) *)
Example C06_ex_slice_offsets_2byte :
  LexerSlices.slice_offsets dl_2byte [0x61; 0xC3; 0xA9; 0x2D; 0xE6; 0x97; 0xA5; 0xC3; 0xA8]%N = [1; 4; 9].
Proof. vm_compute. reflexivity. Qed.
