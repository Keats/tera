(* C11 — Cyclic or dangling template graphs are rejected; accepted graphs render finitely.
   The general statements are closed by `exact` of a lemma of Proofs/RegistryProofs.v; the
   refutations (D10, D13) and the repaired verdicts on the same concrete sets by evaluation.
   Quantification: every finite set of templates (a well-formed finite map `msorted m` from
   names to descriptors), every list of fallback prefixes, every graph shape (self loops, long
   cycles, cycles entered from a tail, edges in the main chunk / in blocks / in component
   bodies), every iteration order of the include names (the walk is generic in `succ`). *)
From Coq Require Import List NArith Bool.
From TeraV Require Import Model.Registry Spec.Graph Proofs.RegistryProofs.
Import ListNotations.

(* name resolution: the exact name first, then the prefixes in order *)
Theorem C11_resolve_spec : forall (V : Type) (m : fmap V) pre n r,
  resolve pre m n = Some r <-> resolves (has m) pre n r.
Proof. exact @resolve_spec. Qed.

Theorem C11_resolve_none_spec : forall (V : Type) (m : fmap V) pre n,
  resolve pre m n = None <-> dangling (has m) pre n.
Proof. exact @resolve_none_spec. Qed.

(* the parent walk.  `fp_spec` spells out each outcome over the resolved extends relation:
     Ok ps              : the walk from n along (rev ps) reaches a template without `extends`,
                          and n :: ps has no repetition              (chain, root first)
     Err MissingParent  : a repetition-free walk reaches a template whose target resolves to nothing
     Err CircularExtend : a repetition-free walk n, l reaches u whose target is n or a member
                          of l (self loop: l = [], long cycle: back to n, cycle entered from
                          a tail: back into the middle of l)
   never any other error, and never out of fuel with fuel = number of templates + 1 *)
Theorem C11_find_parents_spec : forall pre (m : smap), msorted m -> forall n t,
  In (n, t) m ->
  fp_spec pre m n (parents_of pre m n t) /\ parents_of pre m n t <> Err EkFuel.
Proof. exact find_parents_spec. Qed.

(* ... and conversely the chain is returned whenever all targets resolve and nothing repeats *)
Theorem C11_find_parents_complete : forall pre (m : smap), msorted m -> forall n t l u,
  In (n, t) m -> path (ext pre m) n l u -> is_root m u -> NoDup (n :: l) ->
  parents_of pre m n t = Ok (rev l).
Proof. exact find_parents_complete_spec. Qed.

(* the include walk (explicit stack + visited set), for ANY successor function over the
   template names -- any iteration order, the pinned edge set or the repaired one: it succeeds
   for every template iff the relation has no cycle; fuel = number of templates + 1 *)
Theorem C11_include_dfs_spec : forall (m : smap) (succ : name -> list name),
  (forall x y, In y (succ x) -> In y (mkeys m)) ->
  ((forall n, In n (mkeys m) -> check_include_cycles succ m n = Ok tt) <-> acyclic (edge succ)).
Proof. exact include_dfs_spec. Qed.

(* ... and it reports CircularInclude for a start exactly when the start leads to a cycle
   (self loop, long cycle, or a cycle entered from a tail) *)
Theorem C11_include_err_spec : forall (m : smap) (succ : name -> list name) n,
  (forall x y, In y (succ x) -> In y (mkeys m)) -> In n (mkeys m) ->
  (check_include_cycles succ m n = Err EkCircularInclude <-> leads_to_cycle (edge succ) n).
Proof. exact include_err_spec. Qed.

(* the generic walk, over any node type with a decidable equality (also used for block graphs) *)
Theorem C11_dfs_spec : forall (A : Type) (eqb : A -> A -> bool) (succ : A -> list A),
  (forall x y, eqb x y = true <-> x = y) ->
  forall U : list A, (forall x y, edge succ x y -> In y U) ->
  forall fuel, length U <= fuel ->
  ((forall t, In t U -> exists v, dfs_check eqb succ fuel t = Ok v) <-> acyclic (edge succ)).
Proof. exact @dfs_spec. Qed.

(* acceptance: only if every extends target exists and the chains do not repeat, every include
   target exists, and the include relation is acyclic -- with or without the repairs *)
Theorem C11_accepted_only_if : forall ev sufs (m : smap) tm comps,
  msorted m -> finalize_src ev sufs m = Ok (tm, comps) ->
  (forall n t, In (n, t) m ->
     exists ps u, parents_of (ev_prefixes ev) m n t = Ok ps /\
                  path (ext (ev_prefixes ev) m) n (rev ps) u /\ is_root m u /\ NoDup (n :: ps)) /\
  (forall n t i, In (n, t) m -> In i (td_includes t) ->
     exists r, resolve (ev_prefixes ev) m i = Some r) /\
  acyclic (edge (inc_succ_pinned (ev_prefixes ev) m)).
Proof. exact accepted_only_if. Qed.

(* termination.  The render recursion modelled is that of the VM with the D9 repair: an
   include starts from the root ancestor's main chunk of the included template, under the
   included template's lineage.  With the finalize of the PINNED commit (`ev_pinned`: the
   include walk follows a template's own include edges only, no block-lineage check) the
   statement is FALSE (D10): the set
     A = {% block y %}{% include "B" %}{% endblock %}
     B = {% extends "A" %}{% block y %}{{ super() }}{% endblock %}
   is accepted and render("A") recurses without bound (the model runs out of the fuel that is
   proved sufficient below; the VM of that commit, whose include runs B's own chunk, aborts on it
   just the same: corpus/C11/D10-include-through-super.json). *)
Definition ev_pinned : env :=
  {| ev_prefixes := []; ev_filters := []; ev_tests := []; ev_funcs := [];
     ev_fix_d10 := false; ev_fix_d13 := false |}.
Definition ev_d10 : env :=
  {| ev_prefixes := []; ev_filters := []; ev_tests := []; ev_funcs := [];
     ev_fix_d10 := true; ev_fix_d13 := false |}.
Definition nA : name := [65%N].
Definition nB : name := [66%N].
Definition nY : name := [121%N].
Definition mk (e : option name) (main : chunk) (blocks : list (name * chunk)) (top : list name) : tdesc :=
  {| td_extends := e; td_main := main; td_blocks := blocks; td_top := top; td_comps := [];
     td_filters := []; td_tests := []; td_funcs := []; td_len := 0 |}.
Definition d10_set : list (name * source) :=
  [ (nA, Some (mk None [OBlock nY] [(nY, [OInclude nB])] [nY]));
    (nB, Some (mk (Some nA) [OBlock nY] [(nY, [OSuper])] [nY])) ].

Theorem C11_accepted_renders_finitely_refuted :
  exists b s, add_batch ev_pinned (init []) b = (Ok tt, s) /\
              render (render_fuel s) [] s nA = ROutOfFuel /\
              render (render_fuel s) [] s nB = ROutOfFuel.
Proof. exists d10_set. eexists. split; [vm_compute; reflexivity|]. vm_compute. split; reflexivity. Qed.

(* with the repair (the walk follows the includes of a template's parents too) that set is
   rejected with CircularInclude *)
Theorem C11_d10_set_rejected_after_repair :
  fst (add_batch ev_d10 (init []) d10_set) = Err EkCircularInclude.
Proof. vm_compute. reflexivity. Qed.

(* D13: block nesting inverted across inheritance and
   reached again through super(); no include involved
     base = {% block a %}{% block b %}{% endblock %}{% endblock %}
     kid  = {% extends "base" %}{% block b %}{% block a %}{{ super() }}{% endblock %}{% endblock %}
   is accepted by the pinned finalize AND by the one with only the D10 repair (`ev_d10`), and
   render("kid") recurses without bound *)
Definition nBase : name := [98%N].
Definition nKid : name := [107%N].
Definition bA : name := [97%N].
Definition bB : name := [98%N].
Definition d13_set : list (name * source) :=
  [ (nBase, Some (mk None [OBlock bA] [(bB, [OText 2%N]); (bA, [OText 1%N; OBlock bB])] [bA]));
    (nKid, Some (mk (Some nBase) [OBlock bB] [(bA, [OSuper]); (bB, [OBlock bA])] [bB])) ].

Theorem C11_block_nest_cycle_refuted :
  exists s e, add_batch ev_d10 (init []) d13_set = (Ok tt, s) /\
              mfind nKid (st_tpls s) = Some e /\ blocks_acyclic (e_lineage e) = false /\
              render (render_fuel s) [] s nKid = ROutOfFuel.
Proof. eexists. eexists. split; [vm_compute; reflexivity|]. vm_compute. repeat split. Qed.

Definition ev_fixed : env :=
  {| ev_prefixes := []; ev_filters := []; ev_tests := []; ev_funcs := [];
     ev_fix_d10 := true; ev_fix_d13 := true |}.

Theorem C11_d13_set_rejected_after_repair :
  fst (add_batch ev_fixed (init []) d13_set) = Err EkMsg.
Proof. vm_compute. reflexivity. Qed.

(* With the D10 repair alone: every accepted set renders with bounded recursion -- the model of
   the render recursion (render and include alike -> the root ancestor's main chunk under the
   template's own lineage; RenderBlock -> lineage[0]; super() -> one level up; component
   call -> one level deeper, cut at 20) never runs out of `render_fuel s` -- provided no
   template's block lineage nests blocks cyclically (`blocks_acyclic`, decidable). *)
Theorem C11_accepted_renders_finitely_modulo_block_nesting : forall ev sufs (m : smap),
  msorted m -> ev_fix_d10 ev = true -> forall tm comps,
  finalize_src ev sufs m = Ok (tm, comps) ->
  (forall n e, mfind n tm = Some e -> blocks_acyclic (e_lineage e) = true) ->
  forall n,
    render (render_fuel {| st_sufs := sufs; st_tpls := tm; st_comps := comps |}) (ev_prefixes ev)
           {| st_sufs := sufs; st_tpls := tm; st_comps := comps |} n <> ROutOfFuel.
Proof. exact render_fuel_suffices. Qed.

(* With both repairs (D10: the include walk follows the parents' includes; D13: finalize rejects
   a block lineage that leads back to itself): EVERY accepted set, over every configuration,
   renders every template with recursion depth below render_fuel -- full strength. *)
Theorem C11_accepted_renders_finitely : forall ev sufs (m : smap),
  msorted m -> ev_fix_d10 ev = true -> ev_fix_d13 ev = true -> forall tm comps,
  finalize_src ev sufs m = Ok (tm, comps) ->
  forall n,
    render (render_fuel {| st_sufs := sufs; st_tpls := tm; st_comps := comps |}) (ev_prefixes ev)
           {| st_sufs := sufs; st_tpls := tm; st_comps := comps |} n <> ROutOfFuel.
Proof. exact render_fuel_suffices_full. Qed.

Print Assumptions C11_resolve_spec.
Print Assumptions C11_resolve_none_spec.
Print Assumptions C11_find_parents_spec.
Print Assumptions C11_find_parents_complete.
Print Assumptions C11_include_dfs_spec.
Print Assumptions C11_include_err_spec.
Print Assumptions C11_dfs_spec.
Print Assumptions C11_accepted_only_if.
Print Assumptions C11_accepted_renders_finitely_refuted.
Print Assumptions C11_d10_set_rejected_after_repair.
Print Assumptions C11_accepted_renders_finitely.
Print Assumptions C11_accepted_renders_finitely_modulo_block_nesting.
Print Assumptions C11_d13_set_rejected_after_repair.
Print Assumptions C11_block_nest_cycle_refuted.

(* non-vacuity: a legitimate set (a parent that includes a partial, a child that calls
   super()) is accepted by the repaired model and renders *)
Definition nP : name := [112%N].
Definition ok_set : list (name * source) :=
  [ (nA, Some (mk None [OText 1%N; OInclude nP; OBlock nY] [(nY, [OText 2%N])] [nY]));
    (nP, Some (mk None [OText 3%N] [] []));
    (nB, Some (mk (Some nA) [OBlock nY] [(nY, [OText 4%N; OSuper])] [nY])) ].
Example ok_set_renders :
  let '(r, s) := add_batch ev_fixed (init []) ok_set in
  r = Ok tt /\ render (render_fuel s) [] s nB = RText [1%N; 3%N; 4%N; 2%N] /\
  forallb (fun ne => blocks_acyclic (e_lineage (snd ne))) (st_tpls s) = true.
Proof. vm_compute. repeat split. Qed.

(* resolution through prefixes: exact name wins, then the first prefix that matches *)
Example resolve_order :
  let m : fmap nat := [([97%N], 0); ([112%N; 47%N; 98%N], 1); ([113%N; 47%N; 98%N], 2)] in
  resolve [[113%N; 47%N]; [112%N; 47%N]] m [98%N] = Some [113%N; 47%N; 98%N] /\
  resolve [[113%N; 47%N]; [112%N; 47%N]] m [97%N] = Some [97%N] /\
  resolve [[113%N; 47%N]] m [99%N] = None.
Proof. vm_compute. repeat split. Qed.
