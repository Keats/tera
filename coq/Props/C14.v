(* C14 — Indexing and slicing follow Python semantics and respect character boundaries.
   Only statements, each closed by `exact`; proofs live in Proofs/SliceProofs.v and
   Proofs/StrOpsProofs.v.  Quantification: every list (any length below 2^127; Rust lengths are
   below 2^63), every start/stop/step in Option<i128>, every integer operand in any of the four
   representations. *)
From TeraV Require Import Model.Value Model.Slice Model.StrOps Spec.PySlice
  Proofs.SliceProofs Proofs.StrOpsProofs.

(* x[a:b:c] visits exactly the indices Python's slice.indices + range visit *)
Theorem C14_slice_indices_is_python : forall len start stop step,
  0 <= len <= i128_max -> opt_in_i128 start -> opt_in_i128 stop ->
  i128_min <= step <= i128_max -> step <> 0 ->
  slice_indices len start stop step = py_slice_indices len start stop step.
Proof. exact slice_indices_is_python. Qed.

(* ... never indexes out of bounds (None would be a panic) and returns Python's elements *)
Theorem C14_slice_items_is_python : forall (A : Type) (items : list A) start stop step,
  Z.of_nat (length items) <= i128_max -> opt_in_i128 start -> opt_in_i128 stop ->
  i128_min <= step <= i128_max -> step <> 0 ->
  slice_items items start stop step = Some (py_slice items start stop step).
Proof. exact @slice_items_is_python. Qed.

(* Value::slice on arrays and strings: zero step is an error, otherwise Python's result;
   strings are sliced by characters and keep their safe flag *)
Theorem C14_value_slice_array : forall l start stop step,
  Z.of_nat (length l) <= i128_max -> opt_in_i128 start -> opt_in_i128 stop -> opt_in_i128 step ->
  value_slice (VArr l) start stop step =
    if step_of step =? 0 then RErr ErrMsg else ROk (VArr (py_slice l start stop (step_of step))).
Proof. exact (fun l => value_slice_seq _ _ _ (slices_arr l)). Qed.

Theorem C14_value_slice_string : forall s safe start stop step,
  Z.of_nat (length s) <= i128_max -> opt_in_i128 start -> opt_in_i128 stop -> opt_in_i128 step ->
  value_slice (VStr s safe) start stop step =
    if step_of step =? 0 then RErr ErrMsg else ROk (VStr (py_slice s start stop (step_of step)) safe).
Proof. exact (fun s safe => value_slice_seq _ _ _ (slices_str s safe)). Qed.

(* the VM instruction with integer operands of ANY width (u128 above i128::MAX included),
   `none` meaning absent: the result is Python's slice taken at the operands' exact
   mathematical values *)
Theorem C14_vm_slice_is_python : forall opt l start stop step,
  Z.of_nat (length l) <= i128_max ->
  slice_arg start -> slice_arg stop -> slice_arg step ->
  vm_slice opt (VArr l) start stop step =
    if step_of (arg_val step) =? 0 then RErr ErrRender
    else ROk (VArr (py_slice l (arg_val start) (arg_val stop) (step_of (arg_val step)))).
Proof. exact (fun opt l => vm_slice_seq _ _ _ (slices_arr l) opt). Qed.

Theorem C14_vm_slice_string_is_python : forall opt s safe start stop step,
  Z.of_nat (length s) <= i128_max ->
  slice_arg start -> slice_arg stop -> slice_arg step ->
  vm_slice opt (VStr s safe) start stop step =
    if step_of (arg_val step) =? 0 then RErr ErrRender
    else ROk (VStr (py_slice s (arg_val start) (arg_val stop) (step_of (arg_val step))) safe).
Proof. exact (fun opt s safe => vm_slice_seq _ _ _ (slices_str s safe) opt). Qed.

(* x[i]: element i, from the end when negative, undefined (never an error or panic) when out of
   range, for integers of every width *)
Theorem C14_index_array_is_python : forall l v,
  int_value v -> Z.of_nat (length l) <= i128_max ->
  get_item_seq (VArr l) v =
    ROk (match py_index l (int_val v) with Some x => x | None => VUndef end).
Proof. exact (fun l => index_resolved l (fun x => x)). Qed.

Theorem C14_index_string_is_python : forall s safe v,
  int_value v -> Z.of_nat (length s) <= i128_max ->
  get_item_seq (VStr s safe) v =
    ROk (match py_index s (int_val v) with Some c => VStr [c] safe | None => VUndef end).
Proof. exact (fun s safe => index_resolved s (fun c => VStr [c] safe)). Qed.

(* Python's slice never has more elements than the input; by C14_slice_items_is_python that is also
   the number of elements the model's loop collects (the statement is about the result, not about
   the loop's iterations) *)
Theorem C14_slice_terminates_within_len : forall (A : Type) (items : list A) start stop step,
  step <> 0 -> (length (py_slice items start stop step) <= length items)%nat.
Proof. exact @py_slice_length. Qed.

(* strings: every operation works on whole characters; results contain only characters of the
   input (plus the end marker for truncate), so they are valid text whenever the input is *)
Theorem C14_slice_only_input_chars : forall (A : Type) (items : list A) start stop step,
  incl (py_slice items start stop step) items.
Proof. exact @py_slice_incl. Qed.

Theorem C14_string_ops_valid_text : forall s safe start stop step n e v,
  valid_text s -> valid_text (match e with Some e => e | None => ellipsis end) ->
  value_valid_text (str_reverse s) /\
  value_valid_text (str_truncate s n e) /\
  Forall (fun p => value_valid_text (fst p)) (str_iter s) /\
  value_valid_text (VStr (py_slice s start stop step) safe) /\
  (forall c, py_index s v = Some c -> valid_text [c]).
Proof. exact string_ops_valid_text. Qed.

Theorem C14_string_ops_by_chars : forall s n e,
  str_length s = VInt U64 (Z.of_nat (length s)) /\
  (exists r, str_reverse s = VStr r false /\ rev r = s) /\
  (str_truncate s n e =
     if Nat.ltb n (length s)
     then VStr (firstn n s ++ match e with Some e => e | None => ellipsis end) false
     else VStr s false) /\
  concat (map (fun p => match fst p with VStr c _ => c | _ => [] end) (str_iter s)) = s /\
  map (fun p => snd p) (str_iter s) =
    map (fun i => (i, length s, Nat.eqb i 0, Nat.eqb (S i) (length s))) (seq 0 (length s)).
Proof. exact string_ops_by_chars. Qed.

Print Assumptions C14_slice_indices_is_python.
Print Assumptions C14_slice_items_is_python.
Print Assumptions C14_vm_slice_is_python.
Print Assumptions C14_index_array_is_python.
Print Assumptions C14_string_ops_valid_text.

(* non-vacuity: the hypotheses are satisfiable and the statements compute what one expects *)
Example C14_ex_neg_step :
  vm_slice false (VArr [VInt U64 0; VInt U64 10; VInt U64 20; VInt U64 30]) VNone VNone (VInt I64 (-2))
  = ROk (VArr [VInt U64 30; VInt U64 10]).
Proof. vm_compute. reflexivity. Qed.

Example C14_ex_extremes :
  vm_slice false (VArr [VInt U64 0; VInt U64 10; VInt U64 20]) (VInt I128 i128_min) (VInt U128 u128_max) (VInt I128 i128_max)
  = ROk (VArr [VInt U64 0]).
Proof. vm_compute. reflexivity. Qed.
