(* C19 — Data put in a context through serde is represented faithfully.
   Statements only: each theorem is closed by `exact` of a lemma, or by a few lines that instantiate
   lemmas, of Proofs/SerdeProofs.v (round trip, keys, Context paths, the D7/D14
   counter-examples), Proofs/SerdePinned.v (the tree before the
   repairs), Proofs/ReserProofs.v (a Value sent through serde again) or Proofs/FormatProofs.v
   (printing); the examples at the end are closed by evaluation.
   Quantification: every type of the grammar `ty` (all integer widths, f32/f64, char, string, unit,
   option, unit/newtype/tuple structs, sequences, tuples, maps, structs, enums with
   unit/newtype/tuple/struct variants, nested without bound) and every value `sval` of it; both
   entry points (T::deserialize(value), T::deserialize(&value)).
   The model is of the code with the repairs fixes/D7-deser-by-ref.patch and
   fixes/D14-newtype-struct-deser.patch applied (`Fixed`); `Pinned` is the tree before them. *)
From TeraV Require Import Model.Value Model.Format Model.Serde Proofs.SerdeProofs Proofs.FormatProofs Proofs.SerdePinned Proofs.ReserProofs.
From Coq Require Import Permutation Sorted.

(* converting a value and reading it back into the same type returns the original, through either
   entry point.  Side conditions: the property's own exclusion (no none-like type directly under an
   Option), a description that is one of a Rust type (distinct field names, variant payloads of
   their shape), admissible key types (so that serialisation succeeds at all). *)
Theorem C19_de_ser_roundtrip : forall e t v,
  has_type v t -> no_none_like_under_option t = true -> names_ok t = true -> keys_ok t = true ->
  res_bind (ser v) (de_entry Fixed e t) = ROk v.
Proof. exact de_ser_roundtrip. Qed.

(* stronger: WHENEVER serialisation succeeds (whatever the key types), every Deserializer of the
   bridge — Value, &Value and the inner ValueDeserializer — reads the original back *)
Theorem C19_de_ser_roundtrip_whenever_ser_ok : forall t v d x,
  no_none_like_under_option t = true -> names_ok t = true ->
  has_type v t -> ser v = ROk x -> de Fixed t d x = ROk v.
Proof. exact de_ser_roundtrip_strong. Qed.

(* with admissible key types serialisation does succeed *)
Theorem C19_ser_total : forall t v, keys_ok t = true -> has_type v t -> exists x, ser v = ROk x.
Proof. exact ser_total. Qed.

(* a map holding a key that is not a bool, integer, char, string or unit variant (through Some and
   newtype wrappers) is refused; in particular every non-empty map whose key type is a float, unit,
   sequence, tuple, map or struct *)
Theorem C19_bad_key_refused : forall m k x,
  In (k, x) m -> admissible_key k = false -> exists e, ser (SMap m) = RErr e.
Proof. exact bad_key_refused. Qed.

Theorem C19_bad_key_type_refused : forall m kt vt,
  has_type (SMap m) (TMap kt vt) -> key_ty_bad kt = true -> m <> [] -> exists e, ser (SMap m) = RErr e.
Proof. exact bad_key_type_refused. Qed.

(* MapKeySerializer accepts exactly the documented keys *)
Theorem C19_key_accepted_iff_admissible : forall k, admissible_key k = true <-> exists kk, ser_key k = ROk kk.
Proof. exact ser_key_admissible. Qed.

(* distinct keys of one key type stay distinct: no entry of a map is lost or merged *)
Theorem C19_keys_stay_distinct : forall t k1 k2 a b,
  has_type k1 t -> has_type k2 t -> ser_key k1 = ROk a -> ser_key k2 = ROk b ->
  fkey_eqb a b = true -> k1 = k2.
Proof.
  intros t k1 k2 a b H1 H2 Ha Hb Heq.
  rewrite (typed_key_val _ _ _ H1 Ha), (typed_key_val _ _ _ H2 Hb). apply key_val_eqb, Heq.
Qed.

(* printing.  `format` is a function of the value (and of the three std oracles) alone; what has
   to be shown is that the part of a value that is NOT data — the internal order of map entries —
   does not reach the output, that the entries come out in key order, and that integers come out
   as their decimal numeral. *)
Theorem C19_print_map_order_irrelevant : forall ffmt sdbg blossy m m',
  Permutation m m' -> kdistinct m ->
  format ffmt sdbg blossy (VMap m) = format ffmt sdbg blossy (VMap m').
Proof.
  intros ffmt sdbg blossy m m' HP Hd. rewrite !format_map_eq. do 4 f_equal.
  apply ksort_perm_eq; [apply Permutation_map; exact HP|apply kdistinct_map; [reflexivity|exact Hd]].
Qed.

Theorem C19_print_determined_by_data : forall ffmt sdbg blossy v w,
  canon v = canon w -> format ffmt sdbg blossy v = format ffmt sdbg blossy w.
Proof.
  intros ffmt sdbg blossy v w H.
  rewrite <- (format_canon ffmt sdbg blossy v), <- (format_canon ffmt sdbg blossy w), H. reflexivity.
Qed.

Theorem C19_print_map_sorted : forall ffmt sdbg blossy m,
  exists es,
    format ffmt sdbg blossy (VMap m)
      = [123%N] ++ join s_comma (map (fmt_entry sdbg) es) ++ [125%N]
    /\ Permutation es (map (fun e : key * value => (fst e, inner ffmt sdbg blossy (snd e))) m)
    /\ Sorted kle es.
Proof.
  intros ffmt sdbg blossy m. eexists.
  split; [apply format_map_eq|]. split; [apply ksort_perm|apply ksort_sorted].
Qed.

Theorem C19_print_integers_exact : forall ffmt sdbg blossy sg bits z,
  (exists x, ser (SInt sg bits z) = ROk x /\ format ffmt sdbg blossy x = dec z)
  /\ parse_dec (dec z) = Some z.
Proof.
  intros. split; [|apply parse_dec_dec].
  exists (VInt (int_rep sg bits) z). split; reflexivity.
Qed.

(* the three ways of building a Context agree *)
Theorem C19_context_paths_agree : forall xs es,
  str_nodupb (map fst xs) = true -> ser_fields xs = ROk es ->
  from_serialize (SStruct xs) = ROk (insert_value_all es [])
  /\ insert_all xs [] = ROk (insert_value_all es []).
Proof. exact context_paths_agree. Qed.

(* a Value sent through serde AGAIN (`impl Serialize for Value` / `for Key`: Context::insert(k, &value),
   Value::from_serializable(&value)).  For every converted value — whatever it was converted from —
   the result is the same value (same kinds, same integer representations, same keys of the same
   key kind, same order; only the String-vs-Str variant of string keys may differ, which printing
   and the key order do not see: ReserProofs.key_same_fmt) *)
Theorem C19_reserialize_identity : forall sv x,
  ser sv = ROk x -> exists y, reser x = ROk y /\ value_same y x = true.
Proof. exact reserialize_identity. Qed.

(* for ALL well-formed values (bytes, 128-bit integers, undefined, safe strings, every key kind):
   never an error, and the result is `renorm` of the value: undefined -> none, the safe flag is
   dropped, borrowed string keys become owned; nothing else changes ... *)
Theorem C19_reserialize_all_values : forall v, wfv v -> reser v = ROk (renorm v).
Proof. exact reser_renorm. Qed.

(* ... so the values without undefined, safe strings and borrowed keys are exact fixed points *)
Theorem C19_reserialize_fixed_point : forall v, wfv v -> fixedv v -> reser v = ROk v.
Proof. intros v Hw Hf. rewrite reser_renorm by exact Hw. rewrite renorm_fixed by exact Hf. reflexivity. Qed.

(* the model of `impl Serialize for Value` is the existing serialiser applied to the data-model
   term a Value emits *)
Theorem C19_reser_is_ser : forall v, bytes_free v -> reser v = ser (to_sval v).
Proof. exact reser_is_ser. Qed.

(* `insert(k, &converted)` = `insert_value(k, converted)` *)
Theorem C19_insert_eq_insert_value : forall sv x k c,
  ser sv = ROk x ->
  exists y, insert_reser k x c = ROk (insert_value k y c) /\ value_same y x = true.
Proof.
  intros sv x k c Hs. destruct (reserialize_identity sv x Hs) as (y & Hy & Hsame).
  exists y. split; [|exact Hsame]. unfold insert_reser. rewrite Hy. reflexivity.
Qed.

(* the pinned tree violates the round trip: D7 (by reference; the witness is an option, the one for
   an enum is SerdeProofs.D7_pinned_byref_enum_refuted), D14 (newtype structs, either entry point,
   silently altered) *)
Theorem C19_D7_pinned_byref_refuted :
  exists t v x, has_type v t /\ no_none_like_under_option t = true /\ names_ok t = true /\ keys_ok t = true /\
                ser v = ROk x /\ de_entry Pinned Owned t x = ROk v /\ de_entry Pinned ByRef t x = RErr ErrMsg.
Proof.
  exists (TOption (TInt false 8)), (SSome (SInt false 8 3)), (VInt U64 3).
  repeat split; try reflexivity. constructor. constructor; reflexivity.
Qed.

Theorem C19_D14_pinned_newtype_refuted :
  exists t v x w, has_type v t /\ no_none_like_under_option t = true /\ names_ok t = true /\ keys_ok t = true /\
                  ser v = ROk x /\ de_entry Pinned Owned t x = ROk w /\ de_entry Pinned ByRef t x = ROk w /\ w <> v.
Proof. exact D14_pinned_newtype_refuted. Qed.

(* ... and those two are the only ways it fails there: without newtype structs the owned entry point
   round-trips on the pinned tree, and so does `&Value` unless the type is an Option or an enum at
   the top *)
Theorem C19_pinned_roundtrip_outside_D7_D14 : forall t v x,
  no_newtype t = true -> no_none_like_under_option t = true -> names_ok t = true ->
  has_type v t -> ser v = ROk x ->
  de_entry Pinned Owned t x = ROk v
  /\ ((match t with TOption _ | TEnum _ => false | _ => true end) = true -> de_entry Pinned ByRef t x = ROk v).
Proof. exact pinned_roundtrip_outside_D7_D14. Qed.

Print Assumptions C19_de_ser_roundtrip.
Print Assumptions C19_pinned_roundtrip_outside_D7_D14.
Print Assumptions C19_de_ser_roundtrip_whenever_ser_ok.
Print Assumptions C19_bad_key_type_refused.
Print Assumptions C19_print_determined_by_data.
Print Assumptions C19_print_map_order_irrelevant.
Print Assumptions C19_print_integers_exact.
Print Assumptions C19_context_paths_agree.
Print Assumptions C19_reserialize_identity.
Print Assumptions C19_reserialize_all_values.
Print Assumptions C19_insert_eq_insert_value.

(* non-vacuity *)
Definition ex_ty : ty :=
  TStruct [([97%N], TInt false 64);
           ([98%N], TOption (TEnum [VUnit [65%N]; VTuple [67%N] [TInt true 128; TChar]]));
           ([109%N], TMap TChar (TSeq (TFloat 64)))].
Definition ex_val : sval :=
  SStruct [([97%N], SInt false 64 18446744073709551615);
           ([98%N], SSome (SVariant [67%N] VKTuple (STuple [SInt true 128 (-170141183460469231731687303715884105728); SChar 233%N])));
           ([109%N], SMap [(SChar 122%N, SSeq [SFloat 64 (S754_zero true)]); (SChar 97%N, SSeq [])])].

Example C19_ex_conditions :
  no_none_like_under_option ex_ty = true /\ names_ok ex_ty = true /\ keys_ok ex_ty = true.
Proof. vm_compute. repeat split. Qed.

Example C19_ex_roundtrip_both :
  res_bind (ser ex_val) (de_entry Fixed Owned ex_ty) = ROk ex_val
  /\ res_bind (ser ex_val) (de_entry Fixed ByRef ex_ty) = ROk ex_val.
Proof. vm_compute. split; reflexivity. Qed.

(* the excluded class really is excluded for a reason: Some(None) and Some(()) come back as None *)
Example C19_ex_nested_option_collapses :
  res_bind (ser (SSome SNone)) (de_entry Fixed Owned (TOption (TOption TBool))) = ROk SNone
  /\ res_bind (ser (SSome SUnit)) (de_entry Fixed Owned (TOption TUnit)) = ROk SNone.
Proof. vm_compute. split; reflexivity. Qed.

Example C19_ex_float_key_refused :
  ser (SMap [(SFloat 64 (S754_zero false), SBool true)]) = RErr ErrMsg.
Proof. vm_compute. reflexivity. Qed.

(* {"b": 1, "a": [true, none]} prints sorted whatever order it is stored in *)
Example C19_ex_print_sorted :
  format (fun _ => []) (fun s => [34%N] ++ s ++ [34%N]) (fun _ => [])
         (VMap [(KStr [98%N] true, VInt U64 1); (KStr [97%N] false, VArr [VBool true; VNone])])
  = [123; 34; 97; 34; 58; 32; 91; 116; 114; 117; 101; 44; 32; 93; 44; 32; 34; 98; 34; 58; 32; 49; 125]%N.
Proof. vm_compute. reflexivity. Qed.

(* a bool-keyed map stays bool-keyed when it goes through serde again *)
Example C19_ex_reser_bool_keys :
  res_bind (ser (SMap [(SBool true, SStr [121%N]); (SBool false, SStr [110%N])])) reser
  = ROk (VMap [(KBool true, VStr [121%N] false); (KBool false, VStr [110%N] false)]).
Proof. vm_compute. reflexivity. Qed.
