(* C05 — Components: arguments checked and bound, scope isolated, recursion bounded.
   The theorems are statements closed by `exact` of a lemma of Proofs/ComponentProofs.v or by a
   few lines that instantiate its lemmas (one by computation); the examples at the end are closed
   by evaluation.
   Quantification: every signature (any number of parameters, typed or not, with or without
   defaults, with or without a rest parameter), every supplied argument map, every body, every
   list of definitions in every order, every sequence of calls / includes / returns. *)
From Coq Require Import Permutation.
From TeraV Require Import Model.Value Model.Instr Gen.Tables Gen.TypeTables Model.Component
  Spec.ComponentSpec Corr.CorrC05 Proofs.ComponentProofs.

(* the generated arms of Type::matches_value / Type::from_value mean what the documentation
   says; a changed arm re-opens these *)
Theorem C05_type_matches_is_documented : forall t v, type_matches t v = doc_matches t v.
Proof. exact type_matches_doc. Qed.

Theorem C05_type_inference_is_documented : forall v, type_from_value v = doc_infer v.
Proof. exact type_from_value_doc. Qed.

Theorem C05_inferred_type_admits_its_default : forall v t,
  type_from_value v = Some t -> type_matches t v = true.
Proof.
  intros v t. rewrite type_from_value_doc, type_matches_doc.
  destruct v; intros H; inversion H; reflexivity.
Qed.

(* accepted iff (no undeclared argument or a rest parameter) and every parameter without a
   default is supplied and every supplied declared value has the declared-or-inferred type *)
Theorem C05_build_context_spec : forall d s body,
  (exists c, build_context_of d s body = ROk c) <-> accepts d s.
Proof. exact build_context_accepts. Qed.

(* ... and then the context binds EXACTLY: each parameter to the supplied value else its
   default; the rest name (iff declared) to the map of the undeclared supplied pairs; `body` iff
   a body was given; nothing else (the domain is stated exactly) *)
Theorem C05_build_context_binds_exactly : forall d s body c,
  wf_def d -> build_context_of d s body = ROk c ->
  (forall p, In p (def_params d) -> ctx_get c (p_name p) = bound_value s p) /\
  (forall r, def_rest d = Some r -> exists m, ctx_get c r = Some (VMap m) /\ is_rest_map d s m) /\
  ctx_get c body_name = body /\
  (forall n, ctx_get c n <> None <-> visible d body n) /\
  NoDup (ctx_keys c).
Proof. exact build_context_binds. Qed.

(* a rejected call is an error value (a message), never the `unreachable!()` *)
Theorem C05_build_context_rejects_with_error : forall d s body e,
  build_context_of d s body = RErr e -> e = ErrOther.
Proof. exact build_context_of_err. Qed.

(* what a call site hands to build_context is build_context_of on the string-keyed entries of
   the attribute map: an entry under a non-string key (possible through a spread) is dropped *)
Theorem C05_call_site_uses_string_keyed_arguments : forall d m body,
  build_context d (str_keys m) (kw_get m) body = build_context_of d (str_entries m) body.
Proof. exact vm_call_is_build_context_of. Qed.

(* the callee's state is State::new_with_chunk(&context, chunk): a name resolves to what the
   built context holds and to nothing else — no loops, no set variables, no includer, no global
   context; the same holds in a template included from the component body; and
   `__tera_context` shows exactly the built context *)
Theorem C05_component_state_isolated : forall c n,
  get_value (state_new c) n = ctx_value c n /\
  get_value (state_include (state_new c)) n = ctx_value c n /\
  (NoDup (ctx_keys c) -> ctx_get (dump_context (state_new c)) n = ctx_get c n).
Proof.
  exact (fun c n => conj (get_value_state_new c n)
                     (conj (get_value_include_of_new c n) (dump_context_state_new c n))).
Qed.

(* whatever the callee can read, in its own state or in one it includes from, is a declared
   parameter, the rest parameter or the body: nothing of the caller's scope *)
Theorem C05_callee_sees_only_its_arguments : forall d s body c,
  wf_def d -> build_context_of d s body = ROk c ->
  forall n, (get_value (state_new c) n <> VUndef \/ get_value (state_include (state_new c)) n <> VUndef) ->
            visible d body n.
Proof. exact callee_sees_only_visible. Qed.

(* an accepted set: per name the kept definition was offered, has the minimal priority index,
   and is the only definition at that index; names never offered are absent *)
Theorem C05_priority_selection : forall (A : Type) (l : list (str * nat * A)) t,
  select_components l = ROk t ->
  forall n,
    match ct_get t n with
    | Some (a, p) =>
        In (n, p, a) l /\ (forall p' a', In (n, p', a') l -> (p <= p')%nat) /\
        (forall a', In (n, p, a') l -> a' = a) /\ count_np n p l = 1%nat
    | None => forall p a, ~ In (n, p, a) l
    end.
Proof. exact @priority_selection_ok. Qed.

(* the table is independent of the order in which the templates are visited *)
Theorem C05_priority_order_independent : forall (A : Type) (l l' : list (str * nat * A)) t t',
  Permutation l l' -> select_components l = ROk t -> select_components l' = ROk t' ->
  forall n, ct_get t n = ct_get t' n.
Proof. exact @priority_order_independent. Qed.

(* two definitions of a name at its best priority are rejected in every order *)
Theorem C05_priority_duplicate_rejected : forall (A : Type) (l : list (str * nat * A)) n p a a' l1 l2 l3,
  l = l1 ++ (n, p, a) :: l2 ++ (n, p, a') :: l3 ->
  (forall p' x, In (n, p', x) l -> (p <= p')%nat) ->
  select_components l = RErr ErrMsg.
Proof. exact @priority_duplicate_rejected. Qed.

(* which definition a call site runs: the priority-selected table entry whenever the table has
   the name — whatever template the call stands in, also one that itself holds a lower-priority
   definition of that name; a template-local definition is used only when the table lacks the
   name (one-off templates) *)
Theorem C05_call_site_lookup_is_table_entry : forall (A : Type) (t : ctable A) local n a p,
  ct_get t n = Some (a, p) -> lookup_component t local n = ROk a.
Proof. exact @lookup_component_table. Qed.

Theorem C05_call_site_lookup_falls_back_to_local : forall (A : Type) (t : ctable A) local n,
  ct_get t n = None ->
  lookup_component t local n = match local_get local n with Some a => ROk a | None => RErr ErrPanic end.
Proof. exact @lookup_component_fallback. Qed.

Theorem C05_call_site_runs_best_priority : forall (A : Type) (l : list (str * nat * A)) (t : ctable A) local n p0 a0,
  select_components l = ROk t -> In (n, p0, a0) l ->
  exists a p, lookup_component t local n = ROk a /\ In (n, p, a) l /\
              (forall p' a', In (n, p', a') l -> (p <= p')%nat) /\ (forall a', In (n, p, a') l -> a' = a).
Proof. exact @call_site_runs_best_priority. Qed.

(* "equal priority => rejection, whatever the order" is FALSE of the code as it is for
   duplicates that are shadowed by a better definition: whether they are rejected depends on
   the visiting order (sorted template names). The kept definition is unaffected. *)
Theorem C05_priority_rejection_order_independent_refuted :
  exists l l' : list (str * nat * nat),
    Permutation l l' /\ (exists t, select_components l = ROk t) /\ select_components l' = RErr ErrMsg.
Proof. exact priority_rejection_depends_on_order. Qed.

(* get_template_priority: 0 when no fallback prefix matches the template name, else 1 + the
   index j of the first prefix that does (lower is better) *)
Theorem C05_template_priority_is_first_matching_prefix : forall prefixes name,
  match get_template_priority prefixes name with
  | O => forall p, In p prefixes -> starts_with name p = false
  | S k => exists j p, k = (0 + j)%nat /\ nth_error prefixes j = Some p /\ starts_with name p = true /\
                       forall j' p', (j' < j)%nat -> nth_error prefixes j' = Some p' -> starts_with name p' = false
  end.
Proof. exact (fun prefixes name => priority_from_spec prefixes name 0%nat). Qed.

(* in every execution (any sequence of calls, includes and returns from either entry point) the
   number of live called components is at most the limit, the running frame's counter is that
   number, and the number of live component frames is at most the limit (+1 for the component
   rendered through the API, which runs at counter 0) *)
Theorem C05_depth_bounded : forall api evs st,
  run (init_stack api) evs = ROk st ->
  (live_calls st <= Z.to_nat max_component_recursion_depth)%nat /\
  (live_components st <= Z.to_nat max_component_recursion_depth + (if api then 1 else 0))%nat /\
  depth_of st = live_calls st.
Proof. exact depth_bounded_run. Qed.

(* the (limit+1)-th nested call is the error; below the limit a call goes through *)
Theorem C05_call_at_limit_is_error : forall api evs st,
  run (init_stack api) evs = ROk st -> st <> [] ->
  step st ECall = if (live_calls st <? max_depth)%nat then ROk ((FComp, S (live_calls st)) :: st) else RErr ErrMsg.
Proof. exact call_at_limit. Qed.

(* the counter is carried unchanged through an include, and a return restores the caller *)
Theorem C05_include_keeps_depth : forall k d rest,
  step ((k, d) :: rest) EInclude = ROk ((FIncl, d) :: (k, d) :: rest).
Proof. reflexivity. Qed.

Theorem C05_return_restores : forall f st, step (f :: st) EReturn = ROk st.
Proof. exact return_restores. Qed.

(* self- or mutual recursion, directly or through includes: any nesting with more calls than the
   limit allows ends in the error *)
Theorem C05_recursion_stops_with_error : forall evs k d rest,
  no_return evs -> (max_depth < d + count_calls evs)%nat -> (d <= max_depth)%nat ->
  run ((k, d) :: rest) evs = RErr ErrMsg.
Proof. exact nesting_over_limit_fails. Qed.

(* render_component_to builds the same context by the same function and runs the same chunk.
   The differences, exactly: a rejected call is Error::message instead of a rendering error;
   the API frame runs at recursion counter 0 (a call site at caller + 1, and it can hit the
   limit); the API sets the autoescape override, a call site inherits the caller's; the API
   mints the given body string safe as is, a call site mints the text its body rendered to. *)
Theorem C05_api_equals_call : forall (A : Type) d (ch : A) supplied body depth ovr ae o,
  match api_component_call d ch supplied body ae,
        vm_component_call d ch (VMap (kwargs_of o supplied)) (option_map (fun s => VStr s false) body) depth ovr with
  | ROk fa, ROk fv =>
      fr_ctx fa = fr_ctx fv /\ fr_chunk fa = fr_chunk fv /\
      fr_depth fa = 0%nat /\ fr_depth fv = S depth /\ fr_override fa = Some ae /\ fr_override fv = ovr
  | ROk _, RErr e => e = ErrMsg /\ (max_depth < S depth)%nat
  | RErr ea, RErr ev => ea = ErrMsg /\ ev = ErrRender
  | RErr _, ROk _ => False
  end.
Proof. exact api_equals_call. Qed.

(* PARTIAL with respect to "body rendered in the caller's scope and escaping mode, result not
   escaped again": this is the instruction-shape half (a chunk that passes the decidable check
   has, before every RenderBodyComponent and in the SAME chunk, a Capture ... EndCapture followed
   only by expression instructions). What is missing is the VM semantics of Capture/EndCapture
   and of the safe-string result; those are checked at render level by the harness oracle
   (wrapped body vs the same body in place, both escaping modes). *)
Theorem C05_body_compiled_in_caller_chunk_partial : forall c,
  call_sites_ok c = true ->
  forall l1 n l2, map fst c = l1 ++ RenderBodyComponent n :: l2 ->
  exists a b, l1 = a ++ EndCapture :: b /\ (forall i, In i b -> is_output_instr i = false) /\ In Capture a.
Proof. exact call_sites_ok_spec. Qed.

Print Assumptions C05_build_context_spec.
Print Assumptions C05_build_context_binds_exactly.
Print Assumptions C05_priority_selection.
Print Assumptions C05_priority_order_independent.
Print Assumptions C05_depth_bounded.
Print Assumptions C05_api_equals_call.

(* the hypotheses can be met: a definition with a typed, a defaulted and a rest parameter, an
   accepted and four rejected calls, the depth limit from both entry points, a priority table *)
Definition ex_a : str := [97]%N.
Definition ex_b : str := [98]%N.
Definition ex_rest : str := [114; 101; 115; 116]%N.
Definition ex_x : str := [120]%N.
(* component C(a: string, b = 7, ...rest) *)
Definition ex_def : comp_def :=
  {| def_params := [ {| p_name := ex_a; p_declared := Some TString; p_default := None |};
                     {| p_name := ex_b; p_declared := None; p_default := Some (VInt I64 7) |} ];
     def_rest := Some ex_rest |}.

Example ex_wf : wf_def ex_def.
Proof.
  unfold wf_def, is_param. cbn. repeat split.
  - repeat constructor; cbn; intuition discriminate.
  - intuition discriminate.
  - discriminate.
  - intros r E. inversion E; subst. intuition discriminate.
Qed.

Example ex_bind :
  build_context_of ex_def [(ex_a, VStr [104]%N false); (ex_x, VBool true)] (Some (VStr [66]%N true)) =
  ROk [(body_name, VStr [66]%N true); (ex_rest, VMap [(KStr ex_x true, VBool true)]);
       (ex_b, VInt I64 7); (ex_a, VStr [104]%N false)].
Proof. vm_compute. reflexivity. Qed.

Example ex_reject_type : build_context_of ex_def [(ex_a, VInt I64 1)] None = RErr ErrOther.
Proof. vm_compute. reflexivity. Qed.
Example ex_reject_inferred_type : build_context_of ex_def [(ex_a, VStr [] false); (ex_b, VStr [] false)] None = RErr ErrOther.
Proof. vm_compute. reflexivity. Qed.
Example ex_reject_missing : build_context_of ex_def [(ex_b, VInt U64 1)] None = RErr ErrOther.
Proof. vm_compute. reflexivity. Qed.
Example ex_reject_unknown :
  build_context_of {| def_params := def_params ex_def; def_rest := None |} [(ex_a, VStr [] false); (ex_x, VNone)] None = RErr ErrOther.
Proof. vm_compute. reflexivity. Qed.

Example ex_depth_limit_ok : exists st, run (init_stack false) (repeat ECall 20) = ROk st /\ live_calls st = 20%nat.
Proof. eexists. vm_compute. split; reflexivity. Qed.
Example ex_depth_limit_err : run (init_stack false) (repeat ECall 21) = RErr ErrMsg.
Proof. vm_compute. reflexivity. Qed.
Example ex_depth_through_includes :
  run (init_stack true) (EInclude :: repeat ECall 10 ++ [EInclude; EInclude] ++ repeat ECall 11) = RErr ErrMsg.
Proof. vm_compute. reflexivity. Qed.

Example ex_priority :
  select_components [([66]%N, 2%nat, 20%nat); ([66]%N, 0%nat, 0%nat); ([67]%N, 1%nat, 11%nat); ([66]%N, 1%nat, 10%nat)]
  = ROk [([67]%N, (11%nat, 1%nat)); ([66]%N, (0%nat, 0%nat))].
Proof. vm_compute. reflexivity. Qed.
