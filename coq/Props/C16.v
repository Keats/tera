(* C16 — Collection filters keep their contracts.
   Only statements, each closed by `exact` or by a line that instantiates lemmas of
   Proofs/CollProofs.v, where the proofs live.
   Quantification: every array of any length whose elements are arbitrary well-formed value trees
   (any mix of kinds, duplicates, nested arrays and maps, missing attributes), every attribute
   path, every separator / pattern string, every map.  `wf` is Model/Order.v's well-formedness,
   as in Props/C15.v.  Orderings are those of the code with fixes/D2-total-order.patch applied. *)
From Coq Require Import List ZArith NArith Permutation Sorted.
From TeraV Require Import Model.Value Model.Order Model.CollFilters Spec.CollSpec
  Proofs.OrderProofs Proofs.CollProofs.
Import ListNotations.

(* sort without attribute: a permutation of the input, non-decreasing in the `cmp` order, and
   stable (for every k the elements Equal to k appear in their input order) *)
Theorem C16_sort_spec : forall l r, Forall wf l -> filter_sort l None = ROk r ->
  Permutation r l /\ StronglySorted vle r /\
  (forall k, wf k -> filter (fun x => cmp_is_eq (vcmp x k)) r = filter (fun x => cmp_is_eq (vcmp x k)) l).
Proof. exact sort_spec. Qed.

(* sort(attribute=p): the same three contracts on the keys found by get_from_path, every element
   must have the attribute, and the accepted keys are pairwise comparable *)
Theorem C16_sort_attr_spec : forall l path r, Forall wf l -> filter_sort l (Some path) = ROk r -> l <> [] ->
  exists d, decorate path l = Some d /\ map snd d = l /\
    Forall (fun kv => get_from_path (snd kv) path = Some (fst kv)) d /\
    r = map snd (sort_by fst d) /\ Permutation r l /\
    StronglySorted (kle fst) (sort_by fst d) /\
    (forall k, wf k -> filter (same_key fst k) (sort_by fst d) = filter (same_key fst k) d) /\
    ForallOrdPairs reg_cmp_wf (map fst d) /\
    (Forall (fun v => is_none v = false) (map fst d) -> ForallOrdPairs all_cmp_wf (map fst d)).
Proof. exact sort_attr_spec. Qed.

(* sort refuses keys that are not mutually comparable: whenever it answers, any two keys at
   different positions that sort in front of `none` (bool, number, string, array, map, bytes) are
   `<`-comparable; if no key is none, ALL keys are (so two maps, or a number and a string, are
   always refused).  The check looks at neighbours only; that this suffices is the convexity
   theorem below. *)
Theorem C16_sort_rejects_incomparable : forall l r, Forall wf l -> filter_sort l None = ROk r ->
  ForallOrdPairs reg_cmp_wf l /\
  (Forall (fun v => is_none v = false) l -> ForallOrdPairs all_cmp_wf l).
Proof. exact sort_rejects_incomparable. Qed.

(* what the neighbour check does NOT refuse (finding key sort:undefined-key-behind-none): an
   `undefined` element together with a none and a regular element, e.g. [1, none, undefined] —
   while [1, undefined] is refused.  `undefined` elements only arise through the Rust API. *)
Theorem C16_sort_rejects_incomparable_refuted_for_undefined_behind_none :
  exists l r, Forall wf l /\ filter_sort l None = ROk r /\
    exists x y, In x l /\ In y l /\ is_none x = false /\ is_none y = false /\ cmpb x y = false.
Proof. exact sort_undefined_behind_none_witness. Qed.

Theorem C16_comparability_is_convex : forall a b c, wf a -> wf b -> wf c ->
  vle a b -> vle b c -> cmpb a b = true -> cmpb b c = true -> cmpb a c = true.
Proof. intros a b c Wa Wb Wc. exact (vpcmp_convex a Wa b c Wb Wc). Qed.

Theorem C16_sort_errors : forall l, l <> [] ->
  (forall path, decorate path l = None -> filter_sort l (Some path) = RErr ErrMsg) /\
  (ensure_comparable (sort_by (fun v => v) l) = false -> filter_sort l None = RErr ErrMsg).
Proof. exact sort_errors. Qed.

(* unique: exactly the elements that no earlier element of the input is == to, in order *)
Theorem C16_unique_spec : forall l, Forall wf l -> filter_unique l = first_occurrences veq [] l.
Proof. exact unique_spec. Qed.

(* group_by: the groups partition, keeping input order, the elements whose attribute is present
   and not none; keys of different width / ownership that are equal share a group; an element
   without the attribute, or with one that cannot be a key, makes the filter fail *)
Theorem C16_group_by_spec : forall l path r, Forall wf l -> l <> [] -> filter_group_by l path = ROk r ->
  exists g, r = VMap (map (fun kv => (fst kv, VArr (snd kv))) g) /\
    kwf g /\ kdist g /\
    (forall k vs, In (k, vs) g -> vs <> [] /\ vs = filter (in_group path k) l) /\
    (forall v k', In v l -> gkey path v = Some k' ->
       exists k vs, In (k, vs) g /\ key_eq k k' = true /\ In v vs) /\
    Forall (fun v => gok path v = true) l.
Proof. exact group_by_spec. Qed.

Theorem C16_group_by_errors : forall l path, (exists v, In v l /\ gok path v = false) ->
  filter_group_by l path = RErr ErrMsg.
Proof. exact group_by_errors. Qed.

(* first / last / nth / length / reverse agree with the list functions and with one another *)
Theorem C16_access_consistent : forall l : list value, Z.of_nat (length l) < two64 ->
  filter_length (VArr l) = ROk (VInt U64 (Z.of_nat (length l))) /\
  filter_first l = match nth_error l 0 with Some x => x | None => VNone end /\
  filter_last l = match nth_error l (length l - 1) with Some x => x | None => VNone end /\
  (forall r z, in_u64 z = true ->
     filter_nth l (VInt r z) = ROk (match nth_error l (Z.to_nat z) with Some x => x | None => VNone end)) /\
  (forall r z, in_u64 z = false -> filter_nth l (VInt r z) = RErr ErrMsg) /\
  (forall r, filter_nth l (VInt r 0) = ROk (filter_first l)) /\
  (forall r, l <> [] -> filter_nth l (VInt r (Z.of_nat (length l - 1))) = ROk (filter_last l)) /\
  (forall r z, Z.of_nat (length l) <= z -> in_u64 z = true -> filter_nth l (VInt r z) = ROk VNone) /\
  filter_first (rev l) = filter_last l /\
  filter_reverse (VArr l) = ROk (VArr (rev l)) /\
  filter_length (VArr (rev l)) = filter_length (VArr l).
Proof. exact access_consistent. Qed.

Theorem C16_reverse_involutive :
  (forall l, res_bind (filter_reverse (VArr l)) filter_reverse = ROk (VArr l)) /\
  (forall s f, res_bind (filter_reverse (VStr s f)) filter_reverse = ROk (VStr s false)).
Proof. exact reverse_involutive. Qed.

(* split then join on the same separator is the identity, for every string and every pattern,
   the empty pattern included (which yields "", each character, "") *)
Theorem C16_split_join_id : forall s p, join_strs p (str_split s p) = s.
Proof. exact split_join_id. Qed.

Theorem C16_filter_split_join : forall s f p g,
  res_bind (filter_split (VStr s f) (VStr p g))
    (fun r => match r with VArr l => filter_join l (Some (VStr p g)) | _ => RErr ErrOther end)
  = ROk (VStr s false).
Proof. intros s f p g. cbn. rewrite strs_of_strs, split_join_id. reflexivity. Qed.

(* keys / values / pairs agree position by position, and every key finds its value *)
Theorem C16_keys_values_pairs : forall m : list (key * value),
  length (filter_keys m) = length m /\ length (filter_values m) = length m /\
  filter_pairs m = map (fun kv => VArr [fst kv; snd kv]) (combine (filter_keys m) (filter_values m)) /\
  filter_length (VMap m) = filter_length (VArr (filter_keys m)) /\
  (forall i k v, nth_error (filter_keys m) i = Some k -> nth_error (filter_values m) i = Some v ->
     nth_error (filter_pairs m) i = Some (VArr [k; v])).
Proof. exact keys_values_pairs. Qed.

Theorem C16_keys_lookup : forall m : list (key * value), wf (VMap m) ->
  forall i k v, nth_error m i = Some (k, v) -> get_item_map m (key_to_value k) = ROk v.
Proof. exact keys_lookup. Qed.

Print Assumptions C16_sort_spec.
Print Assumptions C16_sort_rejects_incomparable.
Print Assumptions C16_unique_spec.
Print Assumptions C16_split_join_id.
Print Assumptions C16_group_by_spec.

(* non-vacuity *)
Example C16_ex_sort :
  filter_sort [VInt U64 3; VNone; VFloat (S754_finite false 4503599627370496 (-51)); VInt I64 (-1)] None
  = ROk [VInt I64 (-1); VFloat (S754_finite false 4503599627370496 (-51)); VInt U64 3; VNone].
Proof. vm_compute. reflexivity. Qed.
Example C16_ex_sort_refused : filter_sort [VInt U64 1; VStr [97%N] false] None = RErr ErrMsg.
Proof. vm_compute. reflexivity. Qed.
Example C16_ex_sort_two_maps_refused : filter_sort [d2_m1; d2_m2] None = RErr ErrMsg.
Proof. vm_compute. reflexivity. Qed.
Example C16_ex_unique_maps : filter_unique [d2_m1; d2_m2; d2_m1] = [d2_m1; d2_m2].
Proof. vm_compute. reflexivity. Qed.
Example C16_ex_unique_arrays : filter_unique [d2_a1; d2_a2; d2_a3] = [d2_a1; d2_a2; d2_a3].
Proof. vm_compute. reflexivity. Qed.
Example C16_ex_group_by :
  filter_group_by [VMap [(KStr [107%N] true, VInt U64 1)]; VMap [(KStr [107%N] false, VNone)];
                   VMap [(KStr [107%N] true, VInt I128 1)]] [SegName [107%N]]
  = ROk (VMap [(KInt U64 1, VArr [VMap [(KStr [107%N] true, VInt U64 1)]; VMap [(KStr [107%N] true, VInt I128 1)]])]).
Proof. vm_compute. reflexivity. Qed.
Example C16_ex_split_empty : str_split [97%N; 98%N] [] = [[]; [97%N]; [98%N]; []].
Proof. vm_compute. reflexivity. Qed.
