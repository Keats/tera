(* C17 — Every built-in filter, test and function is total and honours its contract.
   Only statements, each closed by `exact`, by a few lines that instantiate lemmas or, for a table
   or a witness, by evaluation; the proofs are in Proofs/BuiltinProofs.v (the coverage
   check and the string filters: truncate, trim, replace, newlines_to_br, indent, escape, case) and
   Proofs/BuiltinNumProofs.v (abs, int, str, round, default, range, type tests, the integer argument
   conversion, kwargs lookup).  Quantification: every string (list of scalar values), every integer
   in every representation, every float (spec_float), every value, every kwargs list.
   Totality over the kind x kwarg matrix is a finite enumeration against this model (T-corr). *)
From Coq Require Import String.
From TeraV Require Import Model.Value Model.StrOps Model.Builtins Spec.BuiltinLaws Gen.Tables Gen.Builtins
  Proofs.BuiltinNumProofs Proofs.BuiltinProofs.
Open Scope list_scope.
Open Scope Z_scope.

(* every name registered in tera.rs (re-extracted on every run) has a model entry or is listed as
   oracle-only; a new built-in re-opens this *)
Theorem C17_builtins_covered :
  covered builtin_filters modelled_filters oracle_only_filters = true /\
  covered builtin_tests modelled_tests oracle_only_tests = true /\
  covered builtin_functions modelled_functions oracle_only_functions = true.
Proof. vm_compute. repeat split; reflexivity. Qed.

(* short inputs unchanged; otherwise exactly the first `length` characters plus the end marker *)
Theorem C17_truncate_spec : forall s n e,
  let endm := match e with Some x => x | None => ellipsis end in
  ((length s <= n)%nat -> str_truncate s n e = VStr s false) /\
  ((n < length s)%nat -> str_truncate s n e = VStr (firstn n s ++ endm) false /\
                          length (text_of (str_truncate s n e)) = (n + length endm)%nat) /\
  (length (text_of (str_truncate s n e)) <= n + length endm)%nat /\
  is_prefix (firstn n s) (text_of (str_truncate s n e)).
Proof. exact truncate_spec. Qed.

(* the filter: wrong receiver kind -> InvalidArgument, no `length` -> MissingArgument, `length`
   converted as usize (InvalidArgument / OutOfRange), `end` must be a string *)
Theorem C17_truncate_filter : forall kw v,
  f_truncate kw v =
    match v with
    | VStr s _ =>
        match kw_find (s2l "length") kw with
        | None => BErr EMissingArg
        | Some l =>
            match arg_int TUsize l with
            | BErr e => BErr e
            | BOk n =>
                match kw_find (s2l "end") kw with
                | None => BOk (str_truncate s (Z.to_nat n) None)
                | Some (VStr e _) => BOk (str_truncate s (Z.to_nat n) (Some e))
                | Some _ => BErr EInvalidArg
                end
            end
        end
    | _ => BErr EInvalidArg
    end.
Proof. exact f_truncate_spec. Qed.

(* white space = the 25 White_Space code points *)
Theorem C17_is_ws_is_White_Space : forall c, is_ws c = true <-> ws c.
Proof. exact is_ws_iff. Qed.

(* the result is the input minus a white-space prefix and/or suffix and does not begin/end with
   white space *)
Theorem C17_trim_spec : forall s,
  trimmed s (trim_ws s) /\ trimmed_start s (trim_start_ws s) /\ trimmed_end s (trim_end_ws s).
Proof. exact (fun s => conj (trim_spec s) (conj (trim_start_spec s) (trim_end_spec s))). Qed.

Theorem C17_trim_idempotent : forall s,
  trim_ws (trim_ws s) = trim_ws s /\ trim_start_ws (trim_start_ws s) = trim_start_ws s /\
  trim_end_ws (trim_end_ws s) = trim_end_ws s.
Proof. exact trim_idempotent. Qed.

(* with `pat`: only whole copies of the pattern are removed, as many as there are *)
Theorem C17_trim_pat_spec : forall p s, p <> [] ->
  pat_trimmed_start p s (trim_start_matches p s) /\ pat_trimmed_end p s (trim_end_matches p s).
Proof. exact (fun p s H => conj (trim_start_matches_spec p s H) (trim_end_matches_spec p s H)). Qed.

Theorem C17_trim_pat_idempotent : forall p s,
  trim_start_matches p (trim_start_matches p s) = trim_start_matches p s /\
  trim_end_matches p (trim_end_matches p s) = trim_end_matches p s /\
  trim_start_matches [] s = s /\ trim_end_matches [] s = s.
Proof.
  exact (fun p s => conj (trim_start_matches_idempotent p s)
                     (conj (trim_end_matches_idempotent p s) (trim_matches_empty s))).
Qed.

(* the `trim` filter with `pat` is trim_end(pat) after trim_start(pat) — whole occurrences of the
   pattern string, never "any character of pat" *)
Theorem C17_trim_filter_is_end_after_start : forall kw s b p b',
  kw_find (s2l "pat") kw = Some (VStr p b') ->
  f_trim kw (VStr s b) = BOk (vstr (trim_end_matches p (trim_start_matches p s))) /\
  f_trim_start kw (VStr s b) = BOk (vstr (trim_start_matches p s)) /\
  f_trim_end kw (VStr s b) = BOk (vstr (trim_end_matches p s)).
Proof. exact f_trim_pat. Qed.

(* s = pat^i ++ result ++ pat^j, and the result neither starts nor ends with pat *)
Theorem C17_trim_pat_both_ends : forall p s, p <> [] ->
  exists i j, s = copies i p ++ trim_end_matches p (trim_start_matches p s) ++ copies j p /\
              ~ is_prefix p (trim_end_matches p (trim_start_matches p s)) /\
              ~ is_suffix p (trim_end_matches p (trim_start_matches p s)).
Proof. exact trim_both_matches_spec. Qed.

(* the text is cut at the leftmost non-overlapping occurrences of `from`; the pieces are kept
   verbatim and joined with `to` *)
Theorem C17_replace_spec : forall from to s, from <> [] ->
  exists pieces, split_at from s pieces /\ join_with from pieces = s /\
                 str_replace from to s = join_with to pieces.
Proof. exact replace_spec. Qed.

Theorem C17_replace_absent : forall from to s,
  from <> [] -> ~ is_infix from s -> str_replace from to s = s.
Proof.
  intros from to s Hf Hn. destruct (replace_spec from to s Hf) as (l & H & _ & ->).
  destruct H as [s _|s a r l [L _] _]; [reflexivity|]. destruct Hn. exists a, r. exact L.
Qed.

Theorem C17_replace_same : forall from s, from <> [] -> str_replace from from s = s.
Proof.
  intros from s Hf. destruct (replace_spec from from s Hf) as (l & _ & Hj & Hr). congruence.
Qed.

Theorem C17_replace_empty_pattern : forall to s,
  str_replace [] to s = to ++ flat_map (fun c => c :: to) s.
Proof. exact replace_empty_pattern. Qed.

Theorem C17_newlines_to_br_spec : forall s, newlines_to_br s = nl2br s.
Proof. exact newlines_to_br_spec. Qed.

(* indent inserts nothing but the pad: with width 0 the text comes back unchanged (as long as it
   has no carriage return: str::lines drops the "\r" of a "\r\n") *)
Theorem C17_indent_width0_identity : forall s fi bl,
  ~ In CR s -> str_indent s 0 fi bl = s.
Proof. exact indent_width0_identity. Qed.

(* PARTIAL w.r.t. the property: a "\r\n" line end comes back as "\n" — an undocumented change *)
Theorem C17_indent_keeps_text_refuted : exists s, str_indent s 0 false false <> s.
Proof. exists [97; 13; 10; 98]%N. vm_compute. discriminate. Qed.

(* every character with a table entry becomes its entity, every other character is copied *)
Theorem C17_escape_spec : forall s,
  escaped_by escape_html_map s (escape_html s) /\ escaped_by doc_escape_xml s (escape_xml s).
Proof. intro s. split; [|rewrite <- xml_matches_doc]; apply escape_with_spec. Qed.

(* the output contains no raw less-than, greater-than, double or single quote (and an ampersand only where an entity starts: see C17_escape_spec) *)
Theorem C17_escape_no_raw_specials : forall s c,
  (In c (escape_html s) -> ~ html_special c) /\ (In c (escape_xml s) -> ~ html_special c).
Proof. intros s c. split; apply escape_no_specials; vm_compute; reflexivity. Qed.

(* keys and entities of the table are ASCII: the reason, not itself stated, why the byte-wise escaping
   of utils.rs coincides with character-wise escaping *)
Theorem C17_escape_html_table_ascii :
  forallb (fun e => N.ltb (fst e) 128 && forallb (fun c => N.ltb c 128) (snd e)) escape_html_map = true.
Proof. vm_compute. reflexivity. Qed.

(* documented table vs code: identical except the entity of the apostrophe (docs: &#x27;, code: &#39;) *)
Theorem C17_escape_html_matches_doc_partial : forall s,
  ~ In 39%N s -> escape_html s = escape_with doc_escape_html s.
Proof. intro s. apply (escape_with_without 39). vm_compute. reflexivity. Qed.

Theorem C17_escape_html_matches_doc_refuted : exists s, escape_html s <> escape_with doc_escape_html s.
Proof. exists [39%N]. vm_compute. discriminate. Qed.

(* whatever std's case mapping is, each filter replaces every character by itself, its upper-case
   or its lower-case mapping (capital sigma: one of the two small sigmas) and touches nothing else *)
Theorem C17_case_filters_only_change_case_partial :
  forall (upper_of lower_of : N -> list N) (final_sigma : str -> nat -> bool) s,
  case_only upper_of lower_of s (str_upper upper_of s) /\
  case_only upper_of lower_of s (str_lower lower_of final_sigma s) /\
  case_only upper_of lower_of s (str_capitalize upper_of lower_of final_sigma s) /\
  case_only upper_of lower_of s (str_title upper_of lower_of s).
Proof. exact case_filters_case_only. Qed.

(* text made of characters the oracle leaves alone is returned unchanged by all four *)
Theorem C17_case_filters_fix_caseless_partial :
  forall (upper_of lower_of : N -> list N) (final_sigma : str -> nat -> bool) s,
  Forall (caseless upper_of lower_of) s ->
  str_upper upper_of s = s /\ str_lower lower_of final_sigma s = s /\
  str_capitalize upper_of lower_of final_sigma s = s /\ str_title upper_of lower_of s = s.
Proof.
  intros upper_of lower_of final_sigma s H.
  destruct (case_filters_case_only upper_of lower_of final_sigma s) as (A & B & C & D).
  repeat split; apply (case_only_caseless upper_of lower_of); assumption.
Qed.

Theorem C17_case_filter_shapes_partial :
  forall (upper_of lower_of : N -> list N) (final_sigma : str -> nat -> bool) s,
  str_upper upper_of s = flat_map upper_of s /\
  (forall c t, s = c :: t ->
     str_capitalize upper_of lower_of final_sigma s = upper_of c ++ str_lower lower_of final_sigma t) /\
  (~ In sigma_cap s -> str_lower lower_of final_sigma s = flat_map lower_of s).
Proof. exact case_filter_shapes. Qed.

(* abs: exact |z| in a representation that holds it; the only failure is |i128::MIN| (an error,
   not a wrapped value) *)
Theorem C17_abs_exact_or_fails : forall kw r z,
  rep_ok r z = true ->
  match f_abs kw (VInt r z) with
  | BOk (VInt r' z') => z' = Z.abs z /\ rep_ok r' z' = true
  | BErr e => e = EOther /\ r = I128 /\ z = i128_min
  | _ => False
  end.
Proof. exact abs_int_spec. Qed.

Theorem C17_int_of_int_exact : forall r z,
  rep_ok r z = true ->
  exists r', f_int [] (VInt r z) = Some (BOk (VInt r' z)) /\ rep_ok r' z = true.
Proof. exact int_of_int_spec. Qed.

(* a float converts exactly when it is an integer inside i128 (sf_int f = FInt z <-> z is the
   exact value of f: C17_float_exact_int), otherwise it fails *)
Theorem C17_int_of_float_exact_or_fails : forall f,
  f_int [] (VFloat f) =
    Some (match sf_int f with
          | FInt z => if (i128_min <=? z) && (z <? two127) then BOk (VInt I128 z) else BErr EOther
          | _ => BErr EOther
          end).
Proof. exact int_of_float_spec. Qed.

Theorem C17_float_exact_int : forall f z, sf_int f = FInt z <-> sf_exact_int f z.
Proof. exact sf_int_exact. Qed.

(* str prints an integer in decimal; int reads decimal text with i128::from_str_radix; the two are
   inverse on i128 and a numeral outside i128 is refused *)
Theorem C17_str_int_roundtrip : forall kw r z,
  f_str kw (VInt r z) = Some (BOk (VStr (dec_of_Z z) false)) /\
  (i128_min <= z <= i128_max -> from_str_radix 10 (dec_of_Z z) = Some z) /\
  (~ (i128_min <= z <= i128_max) -> from_str_radix 10 (dec_of_Z z) = None).
Proof.
  intros kw r z. split; [reflexivity|]. rewrite dec_parse.
  split; intro H; [apply IntRange.in_i128_iff in H|apply in_i128_false in H]; rewrite H; reflexivity.
Qed.

Theorem C17_int_of_string : forall s b,
  f_int [] (VStr s b) =
    match from_str_radix 10 (trim_ws s) with
    | Some z => Some (BOk (VInt I128 z))
    | None => if has_dot (trim_ws s) then None else Some (BErr EOther)
    end.
Proof. exact int_of_string_spec. Qed.

(* round/ceil/floor with precision 0 pick the right integer (the value is x / 2^-e, x = +-m).
   PARTIAL: the conversion of that integer back to f64 and the scaling by 10^precision are
   SpecFloat operations / a std oracle, tied by the correspondence run only *)
Theorem C17_round_integer_partial : forall (md : rmode) (s : bool) (m : positive) (e : Z),
  e < 0 ->
  let k := 2 ^ (- e) in
  let x := if s then - Z.pos m else Z.pos m in
  let r := round_int md s m e in
  match md with
  | RFloor => k * r <= x < k * (r + 1)
  | RCeil => k * (r - 1) < x <= k * r
  | RRound => 2 * k * Z.abs r - k <= 2 * Z.pos m < 2 * k * Z.abs r + k /\ (r < 0 <-> (s = true /\ r <> 0))
  end.
Proof. exact round_int_spec. Qed.

(* known class round:non-finite-result: with a precision whose power of ten is infinite (what
   powi returns for 400) the finite number 2.5 is "rounded" to NaN instead of 2.5 or an error *)
Theorem C17_round_finite_stays_finite_refuted :
  exists (pow10 : Z -> spec_float) kw v,
    pow10 400 = S754_infinity false /\
    v = VFloat (S754_finite false 5629499534213120 (-51)) /\
    f_round pow10 kw v = BOk (VFloat S754_nan).
Proof.
  exists (fun _ => S754_infinity false), [(s2l "precision", VInt U64 400)], (VFloat (S754_finite false 5629499534213120 (-51))).
  (* inf * 2.5 = inf; inf.round() / inf = NaN *)
  split; [reflexivity|]. split; [reflexivity|]. vm_compute. reflexivity.
Qed.

Theorem C17_default_spec : forall kw v d,
  kw_find (s2l "value") kw = Some d ->
  (kw_find (s2l "boolean") kw = None \/ kw_find (s2l "boolean") kw = Some (VBool false) ->
     f_default kw v = BOk (match v with VUndef => d | _ => v end)) /\
  (kw_find (s2l "boolean") kw = Some (VBool true) ->
     f_default kw v = BOk (if is_truthy v then v else d)).
Proof. exact default_spec. Qed.

Theorem C17_default_errors : forall kw v,
  (kw_find (s2l "value") kw = None -> f_default kw v = BErr EMissingArg) /\
  (forall d b, kw_find (s2l "value") kw = Some d -> kw_find (s2l "boolean") kw = Some b ->
               is_bool b = false -> f_default kw v = BErr EInvalidArg).
Proof. exact default_errors. Qed.

(* range_count really counts the terms before `end` *)
Theorem C17_range_count_is_the_number_of_terms : forall start end_ step i, 0 <= i ->
  (0 < step -> (start + i * step < end_ <-> i < range_count start end_ step)) /\
  (step < 0 -> (end_ < start + i * step <-> i < range_count start end_ step)).
Proof. exact range_count_terms. Qed.

(* outside the known class: exactly the progression, an error iff step = 0, start > end with a
   positive step, or more than MAX_RANGE_LEN terms; no intermediate value leaves i128 (the model
   returns EPanic where a debug build would panic, and the result here is never that) *)
Theorem C17_range_spec : forall start end_ step,
  fits_i128 start -> fits_i128 end_ -> fits_i128 step ->
  ~ range_overflow_class start end_ step ->
  range_core start end_ step =
    if (step =? 0) || ((end_ <? start) && (0 <? step)) then BErr EOther
    else if max_range_len <? range_count start end_ step then BErr EOther
    else BOk (VArr (map (VInt I128) (progression start step (Z.to_nat (range_count start end_ step))))).
Proof. exact range_core_spec. Qed.

Theorem C17_range_never_overflows : forall start end_ step,
  fits_i128 start -> fits_i128 end_ -> fits_i128 step ->
  range_core start end_ step <> BErr EPanic.
Proof. exact range_core_never_panics. Qed.

(* the known class: a representable progression of two terms is refused with an overflow error *)
Theorem C17_range_exact_or_cap_refuted :
  exists start end_ step,
    fits_i128 start /\ fits_i128 end_ /\ fits_i128 step /\
    range_overflow_class start end_ step /\
    range_count start end_ step = 2 /\
    Forall fits_i128 (progression start step 2) /\
    range_core start end_ step = BErr EOther.
Proof. exact range_overflow_witness. Qed.

Theorem C17_type_tests_partition : forall v,
  xorb (is_integer v) (is_float v) = is_number v /\
  is_defined v = negb (is_undefined v) /\
  (b2n (is_undefined v) + b2n (is_none v) + b2n (is_bool v) + b2n (is_number v) + b2n (is_string v)
   + b2n (is_array v) + b2n (is_map v) + b2n (is_bytes v) = 1)%nat /\
  is_iterable v = (is_string v || is_array v || is_map v || is_bytes v) /\
  (is_integer v = true -> is_number v = true) /\ (is_float v = true -> is_number v = true) /\
  (is_integer v && is_float v = false).
Proof. exact type_tests_partition. Qed.

Theorem C17_odd_even_spec : forall kw r z,
  i128_min <= z <= i128_max ->
  t_odd kw (VInt r z) = BOk (VBool (Z.odd z)) /\ t_even kw (VInt r z) = BOk (VBool (Z.even z)).
Proof. exact odd_even_spec. Qed.

Theorem C17_divisible_by_spec : forall kw r z d,
  i128_min <= z <= i128_max ->
  kw_find (s2l "divisor") kw = Some (VInt I128 d) -> i128_min <= d <= i128_max ->
  t_divisible_by kw (VInt r z) = BOk (VBool (negb (d =? 0) && (z mod d =? 0))).
Proof. exact divisible_by_spec. Qed.

(* an integer target accepts exactly the integers that fit it, of every representation, and the
   integral floats that fit it and lie in [-2^127, 2^127) *)
Theorem C17_arg_int_accepts_exactly : forall t v z,
  arg_int t v = BOk z <->
  (exists r, v = VInt r z /\ ity_min t <= z <= ity_max t) \/
  (exists f, v = VFloat f /\ sf_exact_int f z /\ ity_min t <= z <= ity_max t /\ i128_min <= z < two127).
Proof. exact arg_int_ok. Qed.

Theorem C17_arg_int_invalid_iff_wrong_kind : forall t v,
  arg_int t v = BErr EInvalidArg <->
  match v with
  | VInt _ _ => False
  | VFloat f => sf_int f = FNotInt
  | _ => True
  end.
Proof. exact arg_int_invalid. Qed.

Theorem C17_arg_int_out_of_range_iff_does_not_fit : forall t v,
  arg_int t v = BErr EOutOfRange <->
  match v with
  | VInt _ z => ~ (ity_min t <= z <= ity_max t)
  | VFloat f =>
      match sf_int f with
      | FInt z => ~ (ity_min t <= z <= ity_max t /\ i128_min <= z < two127)
      | FInf => True
      | FNotInt => False
      end
  | _ => False
  end.
Proof. exact arg_int_out_of_range. Qed.

Theorem C17_arg_int_no_other_error : forall t v,
  arg_int t v <> BErr EMissingArg /\ arg_int t v <> BErr EOther /\ arg_int t v <> BErr EPanic.
Proof. exact arg_int_never_other. Qed.

Theorem C17_kwargs_get_must_get : forall (A : Type) (conv : value -> bres A) k kw,
  kw_get conv k kw = match kw_find (s2l k) kw with
                     | None => BOk None
                     | Some v => match conv v with BOk a => BOk (Some a) | BErr e => BErr e end
                     end /\
  kw_must conv k kw = match kw_find (s2l k) kw with
                      | None => BErr EMissingArg
                      | Some v => conv v
                      end.
Proof. exact (fun A conv k kw => conj (kw_get_spec conv k kw) (kw_must_spec conv k kw)). Qed.

Print Assumptions C17_builtins_covered.
Print Assumptions C17_trim_spec.
Print Assumptions C17_replace_spec.
Print Assumptions C17_escape_spec.
Print Assumptions C17_case_filters_only_change_case_partial.
Print Assumptions C17_str_int_roundtrip.
Print Assumptions C17_range_spec.
Print Assumptions C17_arg_int_accepts_exactly.

(* non-vacuity *)
Example C17_ex_range :
  fn_range [(s2l "start", VInt U64 10); (s2l "end", VInt I64 1); (s2l "step_by", VInt I64 (-4))]
  = BOk (VArr [VInt I128 10; VInt I128 6; VInt I128 2]).
Proof. vm_compute. reflexivity. Qed.

Example C17_ex_range_cap :
  fn_range [(s2l "end", VInt U64 100001)] = BErr EOther /\
  fn_range [(s2l "end", VInt I128 i128_max); (s2l "start", VInt I128 (i128_max - 2))]
  = BOk (VArr [VInt I128 (i128_max - 2); VInt I128 (i128_max - 1)]).
Proof. vm_compute. split; reflexivity. Qed.

Example C17_ex_truncate :
  f_truncate [(s2l "length", VFloat (S754_finite false 4503599627370496 (-51)))] (VStr [26085; 26412; 35486]%N false)
  = BOk (VStr [26085; 26412; 8230]%N false).
Proof. vm_compute. reflexivity. Qed.

Example C17_ex_abs_min : f_abs [] (VInt I128 i128_min) = BErr EOther /\ f_abs [] (VInt I64 (- two63)) = BOk (VInt I128 two63).
Proof. vm_compute. split; reflexivity. Qed.

Example C17_ex_trim_pat_whole_occurrences :
  trim_end_matches (s2l "xy") (trim_start_matches (s2l "xy") (s2l "yxhixy")) = s2l "yxhi" /\
  trim_end_matches (s2l "->") (trim_start_matches (s2l "->") (s2l "--> a-b <--")) = s2l "--> a-b <--".
Proof. vm_compute. split; reflexivity. Qed.

Example C17_ex_replace : str_replace (s2l "aa") (s2l "b") (s2l "aaaa a aaa") = s2l "bb a ba".
Proof. vm_compute. reflexivity. Qed.
