(* C07 — Rendering accepted templates never panics; all references checked at add time; the
   evaluation, loop and capture stacks are empty after a successful render.
   Statements, the definitions they are about and examples; proofs in Proofs/StackCheckProofs.v, Proofs/StackCheckSlice.v,
   Proofs/StackCheckDepth.v, Proofs/StackCheckWorld0.v, Proofs/FormatUtf8.v and
   Proofs/CompileAlwaysChecks.v.

   Shape of the argument. Model/StackCheck.v defines a validator for compiled chunks
   (check_chunk: abstract interpretation of the three stacks over the control-flow graph) and
   for references (refs_resolved), and world_checked = every chunk of every template (main,
   root, block lineage) and every component chunk passes both. The theorems below say: in a
   world that passes, NO run of the VM model — whole template, one block, one component, with
   any context, any writer, any depth of include/component/super nesting, any fuel — ends in
   the panic class (ErrPanic: popping or peeking an empty stack, `kwargs.into_map().expect`,
   the `unreachable!` of AppendToList, EndCapture without Capture, a missing
   filter/test/function/component table entry, the lineage lookup of super(), an index out of
   bounds in get_item / slice, an empty LoadPath / WritePath) nor in TemplateNotFound
   (ErrOther), and every normal termination leaves the three stacks as they were on entry —
   empty for the entry points. The hypotheses are decidable and are evaluated by coqc on the
   REAL chunks of every corpus and generated template (Corr/CorrC07.v, families chk and wld),
   before and after the peephole pass, on every run. *)
From TeraV Require Import Model.Value Model.Instr Model.Slice Model.VFormat Model.VM Model.World0 Model.StackCheck
  Proofs.StackCheckSlice Proofs.StackCheckProofs Proofs.FormatUtf8 Proofs.CompileChecks Proofs.StackCheckWorld0 Proofs.StackCheckDepth.
From TeraV Require Import Spec.Stmt Model.Compile Proofs.CompileAlwaysChecks.
Local Open Scope nat_scope.

(* VirtualMachine::render_to, block = None (Tera::render) or Some b (Tera::render_block) *)
Theorem C07_render_sound :
  forall (W : Type) (wr : W -> str -> option W) (wd : world) (reg : registry),
  world_respects wd reg -> world_checked reg wd = true ->
  forall fuel tpl block c g w,
  template_good reg wd tpl = true ->
  match render_to W wr wd fuel tpl block c g w with
  | RFail e => e <> ErrPanic /\ e <> ErrOther
  | ROutOfFuel => True
  | RDone s' _ => stack s' = [] /\ loops s' = [] /\ caps s' = []
  end.
Proof. exact render_sound. Qed.

(* every template of a validated world satisfies the hypothesis of C07_render_sound *)
Theorem C07_world_templates_good :
  forall (wd : world) (reg : registry), world_checked reg wd = true ->
  forall n t, assoc_get (w_templates wd) n = Some t -> template_good reg wd t = true.
Proof. exact world_tpl. Qed.

(* Tera::render_component_to *)
Theorem C07_component_sound :
  forall (W : Type) (wr : W -> str -> option W) (wd : world) (reg : registry),
  world_respects wd reg -> world_checked reg wd = true ->
  forall fuel tpl ae name def cchunk cctx w,
  template_good reg wd tpl = true -> assoc_get (w_components wd) name = Some (def, cchunk) ->
  match run W wr wd fuel tpl ae 0 cchunk 0 (new_state cctx) (SinkTop w) with
  | RFail e => e <> ErrPanic /\ e <> ErrOther
  | ROutOfFuel => True
  | RDone s' _ => stack s' = [] /\ loops s' = [] /\ caps s' = []
  end.
Proof. exact component_sound. Qed.

(* check_chunk_sound: a validated chunk started on ANY State (whatever its three stacks hold:
   block chunks and super() run on the caller's State) never reaches the panic class, and on
   normal termination the value stack is exactly what it was, the loop stack has the same
   frames with the same end_ip, the capture stack the same height, and the block bookkeeping
   is restored. Nested runs (include / component / block / super) are covered by the same
   theorem through world_checked: this is the mutual induction on fuel over the whole world. *)
Theorem C07_check_chunk_sound :
  forall (W : Type) (wr : W -> str -> option W) (wd : world) (reg : registry),
  world_respects wd reg -> world_checked reg wd = true ->
  forall fuel tpl ae depth c s o,
  template_good reg wd tpl = true ->
  check_chunk c = true -> refs_resolved reg wd c = true ->
  blocks_good wd reg s ->
  match run W wr wd fuel tpl ae depth c 0 s o with
  | RFail e => e <> ErrPanic /\ e <> ErrOther
  | ROutOfFuel => True
  | RDone s' o' =>
      stack s' = stack s /\ map lf_end_ip (loops s') = map lf_end_ip (loops s) /\
      length (caps s') = length (caps s) /\ blocks s' = blocks s /\ cur_block s' = cur_block s
  end.
Proof. exact check_chunk_sound. Qed.

(* the invariant itself: at every ip the three stacks have the shape the table records
   (relative to the entry heights); check_table is what is trusted, infer is only a heuristic *)
Theorem C07_table_invariant :
  forall (W : Type) (wr : W -> str -> option W) (wd : world) (reg : registry),
  world_respects wd reg -> world_checked reg wd = true ->
  forall fuel tpl ae depth ch tbl ip a s o bv bl bc,
  template_good reg wd tpl = true -> table_ok ch tbl -> refs_resolved reg wd ch = true ->
  nth_error tbl ip = Some (Some a) -> Inv bv bl bc a s -> blocks_good wd reg s ->
  Post W bv bl bc s o (run W wr wd fuel tpl ae depth ch ip s o).
Proof. exact run_sound. Qed.

(* the model's lookup failures are exactly these two classes, so C07_render_sound /
   C07_check_chunk_sound already exclude them; stated separately per instruction: a chunk whose
   references resolve contains no ApplyFilter / RunTest / CallFunction / Render*Component /
   Include whose name is missing from the registries *)
Theorem C07_refs_collected :
  forall (wd : world) (reg : registry), world_respects wd reg ->
  forall c, refs_resolved reg wd c = true ->
  forall ip i, nth_error c ip = Some i ->
  match i with
  | ApplyFilter n => forall v k sc, w_filter wd n v k sc <> None
  | RunTest n => forall v k, w_test wd n v k <> None
  | CallFunction n => n = s_super \/ forall k sc, w_function wd n k sc <> None
  | RenderInlineComponent n | RenderBodyComponent n => assoc_get (w_components wd) n <> None
  | Include n => assoc_get (w_templates wd) n <> None
  | _ => True
  end.
Proof. exact refs_collected. Qed.

(* the Rust `items[i as usize]` of get_item and slice stays in bounds: any length, any operand kind *)
Theorem C07_index_never_panics : forall v item, get_item_seq v item <> RErr ErrPanic.
Proof. exact get_item_seq_no_panic. Qed.

Theorem C07_slice_never_panics : forall opt v a b c, vm_slice opt v a b c <> RErr ErrPanic.
Proof. intros opt v a b c H. apply vm_slice_err in H. discriminate. Qed.

(* Include hands run's component_recursion_depth to the included template unchanged ... *)
Theorem C07_include_keeps_depth :
  forall (W : Type) (wr : W -> str -> option W) (wd : world) f tpl ae depth ch ip s o n t2,
  nth_error ch ip = Some (Include n) -> assoc_get (w_templates wd) n = Some t2 -> caps s = [] ->
  run W wr wd (S f) tpl ae depth ch ip s o =
  match run W wr wd f t2 ae depth (t_root_chunk t2) 0 (include_state s) o with
  | RDone _ o1 => run W wr wd f tpl ae depth ch (S ip) s o1
  | RFail e => RFail e
  | ROutOfFuel => ROutOfFuel
  end.
Proof. exact include_keeps_depth. Qed.

(* ... and a component call at the limit starts no nested run: the step fails. These two
   one-step facts are what keeps a run from nesting deeper than w_max_depth component calls however
   includes are interleaved; the bound itself is stated at trace level only (C05_depth_bounded). *)
Theorem C07_component_guard :
  forall (W : Type) (wr : W -> str -> option W) (wd : world) f tpl ae depth ch ip s o i n,
  nth_error ch ip = Some i -> i = RenderInlineComponent n \/ i = RenderBodyComponent n ->
  w_max_depth wd < S depth ->
  exists e, run W wr wd (S f) tpl ae depth ch ip s o = RFail e.
Proof. exact component_guard. Qed.

(* Everything Value::format writes is made of scalars that occur in the strings inside the
   value (string payloads, string keys, bytes that the model prints as they are) or of ASCII
   characters: no byte-level splicing can produce an invalid sequence. Same for the escaper. *)
Theorem C07_format_is_utf8 : forall v c,
  In c (format_value v) -> In c (value_scalars v) \/ (c < 128)%N.
Proof. exact format_value_scalars. Qed.

Theorem C07_escape_is_utf8 : forall s c,
  In c (escape_html s) -> In c s \/ (c < 128)%N.
Proof. exact escape_html_scalars. Qed.

(* what is finally written for a value: format, then possibly the escaper *)
Theorem C07_written_is_utf8 : forall v c,
  In c (escape_html (format_value v)) -> In c (value_scalars v) \/ (c < 128)%N.
Proof.
  intros v c H. destruct (escape_html_scalars _ _ H) as [H'|Ha]; [exact (format_value_scalars _ _ H')|right; exact Ha].
Qed.

(* compile_always_checks over the SHARED compiler port Model/Compile.v (tied to the real compiler
   by C03's `compile` correspondence: model listing = real listing before optimisation), for its
   whole language. Statements: text, print, if/elif/else, for with key and else, set /
   set_global, set blocks with filter chains, filter sections, include, break, continue.
   Expressions: constants, variables, loop fields, attributes (plain and optional `?.`),
   not / and / or, every binary operator (+ - * / // % ** < <= > >= == != ~ in; `not in` is
   not (.. in ..)), unary minus, the ternary, subscripts and slices (plain and optional, every
   combination of absent slice operands), tests, filters and function calls with keyword
   arguments, array and map literals with spreads.
   For EVERY statement list whose break/continue stand where the parser allows them (brk_body:
   only inside a for body and not across a capture; NO condition on expressions, names or
   includes), the compiled chunk has a table check_table accepts. Proved by induction on
   expressions and statements with the invariant "a statement leaves (value stack, loop stack,
   capture count) as it found it; an expression pushes one slot", merge points of
   if/and/or/ternary, Iterate / Jump / Break / Continue resolved to the loop's positions
   (Proofs/CompileFrag.v, Proofs/CompileAlwaysChecks.v). Not covered because
   Model/Compile.v does not have them: list comprehensions, component calls, blocks /
   inheritance, macros-like forms; those are validated per real chunk by family chk. *)
Theorem C07_compile_always_checks : forall ss : list Stmt.stmt,
  brk_body ss = true -> exists tbl, check_table (compile ss) a_empty tbl = true.
Proof. exact compile_always_checks. Qed.

(* the same for the trees C03's compile_correct is about (wf_body implies brk_body) *)
Theorem C07_compile_always_checks_wf : forall okn (ss : list Stmt.stmt),
  wf_body okn ss = true -> exists tbl, check_table (compile ss) a_empty tbl = true.
Proof. intros okn ss H. exact (compile_always_checks ss (wf_body_brk okn ss H)). Qed.

(* closed theorem about the compiler model: compiled code of this language, run on any State in
   a validated world, never reaches a panic site and ends with the three stacks as on entry *)
Theorem C07_compiled_code_sound :
  forall (W : Type) (wr : W -> str -> option W) (wd : world) (reg : registry),
  world_respects wd reg -> world_checked reg wd = true ->
  forall ss : list Stmt.stmt, brk_body ss = true -> refs_resolved reg wd (compile ss) = true ->
  forall fuel tpl ae depth s o,
  template_good reg wd tpl = true -> blocks_good wd reg s ->
  match run W wr wd fuel tpl ae depth (compile ss) 0 s o with
  | RFail e => e <> ErrPanic /\ e <> ErrOther
  | ROutOfFuel => True
  | RDone s' o' =>
      stack s' = stack s /\ map lf_end_ip (loops s') = map lf_end_ip (loops s) /\
      length (caps s') = length (caps s) /\ blocks s' = blocks s /\ cur_block s' = cur_block s
  end.
Proof. exact compiled_sound. Qed.

(* ... and that is enough: a chunk with ANY accepted table is sound (infer is only a heuristic) *)
Theorem C07_table_sound :
  forall (W : Type) (wr : W -> str -> option W) (wd : world) (reg : registry),
  world_respects wd reg -> world_checked reg wd = true ->
  forall fuel tpl ae depth c tbl s o,
  template_good reg wd tpl = true ->
  check_table c a_empty tbl = true -> refs_resolved reg wd c = true -> blocks_good wd reg s ->
  match run W wr wd fuel tpl ae depth c 0 s o with
  | RFail e => e <> ErrPanic /\ e <> ErrOther
  | ROutOfFuel => True
  | RDone s' o' =>
      stack s' = stack s /\ map lf_end_ip (loops s') = map lf_end_ip (loops s) /\
      length (caps s') = length (caps s) /\ blocks s' = blocks s /\ cur_block s' = cur_block s
  end.
Proof. exact table_sound. Qed.

Print Assumptions C07_render_sound.
Print Assumptions C07_compile_always_checks.
Print Assumptions C07_compile_always_checks_wf.
Print Assumptions C07_compiled_code_sound.
Print Assumptions C07_component_sound.
Print Assumptions C07_check_chunk_sound.
Print Assumptions C07_written_is_utf8.

(* a real listing: `{% for i in a.x %}{{ i.y }}{% endfor %}` after the peephole pass *)
Example C07_ex_loop :
  check_chunk [LoadPath [[97%N]; [120%N]]; StartIterate false; StoreLocal [105%N]; Iterate 6;
               WritePath [[105%N]; [121%N]]; Jump 3; PopLoop] = true.
Proof. vm_compute. reflexivity. Qed.

(* break inside if inside for, with for-else: Break is resolved to the Iterate target *)
Example C07_ex_break :
  check_chunk [LoadName [97%N]; StartIterate false; StoreLocal [105%N]; Iterate 8; LoadName [105%N];
               PopJumpIfFalse 7; Break; Jump 3; StoreDidNotIterate; PopLoop; PopJumpIfFalse 12;
               WriteText [101%N]] = true.
Proof. vm_compute. reflexivity. Qed.

(* what the validator rejects: a capture left open by a break, an extra pop, a missing PopLoop
   on one path, a filter applied without its kwargs map, AppendToList below a non-array, a value left on
   the stack at the end *)
Example C07_ex_rejects :
  check_chunk [LoadName [97%N]; StartIterate false; StoreLocal [105%N]; Iterate 7; Capture; Break;
               Jump 3; PopLoop] = false /\
  check_chunk [LoadName [97%N]; WriteTop; WriteTop] = false /\
  check_chunk [LoadName [97%N]; StartIterate false; StoreLocal [105%N]; Iterate 6; LoadName [105%N];
               PopJumpIfFalse 7; PopLoop] = false /\
  check_chunk [LoadName [97%N]; LoadName [98%N]; ApplyFilter [102%N]; WriteTop] = false /\
  check_chunk [LoadName [97%N]; LoadName [98%N]; AppendToList; WriteTop] = false /\
  check_chunk [LoadName [97%N]] = false.
Proof. vm_compute. repeat split. Qed.

(* the hypotheses of the soundness theorems are satisfiable: a world of two templates
   (`{% for i in a.x %}{{ i.y | upper }}{% else %}{% include "u" %}{% endfor %}` and `<x>`)
   over World0's built-ins passes world_checked, respects its registry, and renders *)
Definition ex_chunk : list instr :=
  [LoadPath [[97%N]; [120%N]]; StartIterate false; StoreLocal [105%N]; Iterate 9;
   LoadPath [[105%N]; [121%N]]; BuildMap 0; ApplyFilter n_upper; WriteTop; Jump 3;
   StoreDidNotIterate; PopLoop; PopJumpIfFalse 13; Include [117%N]].
Definition ex_t : template :=
  {| t_name := [116%N]; t_chunk := ex_chunk; t_root_chunk := ex_chunk; t_lineage := []; t_autoescape := true |}.
Definition ex_u : template :=
  {| t_name := [117%N]; t_chunk := [WriteText [60%N; 120%N; 62%N]]; t_root_chunk := [WriteText [60%N; 120%N; 62%N]];
     t_lineage := []; t_autoescape := true |}.
Definition ex_world : world := world0 [([116%N], ex_t); ([117%N], ex_u)].

Example C07_ex_world :
  world_checked reg0 ex_world = true /\ world_respects ex_world reg0 /\
  (* text: "Q&lt;" — upper-cased and escaped *)
  (exists s, render_to str wr_str ex_world 100 ex_t None
     [([97%N], VMap [(KStr [120%N] true, VArr [VMap [(KStr [121%N] true, VStr [113%N; 60%N] false)]])])] [] []
     = RDone s (SinkTop [81%N; 38%N; 108%N; 116%N; 59%N])) /\
  (* the else branch includes the other template *)
  (exists s, render_to str wr_str ex_world 100 ex_t None [([97%N], VMap [(KStr [120%N] true, VArr [])])] [] []
     = RDone s (SinkTop [60%N; 120%N; 62%N])) /\
  (* an error value, not a panic, when `a` is missing *)
  render_to str wr_str ex_world 100 ex_t None [] [] [] = RFail ErrRender.
Proof.
  split; [vm_compute; reflexivity|split; [apply world0_respects|]].
  split; [eexists; vm_compute; reflexivity|]. split; [eexists; vm_compute; reflexivity|]. vm_compute. reflexivity.
Qed.

(* Model/Compile.v on `{% for i in a %}{% if i %}{% break %}{% endif %}{% set s | upper %}x{% endset %}
   {% else %}e{% endfor %}`: well formed, and the inferred table is accepted too *)
Example C07_ex_compile_model :
  let ss := [SFor None [105%N] (EVar [97%N])
               [SIf (EVar [105%N]) [SBreak] [];
                SSetBlock false [115%N] [SText [120%N]] [([117%N;112%N;112%N;101%N;114%N], [])]]
               [SText [101%N]]] in
  wf_body (fun _ => true) ss = true /\ check_chunk (compile ss) = true /\ length (compile ss) = 18.
Proof. vm_compute. repeat split. Qed.

(* the extended expression forms: `{{ (a[1:] if -n < 2 else [x, ...b]) ~ f(k={"k": c?.d, ...m}) }}` compiles
   to a chunk the validator accepts, with no well-formedness side condition on the expressions *)
Example C07_ex_compile_ext :
  let v (c : N) := EVar [c] in
  let ss := [SPrint (EBin BConcat
               (ETernary (EBin BLt (ENeg (v 110%N)) (EConst (VInt I64 2)))
                         (ESlice false (v 97%N) (Some (EConst (VInt I64 1))) None None)
                         (EArr [(false, v 120%N); (true, v 98%N)]))
               (ECall [102%N] [([107%N], EMap [(Some (VStr [107%N] false), EAttrOpt (v 99%N) [100%N]); (None, v 109%N)])]))] in
  brk_body ss = true /\ check_chunk (compile ss) = true /\ length (compile ss) = 24.
Proof. vm_compute. repeat split. Qed.

(* and the VM model really panics on a chunk the validator rejects (an extra pop, as in
   C07_ex_rejects): the class the theorems exclude is inhabited *)
Example C07_ex_panic_is_real :
  run str wr_str (world0 []) 5
      {| t_name := []; t_chunk := []; t_root_chunk := []; t_lineage := []; t_autoescape := false |}
      None 0 [WriteTop] 0 (new_state []) (SinkTop []) = RFail ErrPanic.
Proof. vm_compute. reflexivity. Qed.
