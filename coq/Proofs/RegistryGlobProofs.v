(* Proofs about Model/RegistryGlob.v (load_from_glob / full_reload), for C10: a failing call leaves
   the instance as it was; a successful load is `add_batch` of the matched files on the manually
   added templates (`manual_part`: tera.rs 120-125 keeps those with from_glob = false), so that
   add_ok_equals_fresh and add_ok_canonical of RegistryProofs.v apply to it. *)
From Coq Require Import List.
From TeraV Require Import Model.Registry Model.RegistryGlob Spec.Graph Proofs.RegistryProofs.
Import ListNotations.

Lemma msorted_filter {V} (p : name * V -> bool) m : msorted m -> msorted (filter p m).
Proof.
  induction m as [|[k v] m IH]; intros Hs; [exact I|].
  pose proof (msorted_tail _ _ _ Hs) as Ht. cbn [filter].
  destruct (p (k, v)); [|auto].
  apply msorted_cons; [auto|].
  intros k' Hin. exact (msorted_above _ _ _ Hs k' (incl_map fst (incl_filter p m) k' Hin)).
Qed.

Lemma glob_insert_failed fs : forall m marked b m1 mk,
  glob_insert m fs true marked = (b, m1, mk) -> b = true.
Proof.
  induction fs as [|f fs IH]; intros m marked b m1 mk H; cbn [glob_insert] in H.
  - injection H as <- _ _. reflexivity.
  - destruct (add_file m f) as [[kp|e] m']; eapply IH; eauto.
Qed.

(* `failed`, the flag the loop starts from, can only be false here (glob_insert_failed) *)
Lemma glob_insert_as_batch fs : forall m failed marked m1 mk,
  glob_insert m fs failed marked = (false, m1, mk) ->
  files_first_err fs = None /\
  mk = fold_left (fun acc f => ninsert (fe_key f) acc) fs marked /\
  forall log, exists log', insert_all m (files_batch fs) log = (true, m1, log').
Proof.
  induction fs as [|f fs IH]; intros m failed marked m1 mk H;
    cbn [glob_insert files_first_err files_batch fold_left] in *.
  - injection H as _ <- <-. repeat split; auto. intros log. exists log. reflexivity.
  - unfold add_file in H. destruct (fe_read f) as [ | | |[t|]];
      try (apply glob_insert_failed in H; discriminate).
    cbn [fst] in H. apply IH in H. destruct H as [H2 [H3 H4]].
    repeat split; auto. intros log. cbn [insert_all]. apply H4.
Qed.

Theorem load_glob_err_is_identity ev g pat r e g' :
  load_glob ev g pat r = (Err e, g') -> g' = g.
Proof.
  unfold load_glob. destruct r as [|fs]; [intros H; injection H as _ <-; reflexivity|].
  destruct (glob_insert _ fs false []) as [[failed m1] mk].
  destruct failed; [intros H; injection H as _ <-; reflexivity|].
  destruct (finalize ev _); intros H; [discriminate|]. injection H as _ <-. reflexivity.
Qed.

Lemma step_err_is_identity ev s c e s' :
  msorted (st_tpls s) -> step ev s c = (Err e, s') -> s' = s.
Proof.
  intros Hs H. destruct c as [b|sufs|fs]; cbn [step] in H.
  - eapply add_err_is_identity; eauto.
  - discriminate.
  - eapply add_files_err_is_identity; eauto.
Qed.

Lemma lift_call_step ev g c :
  step ev (gs_st g) c = (fst (lift_call ev g c), gs_st (snd (lift_call ev g c))).
Proof. unfold lift_call. destruct (step ev (gs_st g) c) as [[u|e] s1]; reflexivity. Qed.

Theorem gstep_err_is_identity ev g c e g' :
  msorted (st_tpls (gs_st g)) -> gstep ev g c = (Err e, g') -> g' = g.
Proof.
  intros Hs H. destruct c as [c|pat r|r]; cbn [gstep] in H.
  - unfold lift_call in H. destruct (step ev (gs_st g) c) as [[u|e0] s1] eqn:E; [discriminate|].
    injection H as _ <-. apply step_err_is_identity in E; auto. subst s1. destruct g; reflexivity.
  - eapply load_glob_err_is_identity; eauto.
  - unfold full_reload in H. destruct (gs_glob g); [eapply load_glob_err_is_identity; eauto|].
    injection H as _ <-. reflexivity.
Qed.

(* the instance a glob load starts from: the manually added templates only *)
Definition manual_part (g : gstate) : state :=
  with_tpls (gs_st g) (drop_globbed (gs_globbed g) (st_tpls (gs_st g))).

Lemma glob_keys_eq fs : glob_keys fs = fold_left (fun acc f => ninsert (fe_key f) acc) fs [].
Proof. reflexivity. Qed.

Lemma load_glob_ok ev g pat fs g' :
  load_glob ev g pat (GFiles fs) = (Ok tt, g') ->
  files_first_err fs = None /\
  gs_glob g' = Some pat /\ gs_globbed g' = glob_keys fs /\
  add_batch ev (manual_part g) (files_batch fs) = (Ok tt, gs_st g').
Proof.
  unfold load_glob. intros H.
  destruct (glob_insert _ fs false []) as [[failed m1] mk] eqn:E.
  destruct failed; [discriminate|].
  destruct (finalize ev (with_tpls (gs_st g) m1)) as [s'|e] eqn:F; [|discriminate].
  injection H as <-. cbn [gs_glob gs_globbed gs_st].
  apply glob_insert_as_batch in E. destruct E as [E1 [E2 E3]].
  repeat split; auto.
  destruct (E3 []) as [log' Hins]. apply add_batch_ok_iff. exists m1, log'. exact (conj Hins F).
Qed.

Theorem load_glob_ok_equals_fresh ev g pat fs g' :
  msorted (st_tpls (gs_st g)) ->
  load_glob ev g pat (GFiles fs) = (Ok tt, g') ->
  files_first_err fs = None /\
  gs_glob g' = Some pat /\ gs_globbed g' = glob_keys fs /\
  sources (st_tpls (gs_st g')) =
    override (sources (drop_globbed (gs_globbed g) (st_tpls (gs_st g)))) (files_batch fs) /\
  (forall b' m' log',
     insert_all [] b' [] = (true, m', log') -> sources m' = sources (st_tpls (gs_st g')) ->
     add_batch ev (init (st_sufs (gs_st g))) b' = (Ok tt, gs_st g')) /\
  (forall pat' fs' m' mk',
     glob_insert [] fs' false [] = (false, m', mk') -> sources m' = sources (st_tpls (gs_st g')) ->
     load_glob ev (ginit (st_sufs (gs_st g))) pat' (GFiles fs') =
     (Ok tt, {| gs_st := gs_st g'; gs_globbed := glob_keys fs'; gs_glob := Some pat' |})).
Proof.
  intros Hs H. apply load_glob_ok in H. destruct H as [H1 [H2 [H3 H4]]].
  assert (msorted (st_tpls (manual_part g))) as Hm by (apply msorted_filter; exact Hs).
  destruct (add_ok_equals_fresh _ _ _ _ Hm H4) as [Hsrc Hfresh].
  destruct (add_ok_canonical _ _ _ _ Hm H4) as (Hc & Hsufs & _).
  repeat split; auto.
  intros pat' fs' m' mk' E Hsm.
  pose proof (glob_insert_as_batch _ _ _ _ _ _ E) as [_ [Hmk _]].
  unfold load_glob, ginit. cbn [gs_st gs_globbed st_tpls init drop_globbed filter].
  rewrite E, Hmk, (canonical_fresh ev _ (gs_st g') Hc); [reflexivity|symmetry; exact Hsufs|exact Hsm].
Qed.

Inductive greachable (ev : env) : gstate -> Prop :=
| grch_init : forall sufs, greachable ev (ginit sufs)
| grch_step : forall g c, greachable ev g -> greachable ev (snd (gstep ev g c)).

Lemma load_glob_canonical ev g pat r :
  canonical ev (gs_st g) -> canonical ev (gs_st (snd (load_glob ev g pat r))).
Proof.
  intros Hc. destruct (load_glob ev g pat r) as [[[]|e] g'] eqn:E; cbn [snd].
  - destruct r as [|fs]; [unfold load_glob in E; discriminate|].
    apply load_glob_ok in E. destruct E as [_ [_ [_ E]]].
    eapply add_ok_canonical; [|exact E]. apply msorted_filter. apply Hc.
  - apply load_glob_err_is_identity in E. subst. exact Hc.
Qed.

Lemma gstep_canonical ev g c :
  canonical ev (gs_st g) -> canonical ev (gs_st (snd (gstep ev g c))).
Proof.
  intros Hc. destruct c as [c|pat r|r]; cbn [gstep].
  - pose proof (step_canonical ev (gs_st g) c Hc) as Hc1. rewrite lift_call_step in Hc1. exact Hc1.
  - apply load_glob_canonical. exact Hc.
  - unfold full_reload. destruct (gs_glob g); [apply load_glob_canonical|]; exact Hc.
Qed.

Lemma grun_canonical ev h : forall g,
  canonical ev (gs_st g) -> canonical ev (gs_st (snd (grun ev g h))).
Proof.
  induction h as [|c h IH]; intros g Hc; cbn [grun]; auto.
  pose proof (gstep_canonical ev g c Hc) as Hc1.
  destruct (gstep ev g c) as [r g1]. specialize (IH g1 Hc1).
  destruct (grun ev g1 h) as [rs g2]. exact IH.
Qed.

Lemma grun_lift ev h : forall g,
  fst (grun ev g (map GCall h)) = fst (run ev (gs_st g) h) /\
  gs_st (snd (grun ev g (map GCall h))) = snd (run ev (gs_st g) h).
Proof.
  induction h as [|c h IH]; intros g; cbn [map grun run gstep]; [auto|].
  rewrite lift_call_step. destruct (lift_call ev g c) as [r g1]. cbn [fst snd]. specialize (IH g1).
  destruct (grun ev g1 (map GCall h)) as [rs g2]. destruct (run ev (gs_st g1) h) as [rs' s2].
  cbn [fst snd] in *. destruct IH as [-> ->]. auto.
Qed.
