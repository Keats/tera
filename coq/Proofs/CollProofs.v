(* Lemmas for C16: contracts of the collection filters of Model/CollFilters.v.  sort_by is an
   instance of OrderProofs.gsort; `vpcmp` swaps like `vcmp` and its domain is convex in the `vcmp`
   order, which is what makes the neighbour check of `ensure_comparable` say something about all
   pairs (accepted_pairs). *)
From Coq Require Import List ZArith NArith Bool Lia Permutation Sorted.
From TeraV Require Import Model.Value Gen.OrderTables Model.Order Model.CollFilters Proofs.OrderProofs
  Spec.CollSpec.
Import ListNotations.
Open Scope Z_scope.

Lemma is_prefix_app p s : is_prefix p s = true -> s = p ++ skipn (length p) s.
Proof.
  revert s; induction p as [|a p IH]; intros s H; cbn in *; trivial.
  destruct s as [|b s]; try discriminate.
  apply andb_true_iff in H as [E H]. apply N.eqb_eq in E. subst. f_equal. apply IH; trivial.
Qed.

Lemma is_prefix_length p s : is_prefix p s = true -> (length p <= length s)%nat.
Proof. intros H. rewrite (is_prefix_app p s H), app_length. lia. Qed.

Lemma split_go_nonempty p s cur k : split_go p s cur k <> [].
Proof.
  revert cur k; induction s as [|c t IH]; intros cur k; cbn; try discriminate.
  destruct k; auto. destruct (is_prefix p (c :: t)); try discriminate. auto.
Qed.

Lemma join_cons sep x l : l <> [] -> join_strs sep (x :: l) = x ++ sep ++ join_strs sep l.
Proof. destruct l; [congruence | reflexivity]. Qed.

Lemma split_go_join p s : p <> [] -> forall cur k, (k <= length s)%nat ->
  join_strs p (split_go p s cur k) = rev cur ++ skipn k s.
Proof.
  intros Hp. induction s as [|c t IH]; intros cur k Hk; cbn in *.
  - assert (k = 0)%nat by lia. subst. cbn. rewrite app_nil_r. reflexivity.
  - destruct k as [|k].
    + destruct (is_prefix p (c :: t)) eqn:E.
      * rewrite join_cons by apply split_go_nonempty.
        pose proof (is_prefix_length _ _ E) as L. pose proof (is_prefix_app _ _ E) as A.
        destruct p as [|a p']; try congruence. cbn [length] in *.
        rewrite IH by (cbn in L; lia). cbn [rev app]. cbn. f_equal.
        rewrite Nat.sub_0_r. cbn in A. symmetry. exact A.
      * rewrite IH by lia. cbn. rewrite <- app_assoc. reflexivity.
    + rewrite IH by lia. reflexivity.
Qed.

Lemma join_empty_sep_chars (s : str) : join_strs [] (map (fun c => [c]) s ++ [[]]) = s.
Proof.
  induction s as [|c t IH]; [reflexivity|]. cbn [map app].
  rewrite join_cons by (destruct (map (fun c0 : N => [c0]) t); discriminate).
  cbn [app]. rewrite IH. reflexivity.
Qed.

Theorem split_join_id s p : join_strs p (str_split s p) = s.
Proof.
  destruct p as [|a p].
  - cbn [str_split]. rewrite join_cons.
    + cbn. apply join_empty_sep_chars.
    + destruct (map (fun c => [c]) s); discriminate.
  - unfold str_split. rewrite split_go_join; [reflexivity | discriminate | lia].
Qed.

Lemma strs_of_strs l : strs_of (map (fun x => VStr x false) l) = Some l.
Proof. induction l as [|x t IH]; cbn; trivial. rewrite IH. reflexivity. Qed.

Theorem reverse_involutive :
  (forall l, res_bind (filter_reverse (VArr l)) filter_reverse = ROk (VArr l)) /\
  (forall s f, res_bind (filter_reverse (VStr s f)) filter_reverse = ROk (VStr s false)).
Proof. split; intros; cbn; rewrite rev_involutive; reflexivity. Qed.

Lemma filter_last_nth (l : list value) :
  filter_last l = match nth_error l (length l - 1) with Some x => x | None => VNone end.
Proof.
  unfold filter_last. induction l as [|x t IH]; cbn; trivial.
  destruct t as [|y t']; cbn; trivial. cbn in IH. rewrite Nat.sub_0_r in IH. exact IH.
Qed.

Lemma last_rev_first (l : list value) : filter_first (rev l) = filter_last l.
Proof.
  unfold filter_last. induction l as [|x t IH]; cbn; trivial.
  destruct t as [|y t']; cbn in *; trivial.
  destruct (rev t' ++ [y]) eqn:E; cbn in *.
  - destruct (rev t'); discriminate.
  - exact IH.
Qed.

(* lists are shorter than 2^64 (a Vec has fewer than 2^63 elements) *)
Theorem access_consistent (l : list value) : Z.of_nat (length l) < two64 ->
  filter_length (VArr l) = ROk (VInt U64 (Z.of_nat (length l))) /\
  filter_first l = match nth_error l 0 with Some x => x | None => VNone end /\
  filter_last l = match nth_error l (length l - 1) with Some x => x | None => VNone end /\
  (forall r z, in_u64 z = true ->
     filter_nth l (VInt r z) = ROk (match nth_error l (Z.to_nat z) with Some x => x | None => VNone end)) /\
  (forall r z, in_u64 z = false -> filter_nth l (VInt r z) = RErr ErrMsg) /\
  (forall r, filter_nth l (VInt r 0) = ROk (filter_first l)) /\
  (forall r, l <> [] -> filter_nth l (VInt r (Z.of_nat (length l - 1))) = ROk (filter_last l)) /\
  (forall r z, Z.of_nat (length l) <= z -> in_u64 z = true -> filter_nth l (VInt r z) = ROk VNone) /\
  filter_first (rev l) = filter_last l /\
  filter_reverse (VArr l) = ROk (VArr (rev l)) /\
  filter_length (VArr (rev l)) = filter_length (VArr l).
Proof.
  intros Hlen.
  split; [reflexivity|]. split; [destruct l; reflexivity|]. split; [apply filter_last_nth|].
  assert (Nth : forall r z, in_u64 z = true ->
     filter_nth l (VInt r z) = ROk (match nth_error l (Z.to_nat z) with Some x => x | None => VNone end)).
  { intros r z Hz. unfold filter_nth. cbn. rewrite Hz.
    destruct (z <? Z.of_nat (length l)) eqn:E; trivial. apply Z.ltb_ge in E.
    assert (Q : nth_error l (Z.to_nat z) = None) by (apply nth_error_None; lia). rewrite Q. reflexivity. }
  split; [exact Nth|].
  split; [intros r z Hz; unfold filter_nth; cbn; rewrite Hz; reflexivity|].
  split; [intros r; rewrite Nth by reflexivity; destruct l; reflexivity|].
  split.
  { intros r Hl. rewrite Nth.
    - rewrite Nat2Z.id, filter_last_nth. reflexivity.
    - unfold in_u64. apply andb_true_iff. split; [apply Z.leb_le | apply Z.ltb_lt]; lia. }
  split.
  { intros r z Hz Hu. rewrite Nth by assumption.
    assert (E : nth_error l (Z.to_nat z) = None) by (apply nth_error_None; lia).
    rewrite E. reflexivity. }
  split; [apply last_rev_first|]. split; [reflexivity|].
  cbn. rewrite rev_length. reflexivity.
Qed.

Section SortLaws.
  Context {A : Type}.
  Variable key : A -> value.
  Definition kle (a b : A) : Prop := vle (key a) (key b).

  Lemma sort_by_perm l : Permutation (sort_by key l) l.
  Proof. exact (gsort_perm _ l). Qed.

  (* the neighbour check sees the keys only *)
  Lemma sort_by_map l : map key (sort_by key l) = sort_by (fun v => v) (map key l).
  Proof. symmetry. exact (gsort_map _ _ key (fun _ _ => eq_refl) l). Qed.

  Lemma sort_by_sorted l : Forall (fun y => wf (key y)) l -> StronglySorted kle (sort_by key l).
  Proof.
    apply (gsort_sorted (fun a b => vcmp (key a) (key b)) (fun y => wf (key y))).
    - intros x y Wx Wy. apply vcmp_opp; trivial.
    - intros x y z Wx Wy Wz. apply vcmp_tr; trivial.
  Qed.

  Definition same_key (k : value) (x : A) : bool := cmp_is_eq (vcmp (key x) k).

  Lemma sort_by_stable k l : wf k -> Forall (fun y => wf (key y)) l ->
    filter (same_key k) (sort_by key l) = filter (same_key k) l.
  Proof.
    intros Wk. apply (gsort_stable (fun a b => vcmp (key a) (key b)) (fun y => wf (key y))).
    (* two elements Equal to k are Equal to each other *)
    intros x y Wx Wy Px Py. unfold same_key, cmp_is_eq in Px, Py.
    destruct (vcmp (key x) k) eqn:Ex; try discriminate.
    destruct (vcmp (key y) k) eqn:Ey; try discriminate.
    rewrite (tr_eq_l _ _ _ (vcmp_tr (key x) k (key y) Wx Wk Wy) Ex), (vcmp_opp (key y) k Wy Wk), Ey.
    discriminate.
  Qed.
End SortLaws.

Definition cmpb (a b : value) : bool := match vpcmp a b with Some _ => true | None => false end.

Lemma vpcmp_map_l m b : vpcmp (VMap m) b = None.
Proof. destruct b; reflexivity. Qed.
Lemma vpcmp_map_r a m : vpcmp a (VMap m) = None.
Proof. destruct a; reflexivity. Qed.

Lemma cmpb_rank a b : cmpb a b = true -> rank a = rank b.
Proof.
  intros H. destruct (N.eq_dec (rank a) (rank b)) as [e|n]; trivial.
  destruct (diff_rank a b n) as [_ [_ E]]. unfold cmpb in H. rewrite E in H. discriminate.
Qed.

Lemma list_pcmp_opp l : Forall (fun x => forall y, wf y -> vpcmp y x = option_map CompOpp (vpcmp x y)) l ->
  forall l', Forall wf l' -> list_pcmp vpcmp l' l = option_map CompOpp (list_pcmp vpcmp l l').
Proof.
  induction 1 as [|x t Hx Ht IH]; intros l' Wl'; destruct l' as [|y t']; cbn; trivial.
  inversion Wl'; subst. rewrite (Hx y) by assumption.
  destruct (vpcmp x y) as [[]|]; cbn; auto.
Qed.

Lemma vpcmp_opp : forall a, wf a -> forall b, wf b -> vpcmp b a = option_map CompOpp (vpcmp a b).
Proof.
  assert (D : forall a b, rank a <> rank b -> vpcmp b a = option_map CompOpp (vpcmp a b)).
  { intros a b n. destruct (diff_rank a b n) as [_ [_ ->]], (diff_rank b a (not_eq_sym n)) as [_ [_ ->]].
    reflexivity. }
  assert (S : forall a x, sk a = Some x -> wf a -> forall b, wf b -> vpcmp b a = option_map CompOpp (vpcmp a b)).
  { intros a x Ha Wa b Wb.
    destruct (N.eq_dec (rank a) (rank b)) as [e|n].
    - destruct (sk_same_rank _ _ _ Ha e) as [y Hb].
      rewrite (vpcmp_sk a b x y), (vpcmp_sk b a y x) by assumption.
      rewrite (N.eqb_sym (srank y) (srank x)). destruct (N.eqb (srank x) (srank y)); cbn; trivial.
      rewrite scmp_opp. reflexivity.
    - apply D, n. }
  apply (ValueFacts.value_ind' (fun a => wf a -> forall b, wf b -> vpcmp b a = option_map CompOpp (vpcmp a b))).
  1-6, 9: intros; eapply S; eauto; reflexivity.
  - intros l IH Wa b Wb.
    destruct (N.eq_dec (rank (VArr l)) (rank b)) as [e|n].
    + destruct (rank_arr_inv _ _ e) as [l' ->]. apply wf_arr in Wa, Wb. cbn [vpcmp].
      apply list_pcmp_opp; trivial. rewrite Forall_forall in *. intros x Hx y Wy. apply IH; auto.
    + apply D, n.
  - intros m IH Wa b Wb. rewrite vpcmp_map_l, vpcmp_map_r. reflexivity.
Qed.

Lemma cmpb_sym a b : wf a -> wf b -> cmpb b a = cmpb a b.
Proof. intros Wa Wb. unfold cmpb. rewrite (vpcmp_opp a Wa b Wb). destruct (vpcmp a b); reflexivity. Qed.

(* convexity: between two comparable neighbours in `cmp` order nothing incomparable hides *)
Definition convex (a : value) : Prop :=
  wf a -> forall b c, wf b -> wf c -> vle a b -> vle b c ->
  cmpb a b = true -> cmpb b c = true -> cmpb a c = true.

(* among scalars being comparable is having the same rank, an equivalence: the order plays no part *)
Lemma cmpb_scalar a b x : wf a -> wf b -> sk a = Some x -> rank a = rank b -> cmpb a b = true.
Proof.
  intros Wa Wb Ha e. destruct (sk_same_rank _ _ _ Ha e) as [y Hb]. unfold cmpb.
  rewrite (vpcmp_sk a b x y), <- (rank_sk _ _ Ha), <- (rank_sk _ _ Hb), e, N.eqb_refl by assumption.
  reflexivity.
Qed.

Lemma convex_scalar a x : sk a = Some x -> convex a.
Proof.
  intros Ha Wa b c Wb Wc _ _ Cab Cbc. apply (cmpb_scalar a c x); trivial.
  rewrite (cmpb_rank a b Cab). apply cmpb_rank, Cbc.
Qed.

Lemma convex_arr la : Forall convex la -> convex (VArr la).
Proof.
  (* along the three arrays: the heads x <= y <= z are comparable in pairs, hence x and z are, by the
     convexity of x.  If they differ that decides the arrays; if x = z then x = y = z (vcmp_tr) and the
     tails take over *)
  intros H Wa b c Wb Wc Lab Lbc Cab Cbc.
  destruct (rank_arr_inv _ _ (cmpb_rank _ b Cab)) as [lb ->].
  destruct (rank_arr_inv _ _ (cmpb_rank _ c Cbc)) as [lc ->].
  apply wf_arr in Wa, Wb, Wc. unfold vle, cmpb in *. revert lb lc Wb Wc Lab Lbc Cab Cbc.
  induction H as [|x ta Hx Ht IH]; intros lb lc Wlb Wlc Hab Hbc Cab Cbc.
  - destruct lc; reflexivity.
  - destruct lb as [|y tb]; [cbn in Hab; congruence|].
    destruct lc as [|z tc]; [cbn in Hbc; congruence|].
    inversion Wa as [|? ? Wx Wta]; inversion Wlb as [|? ? Wy Wtb]; inversion Wlc as [|? ? Wz Wtc]; subst.
    cbn in Hab, Hbc, Cab, Cbc |- *.
    destruct (vpcmp x y) as [rxy|] eqn:Pxy; [|congruence].
    destruct (vpcmp y z) as [ryz|] eqn:Pyz; [|congruence].
    pose proof (vpcmp_some_vcmp x Wx y Wy _ Pxy) as Vxy.
    pose proof (vpcmp_some_vcmp y Wy z Wz _ Pyz) as Vyz.
    rewrite Vxy in Hab. rewrite Vyz in Hbc.
    assert (Lxy : vle x y) by (unfold vle; rewrite Vxy; destruct rxy; congruence).
    assert (Lyz : vle y z) by (unfold vle; rewrite Vyz; destruct ryz; congruence).
    assert (Cxz : cmpb x z = true).
    { apply (Hx Wx y z); trivial; unfold cmpb; rewrite ?Pxy, ?Pyz; reflexivity. }
    unfold cmpb in Cxz. destruct (vpcmp x z) as [rxz|] eqn:Pxz; [|discriminate].
    destruct rxz; trivial.
    pose proof (vpcmp_some_vcmp x Wx z Wz _ Pxz) as Vxz.
    pose proof (vcmp_tr x y z Wx Wy Wz) as T. rewrite Vxy, Vyz, Vxz in T.
    destruct rxy, ryz; cbn in T; try discriminate; try congruence.
    apply (IH Wta tb tc); trivial.
Qed.

Theorem vpcmp_convex : forall a, convex a.
Proof.
  apply ValueFacts.value_ind'; intros.
  1-6, 9: eapply convex_scalar; reflexivity.
  - apply convex_arr; trivial.
  - intros Wa b c Wb Wc _ _ Cab _. unfold cmpb in Cab. rewrite vpcmp_map_l in Cab. discriminate.
Qed.

Lemma vle_rank a b : vle a b -> (rank a <= rank b)%N.
Proof.
  intros L. destruct (N.eq_dec (rank a) (rank b)) as [e|n]; [lia|].
  destruct (diff_rank a b n) as [E _]. unfold vle in L. rewrite E in L.
  destruct (N.compare_spec (rank a) (rank b)); try lia. congruence.
Qed.

(* a value that sorts in front of `none`: bool, number, string, array, map, bytes *)
Definition regular (v : value) : Prop := (rank v < rank VNone)%N.

Lemma regular_not_none v : regular v -> is_none v = false.
Proof. destruct v; cbn; trivial. unfold regular. lia. Qed.

Lemma ensure_comparable_cons a b t :
  ensure_comparable (a :: b :: t) =
    if negb (is_none a || is_none b) && negb (cmpb a b) then false else ensure_comparable (b :: t).
Proof. cbn [ensure_comparable]. unfold cmpb. destruct (vpcmp a b); reflexivity. Qed.

Lemma ensure_comparable_tail a t : ensure_comparable (a :: t) = true -> ensure_comparable t = true.
Proof.
  destruct t as [|b t']; trivial. rewrite ensure_comparable_cons.
  destruct (negb (is_none a || is_none b) && negb (cmpb a b)); congruence.
Qed.

(* The check only looks at neighbours; convexity extends it to any two elements of a class Q that
   excludes none and, within the list, holds of everything in front of one of its members. *)
Lemma accepted_pairs (Q : value -> Prop) l :
  (forall v, Q v -> is_none v = false) ->
  (forall b z, In b l -> In z l -> vle b z -> Q z -> Q b) ->
  Forall wf l -> StronglySorted vle l -> ensure_comparable l = true ->
  ForallOrdPairs (fun x y => wf x -> wf y -> Q x -> Q y -> cmpb x y = true) l.
Proof.
  intros Qn. induction l as [|a t IH]; intros Qd Wl Hs He; [constructor|].
  inversion Wl as [|? ? Wa Wt]; subst. inversion Hs as [|? ? Hs' Ha]; subst.
  specialize (IH ltac:(intros ? ? ? ?; apply Qd; cbn; auto) Wt Hs' (ensure_comparable_tail _ _ He)).
  constructor; trivial.
  destruct t as [|b t']; constructor.
  - intros _ _ Qa Qb. rewrite ensure_comparable_cons, (Qn a Qa), (Qn b Qb) in He.
    destruct (cmpb a b); trivial; discriminate.
  - inversion IH as [|? ? Hb _]; subst. inversion Hs' as [|? ? _ Lb]; subst. inversion Wt as [|? ? Wb _]; subst.
    rewrite Forall_forall in *. intros z Hz _ Wz Qa Qz.
    assert (Lbz : vle b z) by auto.
    assert (Qb : Q b) by (apply (Qd b z); cbn; auto).
    rewrite ensure_comparable_cons, (Qn a Qa), (Qn b Qb) in He.
    apply (vpcmp_convex a Wa b z); trivial.
    + apply Ha; cbn; auto.
    + destruct (cmpb a b); trivial; discriminate.
    + apply Hb; trivial.
Qed.

Lemma FOP_perm {A} (R : A -> A -> Prop) l l' : (forall x y, R x y -> R y x) ->
  Permutation l l' -> ForallOrdPairs R l -> ForallOrdPairs R l'.
Proof.
  intros Sym P. induction P as [|x l l' P IH|x y l|l l' l'' P1 IH1 P2 IH2]; intros H; trivial.
  - inversion H; subst. constructor; auto. eapply Permutation_Forall; eauto.
  - inversion H as [|? ? Hy Ht]; subst. inversion Ht as [|? ? Hx Ht']; subst. inversion Hy; subst.
    constructor; [constructor; auto|constructor; auto].
  - auto.
Qed.

Lemma FOP_impl_in {A} (R R' : A -> A -> Prop) l :
  (forall x y, In x l -> In y l -> R x y -> R' x y) -> ForallOrdPairs R l -> ForallOrdPairs R' l.
Proof.
  intros H F. induction F as [|x t Hx Ht IH]; constructor.
  - rewrite Forall_forall in *. intros y Hy. apply H; cbn; auto.
  - apply IH. intros; apply H; cbn; auto.
Qed.

Lemma path_walk_wf path : forall v k, wf v -> path_walk v path = Some k -> wf k.
Proof.
  induction path as [|[n|s] rest IH]; intros v k Wv H; cbn in H.
  - inversion H; subst; trivial.
  - destruct v; try discriminate. destruct (nth_error l n) as [x|] eqn:E; try discriminate.
    apply (IH x); trivial. apply wf_arr in Wv. rewrite Forall_forall in Wv. apply Wv.
    eapply nth_error_In; eauto.
  - destruct v; try discriminate. destruct (map_get m (KStr s false)) as [x|] eqn:E; try discriminate.
    apply (IH x); trivial. apply wf_map in Wv as [_ [_ Vw]]. rewrite Forall_forall in Vw.
    destruct (map_get_some _ _ _ E) as [k' [Hin _]]. apply (Vw (k', x)); trivial.
Qed.

Lemma get_from_path_wf v path k : wf v -> get_from_path v path = Some k -> wf k.
Proof.
  intros Wv H. destruct v; cbn in H; try discriminate;
    try (eapply path_walk_wf; eauto; fail).
  inversion H; subst; trivial.
Qed.

Lemma decorate_spec path l d : decorate path l = Some d ->
  map snd d = l /\ Forall (fun kv => get_from_path (snd kv) path = Some (fst kv)) d.
Proof.
  revert d; induction l as [|v t IH]; intros d H; cbn in H.
  - inversion H; subst. split; constructor.
  - destruct (get_from_path v path) as [k|] eqn:E; try discriminate.
    destruct (decorate path t) as [d'|]; try discriminate. inversion H; subst.
    destruct (IH d' eq_refl) as [I1 I2]. split; cbn; [congruence | constructor; trivial].
Qed.

(* the two forms in which the sort theorems assert comparability of all pairs of keys *)
Definition reg_cmp_wf (x y : value) : Prop := wf x -> wf y -> regular x -> regular y -> cmpb x y = true.
Definition all_cmp_wf (x y : value) : Prop := wf x -> wf y -> cmpb x y = true.

Lemma accepted_input l : Forall wf l -> ensure_comparable (sort_by (fun v => v) l) = true ->
  ForallOrdPairs reg_cmp_wf l /\
  (Forall (fun v => is_none v = false) l -> ForallOrdPairs all_cmp_wf l).
Proof.
  intros Wl He. set (s := sort_by (fun v => v) l) in *.
  assert (P : Permutation s l) by apply sort_by_perm.
  assert (S : StronglySorted vle s) by exact (sort_by_sorted (fun v => v) l Wl).
  assert (Ws : Forall wf s) by (eapply Permutation_Forall; [symmetry; exact P | exact Wl]).
  split.
  - apply (FOP_perm reg_cmp_wf s); trivial.
    + intros x y H Wy Wx Ry Rx. rewrite cmpb_sym; auto.
    + apply (accepted_pairs regular); trivial. apply regular_not_none.
      intros b z _ _ L Rz. unfold regular in *. pose proof (vle_rank b z L). lia.
  - intros Nn. apply (FOP_perm all_cmp_wf s); trivial.
    + intros x y H Wy Wx. rewrite cmpb_sym; auto.
    + apply (Permutation_Forall (Permutation_sym P)) in Nn. rewrite Forall_forall in Nn.
      apply (FOP_impl_in (fun x y => wf x -> wf y -> is_none x = false -> is_none y = false -> cmpb x y = true)).
      * intros x y Hx Hy H Wx Wy. auto.
      * apply accepted_pairs; auto.
Qed.

(* the filter without `attribute`: elements are their own keys *)
Lemma filter_sort_none l :
  filter_sort l None =
    if ensure_comparable (sort_by (fun v => v) l) then ROk (sort_by (fun v => v) l) else RErr ErrMsg.
Proof. destruct l; reflexivity. Qed.

Lemma filter_sort_attr l path :
  filter_sort l (Some path) =
    match decorate path l with
    | None => RErr ErrMsg
    | Some d => if ensure_comparable (map fst (sort_by fst d)) then ROk (map snd (sort_by fst d)) else RErr ErrMsg
    end.
Proof. destruct l; reflexivity. Qed.

Theorem sort_spec l r : Forall wf l -> filter_sort l None = ROk r ->
  Permutation r l /\ StronglySorted vle r /\
  (forall k, wf k -> filter (fun x => cmp_is_eq (vcmp x k)) r = filter (fun x => cmp_is_eq (vcmp x k)) l).
Proof.
  intros Wl H. rewrite filter_sort_none in H.
  destruct (ensure_comparable (sort_by (fun v => v) l)); inversion H; subst.
  split; [apply sort_by_perm|]. split.
  - exact (sort_by_sorted (fun v : value => v) l Wl).
  - intros k Wk. apply (sort_by_stable (fun v : value => v)); trivial.
Qed.

Theorem sort_rejects_incomparable l r : Forall wf l -> filter_sort l None = ROk r ->
  ForallOrdPairs reg_cmp_wf l /\
  (Forall (fun v => is_none v = false) l -> ForallOrdPairs all_cmp_wf l).
Proof.
  intros Wl H. rewrite filter_sort_none in H.
  destruct (ensure_comparable (sort_by (fun v => v) l)) eqn:He; [|discriminate].
  apply accepted_input; trivial.
Qed.

(* with `attribute`: the same contracts on the keys found by get_from_path *)
Theorem sort_attr_spec l path r : Forall wf l -> filter_sort l (Some path) = ROk r -> l <> [] ->
  exists d, decorate path l = Some d /\ map snd d = l /\
    Forall (fun kv => get_from_path (snd kv) path = Some (fst kv)) d /\
    r = map snd (sort_by fst d) /\ Permutation r l /\
    StronglySorted (kle fst) (sort_by fst d) /\
    (forall k, wf k -> filter (same_key fst k) (sort_by fst d) = filter (same_key fst k) d) /\
    ForallOrdPairs reg_cmp_wf (map fst d) /\
    (Forall (fun v => is_none v = false) (map fst d) -> ForallOrdPairs all_cmp_wf (map fst d)).
Proof.
  intros Wl H _. rewrite filter_sort_attr in H.
  destruct (decorate path l) as [d|] eqn:D; [|discriminate].
  destruct (ensure_comparable (map fst (sort_by fst d))) eqn:He; inversion H; subst.
  destruct (decorate_spec _ _ _ D) as [D1 D2].
  assert (Wd : Forall (fun kv : value * value => wf (fst kv)) d).
  { rewrite Forall_forall in *. intros kv Hkv. apply (get_from_path_wf (snd kv) path); auto.
    apply Wl. rewrite <- D1. apply in_map; trivial. }
  rewrite sort_by_map in He. destruct (accepted_input (map fst d)) as [Q1 Q2]; [apply Forall_map|..]; trivial.
  exists d. repeat split; trivial.
  - rewrite <- D1. apply Permutation_map, sort_by_perm.
  - apply sort_by_sorted; trivial.
  - intros k Wk. apply sort_by_stable; trivial.
Qed.

Theorem sort_errors l : l <> [] ->
  (forall path, decorate path l = None -> filter_sort l (Some path) = RErr ErrMsg) /\
  (ensure_comparable (sort_by (fun v => v) l) = false -> filter_sort l None = RErr ErrMsg).
Proof.
  intros _. split.
  - intros path D. rewrite filter_sort_attr, D. reflexivity.
  - intros He. rewrite filter_sort_none, He. reflexivity.
Qed.

Lemma cmp_is_eq_veq a b : wf a -> wf b -> cmp_is_eq (vcmp a b) = veq a b.
Proof. intros Wa Wb. symmetry. apply is_Eq_of_iff, vcmp_eq_iff; trivial. Qed.

Lemma veq_sym a b : wf a -> wf b -> veq a b = veq b a.
Proof.
  intros Wa Wb. rewrite <- !cmp_is_eq_veq, (vcmp_opp a b) by trivial. destruct (vcmp a b); reflexivity.
Qed.

(* [seen] holds the kept elements of [pre]: being Equal to a kept one is being == to an earlier one *)
Lemma unique_go_spec l : forall seen pre, Forall wf l -> Forall wf pre ->
  (forall x, wf x -> existsb (fun s => cmp_is_eq (vcmp x s)) seen = existsb (fun p => veq p x) pre) ->
  unique_go seen l = first_occurrences veq pre l.
Proof.
  induction l as [|v t IH]; intros seen pre Wl Wp I; cbn; trivial.
  inversion Wl as [|? ? Wv Wt]; subst.
  assert (Wp' : Forall wf (pre ++ [v])) by (apply Forall_app; auto).
  rewrite (I v Wv). destruct (existsb (fun p => veq p v) pre) eqn:X; [|f_equal]; apply IH; trivial;
    intros x Wx; rewrite existsb_app; cbn [existsb]; rewrite orb_false_r, (I x Wx).
  - (* v is == to an earlier p, so p is == to whatever v is *)
    destruct (veq v x) eqn:Q; [|symmetry; apply orb_false_r]. rewrite orb_true_r.
    apply existsb_exists in X as [p [Hp Q1]]. apply existsb_exists. exists p. split; trivial.
    rewrite Forall_forall in Wp. apply (proj2 (proj2 veq_equivalence) p v x); auto.
  - rewrite cmp_is_eq_veq, (veq_sym x v) by trivial. apply orb_comm.
Qed.

Theorem unique_spec l : Forall wf l -> filter_unique l = first_occurrences veq [] l.
Proof. intros Wl. apply unique_go_spec; trivial. Qed.

Theorem keys_values_pairs (m : list (key * value)) :
  length (filter_keys m) = length m /\ length (filter_values m) = length m /\
  filter_pairs m = map (fun kv => VArr [fst kv; snd kv]) (combine (filter_keys m) (filter_values m)) /\
  filter_length (VMap m) = filter_length (VArr (filter_keys m)) /\
  (forall i k v, nth_error (filter_keys m) i = Some k -> nth_error (filter_values m) i = Some v ->
     nth_error (filter_pairs m) i = Some (VArr [k; v])).
Proof.
  unfold filter_keys, filter_values, filter_pairs.
  split; [apply map_length|]. split; [apply map_length|]. split.
  - induction m as [|kv t IH]; cbn; trivial. rewrite IH. reflexivity.
  - split; [cbn; rewrite map_length; reflexivity|].
    induction m as [|kv t IH]; intros i k v Hk Hv; destruct i; cbn in *; try discriminate.
    + inversion Hk; inversion Hv; subst. reflexivity.
    + apply IH; trivial.
Qed.

(* every key returned by `keys` finds, through m[k], the value at the same position of `values` *)
Theorem keys_lookup (m : list (key * value)) : wf (VMap m) ->
  forall i k v, nth_error m i = Some (k, v) -> get_item_map m (key_to_value k) = ROk v.
Proof.
  intros Wm i k v H. apply wf_map in Wm as [Kw [Kd _]].
  assert (Hin : In (k, v) m) by (eapply nth_error_In; eauto).
  pose proof (kwf_in _ _ _ Kw Hin) as Kk.
  unfold get_item_map.
  assert (A : exists k', as_key (key_to_value k) = Some k' /\ key_norm k' = key_norm k /\ key_wf k' = true).
  { destruct k; cbn; eauto. }
  destruct A as [k' [A1 [A2 A3]]]. rewrite A1.
  rewrite (proj2 (map_get_spec m k' v Kw Kd A3)); eauto.
Qed.

Section GroupBy.
  Variable path : list seg.

  (* the key an element is grouped under: its attribute, when present, not none and a key kind *)
  Definition gkey (v : value) : option key :=
    match get_from_path v path with
    | Some x => if is_none x then None else as_key x
    | None => None
    end.
  Definition in_group (k : key) (v : value) : bool :=
    match gkey v with Some k' => key_eq k k' | None => false end.
  (* group_by accepts an element: attribute present, and none or of a key kind *)
  Definition gok (v : value) : bool :=
    match get_from_path v path with
    | Some x => is_none x || match as_key x with Some _ => true | None => false end
    | None => false
    end.

  Lemma gkey_wf v k : wf v -> gkey v = Some k -> key_wf k = true.
  Proof.
    unfold gkey. intros Wv H. destruct (get_from_path v path) as [x|] eqn:E; try discriminate.
    destruct (is_none x); try discriminate.
    apply (as_key_wf x); trivial. eapply get_from_path_wf; eauto.
  Qed.

  Lemma group_push_insert g k v :
    group_push g k v = map_insert g k (match map_get g k with Some vs => vs ++ [v] | None => [v] end).
  Proof.
    induction g as [|[k1 ws] t IH]; cbn; trivial.
    destruct (key_eq k1 k); cbn; [|rewrite IH]; reflexivity.
  Qed.

  (* the groups after the elements [done]: a key finds, in input order, the elements grouped under it *)
  Definition ginv (g : list (key * list value)) (done : list value) : Prop :=
    kwf g /\ kdist g /\ forall k, key_wf k = true -> map_get g k = match filter (in_group k) done with [] => None | vs => Some vs end.

  Definition gstep (g : list (key * list value)) (v : value) : list (key * list value) :=
    match gkey v with Some k => group_push g k v | None => g end.

  Lemma group_go_fold l : forall g,
    group_go path g l = if forallb gok l then ROk (fold_left gstep l g) else RErr ErrMsg.
  Proof.
    induction l as [|v t IH]; intro g; [reflexivity|]. cbn [group_go forallb fold_left].
    unfold gstep at 2, gok at 1, gkey. destruct (get_from_path v path) as [x|]; [|reflexivity].
    destruct (is_none x); [apply IH|]. destruct (as_key x); [apply IH|reflexivity].
  Qed.

  Lemma ginv_gstep g done v : wf v -> ginv g done -> ginv (gstep g v) (done ++ [v]).
  Proof.
    intros Wv [Kw [Kd H]]. unfold gstep. destruct (gkey v) as [k'|] eqn:Hk.
    - pose proof (gkey_wf v k' Wv Hk) as Wk'. rewrite group_push_insert.
      split; [|split]; try (apply map_insert_inv; trivial).
      intros k Wk. rewrite map_insert_get, filter_app by trivial. cbn [filter]. unfold in_group at 2.
      rewrite Hk, (key_eq_sym k k') by trivial. destruct (key_eq k' k) eqn:E.
      + apply key_eq_norm in E; trivial. rewrite (map_get_norm g k' k), (H k) by trivial.
        destruct (filter (in_group k) done); reflexivity.
      + rewrite app_nil_r. apply H; trivial.
    - split; [|split]; trivial. intros k Wk.
      rewrite filter_app. cbn [filter]. unfold in_group at 2. rewrite Hk, app_nil_r. apply H; trivial.
  Qed.

  Lemma ginv_fold l : forall g done, Forall wf l -> ginv g done -> ginv (fold_left gstep l g) (done ++ l).
  Proof.
    induction l as [|v t IH]; intros g done Wl I; [rewrite app_nil_r; exact I|].
    inversion Wl as [|? ? Wv Wt]; subst. change (v :: t) with ([v] ++ t). rewrite app_assoc.
    apply IH, ginv_gstep; assumption.
  Qed.
End GroupBy.

Theorem group_by_spec l path r : Forall wf l -> l <> [] -> filter_group_by l path = ROk r ->
  exists g, r = VMap (map (fun kv => (fst kv, VArr (snd kv))) g) /\
    kwf g /\ kdist g /\
    (forall k vs, In (k, vs) g -> vs <> [] /\ vs = filter (in_group path k) l) /\
    (forall v k', In v l -> gkey path v = Some k' ->
       exists k vs, In (k, vs) g /\ key_eq k k' = true /\ In v vs) /\
    Forall (fun v => gok path v = true) l.
Proof.
  intros Wl Hne H. unfold filter_group_by in H. destruct l as [|a t]; [congruence|].
  rewrite group_go_fold in H. destruct (forallb (gok path) (a :: t)) eqn:F; inversion H; subst.
  destruct (ginv_fold path (a :: t) [] [] Wl) as [Kw [Kd Hg]]; [repeat split; constructor|].
  cbn [app] in Hg. eexists. split; [reflexivity|]. split; [trivial|]. split; [trivial|].
  split; [|split; [|apply Forall_forall, forallb_forall, F]].
  - (* a stored group is what its own key finds *)
    intros k vs Hin. pose proof (kwf_in _ k vs Kw Hin) as Wk.
    pose proof (proj2 (map_get_spec _ k vs Kw Kd Wk) (ex_intro _ k (conj Hin eq_refl))) as Q.
    rewrite (Hg k Wk) in Q. destruct (filter (in_group path k) (a :: t)); inversion Q.
    split; [discriminate | reflexivity].
  - intros v k' Hin Hk. rewrite Forall_forall in Wl. pose proof (gkey_wf path v k' (Wl v Hin) Hk) as Wk'.
    assert (Iv : In v (filter (in_group path k') (a :: t))).
    { apply filter_In. split; trivial. unfold in_group. rewrite Hk. apply key_eq_refl; trivial. }
    specialize (Hg k' Wk'). destruct (filter (in_group path k') (a :: t)) as [|x vs]; [destruct Iv|].
    destruct (map_get_some _ _ _ Hg) as [k [Hg1 Hg2]]. exists k, (x :: vs). auto.
Qed.

Theorem group_by_errors l path : (exists v, In v l /\ gok path v = false) ->
  filter_group_by l path = RErr ErrMsg.
Proof.
  intros (v & Hv & Hg). unfold filter_group_by. destruct l as [|a t]; [destruct Hv|].
  rewrite group_go_fold. destruct (forallb (gok path) (a :: t)) eqn:F; [|reflexivity].
  rewrite (proj1 (forallb_forall _ _) F v Hv) in Hg. discriminate.
Qed.

(* the neighbour check is blind across a `none`: an `undefined` key (which sorts behind none) is
   never compared with the regular keys in front of the none.  This is why the comparability
   theorems speak of keys that sort in front of none, or of inputs without none. *)
Lemma sort_undefined_behind_none_witness :
  exists l r, Forall wf l /\ filter_sort l None = ROk r /\
    exists x y, In x l /\ In y l /\ is_none x = false /\ is_none y = false /\ cmpb x y = false.
Proof.
  exists [VInt U64 1; VNone; VUndef], [VInt U64 1; VNone; VUndef].
  split; [repeat constructor|]. split; [vm_compute; reflexivity|].
  exists (VInt U64 1), VUndef. cbn. repeat split; auto.
Qed.
