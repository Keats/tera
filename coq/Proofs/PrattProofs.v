(* C02, parsing half: the Pratt parser model (Model/Pratt.v), run on what the documented-table
   printer prints, returns the tree that was printed (`pratt_roundtrip_gen`).
   The proof goes as `parse` recurses.  Outside, induction on the depth d (`top_all`).  Inside one
   level (Section Level), every part of s that the frame hands to a parse one level down is covered
   by TOPat d, and the frame itself is followed by induction on s (`gp_all`): it consumes the left
   spine of s in its own operator loop (MLp, `spine s` iterations), an identifier chain in the loop
   of parse_ident (CLp, `clen s` iterations); the left operand, or the base of the chain, is the one
   part the same frame reads, and it is a direct subterm.  MLp and CLp are equations of one form:
   the frame started on `raw s` before ts is its loop holding `desugar s` before ts.
   At the end: `desugar_embed` (the round trip started from an AST), and the re-extracted
   binding-power table against the documented levels, by evaluation. *)
From TeraV Require Import Model.Value Model.Pratt Model.PrattSide.
From Coq Require Import String Lia.
From TeraV Require Import Proofs.ValueFacts.
Open Scope nat_scope.

Lemma all_bops_complete : forall o, In o all_bops.
Proof. destruct o; cbn [all_bops In]; repeat ((left; reflexivity) || right). Qed.

Lemma eqb_leb_ltb : forall m x p y, Bool.eqb (m <=? x) (p <=? y) = true -> (x <? m) = (y <? p).
Proof. intros m x p y H. rewrite !Nat.ltb_antisym. f_equal. apply eqb_prop. exact H. Qed.

Lemma thr_bin : forall bp min p o, thr_ok bp min p = true ->
  (lbp bp o <? min) = (lvl_bin o <? p).
Proof.
  intros bp min p o H. unfold thr_ok in H. apply andb_prop in H. destruct H as [H _].
  rewrite forallb_forall in H. apply eqb_leb_ltb, H, all_bops_complete.
Qed.

Lemma thr_tern : forall bp min p, thr_ok bp min p = true ->
  (tern_l bp <? min) = (lvl_tern <? p).
Proof. intros bp min p H. unfold thr_ok in H. apply andb_prop in H. apply eqb_leb_ltb, H. Qed.

Definition infix (o : bop) : bool := match o with OIs | OPipe => false | _ => true end.

Lemma infix_in : forall o, infix o = true -> In o infix_bops.
Proof. destruct o; cbn; intros; try discriminate; tauto. Qed.

(* the three kinds of min_bp passed down (r_bp of an infix operator, of a unary one,
   TERNARY_L_BP + 1) with their levels; wf_bp's first conjunct, `thr_ok bp 0 0`, holds of any table *)
Lemma wf_bp_spec : forall bp, wf_bp bp = true ->
  (forall o, infix o = true -> thr_ok bp (rbp bp o) (rp o) = true) /\
  (forall u, thr_ok bp (un_bp bp u) (lvl_un u) = true) /\
  thr_ok bp (S (tern_l bp)) 1 = true.
Proof.
  intros bp H. unfold wf_bp in H. rewrite !andb_true_iff, !forallb_forall in H.
  destruct H as [[[_ Hr] Hu] Hc]. repeat split; auto using infix_in.
  intros u. apply Hu. destruct u; cbn; tauto.
Qed.

Lemma classify_bop : forall o, classify (tok_bop o) = LOp o.
Proof. destruct o; reflexivity. Qed.

Lemma kw_not : kw_of (s2l "not") = KNot. Proof. reflexivity. Qed.
Lemma kw_in : kw_of (s2l "in") = KIn. Proof. reflexivity. Qed.
Lemma kw_is : kw_of (s2l "is") = KIs. Proof. reflexivity. Qed.
Lemma kw_if : kw_of (s2l "if") = KIf. Proof. reflexivity. Qed.
Lemma kw_else : kw_of (s2l "else") = KElse. Proof. reflexivity. Qed.
Lemma kw_none : kw_of (s2l "none") = KNone. Proof. reflexivity. Qed.
Lemma kw_for : kw_of (s2l "for") = KFor. Proof. reflexivity. Qed.

Lemma refused_mono : forall p p' t, refused p t = true -> p <= p' -> refused p' t = true.
Proof.
  intros p p' t H Hle. unfold refused in *.
  destruct (classify t); try exact H; try discriminate;
    apply Nat.ltb_lt in H; apply Nat.ltb_lt; lia.
Qed.

Lemma closer_refused : forall p t, closer t = true -> refused p t = true.
Proof. intros p t H. unfold closer, refused in *. destruct (classify t); try discriminate; reflexivity. Qed.

Lemma closer_not_chain : forall t, closer t = true -> chain_tok t = false.
Proof.
  intros t H. unfold closer in H. destruct (classify t); try discriminate.
  destruct (chain_tok t); [discriminate | reflexivity].
Qed.

Lemma chain_tok_lparen : forall t, chain_tok t = false -> is_lparen t = false.
Proof. destruct t; cbn; intros; try reflexivity; discriminate. Qed.

Section WithTable.
Variable bp : bp_table.
Variable maxb : nat.
Variable P : nat * nat -> nat -> list token -> pres.

Notation LOOP := (loop bp maxb P).

Lemma loop_stop : forall c min p k lhs ts,
  thr_ok bp min p = true -> refusedL p ts = true ->
  LOOP c min (S k) false lhs ts = Some (lhs, ts).
Proof.
  intros c min p k lhs ts Hthr Href.
  destruct ts as [|t ts1]; [reflexivity|].
  cbn [refusedL] in Href. unfold refused in Href.
  cbn [loop]. destruct (classify t) eqn:Ec; try discriminate.
  - rewrite (thr_bin _ _ _ o Hthr), Href. reflexivity.
  - rewrite (thr_bin _ _ _ OIn Hthr), Href. reflexivity.
  - rewrite (thr_tern _ _ _ Hthr), Href. reflexivity.
  - reflexivity.
Qed.

End WithTable.

Definition starter (t : token) : bool :=
  match t with
  | TInt _ | TFloat _ | TStr _ | TBool _ | TIdent _ | TMinus | TLParen | TLBracket | TLBrace => true
  | _ => false
  end.

(* through the tags, so that starter_not needs no case split over pairs of tokens *)
Lemma starter_tag : forall t, starter t = existsb (N.eqb (ttag t)) [0; 1; 2; 3; 4; 10; 27; 29; 31]%N.
Proof. destruct t; reflexivity. Qed.

Lemma starter_not : forall t r b, starter t = true -> starter b = false -> hd_is (t :: r) b = false.
Proof.
  intros t r b Ht Hb. cbn [hd_is]. unfold tis.
  destruct (N.eqb_spec (ttag t) (ttag b)) as [E|]; [|reflexivity].
  rewrite starter_tag, E, <- starter_tag in Ht. congruence.
Qed.

Definition starts (ts : list token) : Prop := exists t r, ts = t :: r /\ starter t = true.

Lemma wrap_starts : forall p l ts rest, starts ts -> starts (wrap p l ts ++ rest).
Proof.
  intros p l ts rest (t & r & -> & St). unfold wrap, paren.
  destruct (l <? p); do 2 eexists; split; try reflexivity; exact St.
Qed.

Lemma raw_hd : forall s, printable s = true -> starts (raw s).
Proof.
  induction s; cbn [printable raw]; intros Hp; rewrite ?andb_true_iff in Hp;
    try solve [apply wrap_starts; tauto | do 2 eexists; split; reflexivity].
  - (* SConst *) destruct c; try discriminate; do 2 eexists; split; reflexivity.
  - (* SAttr *) destruct (IHs (proj2 Hp)) as (t & r & -> & St). do 2 eexists; split; [reflexivity|exact St].
  - (* SUn *) destruct u; do 2 eexists; split; reflexivity.
Qed.

Lemma hd_raw_not : forall x r b, printable x = true -> starter b = false -> hd_is (raw x ++ r) b = false.
Proof.
  intros x r b H Hb. destruct (raw_hd x H) as (t & l & -> & St). cbn [app]. apply starter_not; assumption.
Qed.

Lemma rp_ge : forall o, lvl_bin o <= rp o.
Proof. intros o. unfold rp. destruct (right_assoc o); lia. Qed.
Lemma lp_ge : forall o, lvl_bin o <= lp o.
Proof. intros o. unfold lp. destruct (right_assoc o); lia. Qed.

(* a is printed bare where level pa is required (pa <= lvl a), before a token t that the frame reading
   it refuses at level P0.  Whatever is still open on the right edge of a belongs to an operator that
   is bare at pa, so (Fb, Fu) its operand is read at a level >= P0 and refuses t too (refused_mono);
   a bare ternary needs pa = 0, and then P0 = 0 (F0). *)
Lemma follow_bare : forall pa P0 t,
  (forall o1, pa <= lvl_bin o1 -> P0 <= rp o1) ->
  (forall u, pa <= lvl_un u -> P0 <= lvl_un u) ->
  (pa = 0 -> P0 = 0) ->
  refused P0 t = true -> chain_tok t = false ->
  forall a, pa <= lvl a -> follow a t = true.
Proof.
  intros pa P0 t Fb Fu F0 Hr Hn.
  pose proof (chain_tok_lparen _ Hn) as Hl.
  induction a; cbn [follow lvl]; intros Hlv; try reflexivity.
  - (* SVar *) rewrite Hn; reflexivity.
  - (* SAttr *) rewrite Hn; reflexivity.
  - (* SItem *) destruct (is_chain a1); [rewrite Hn|]; reflexivity.
  - (* SSlice *) destruct (is_chain a); [rewrite Hn|]; reflexivity.
  - (* SUn *) rewrite (refused_mono _ _ _ Hr (Fu u Hlv)). cbn [andb].
    destruct ((lvl a <? lvl_un u) || starts_unary (raw a)) eqn:E; [reflexivity|].
    apply orb_false_elim in E. destruct E as [E _]. apply Nat.ltb_ge in E. apply IHa. lia.
  - (* SBin *) rewrite (refused_mono _ _ _ Hr (Fb o Hlv)). cbn [andb].
    destruct (lvl a2 <? rp o) eqn:E; [reflexivity|].
    apply Nat.ltb_ge in E. apply IHa2. pose proof (rp_ge o). lia.
  - (* SNotIn *) rewrite (refused_mono _ _ _ Hr (Fb OIn Hlv)). cbn [andb].
    destruct (lvl a2 <? rp OIn) eqn:E; [reflexivity|].
    apply Nat.ltb_ge in E. apply IHa2. pose proof (rp_ge OIn). cbn in *. lia.
  - (* STest *) destruct kw; [rewrite Hl|]; reflexivity.
  - (* SFilter *) destruct kw; [rewrite Hl|]; reflexivity.
  - (* STern *) unfold lvl_tern in Hlv. rewrite F0 in Hr by lia. rewrite Hr. apply IHa3. lia.
Qed.

Lemma follow_closer : forall s t, closer t = true -> follow s t = true.
Proof.
  intros s t Hc. apply (follow_bare 0 0); auto using closer_refused, closer_not_chain; intros; lia.
Qed.

Lemma assoc_lvl : forall o, right_assoc o = (lvl_bin o =? lvl_bin OPower).
Proof. destruct o; reflexivity. Qed.
Lemma bare_left_bin : forall o o1, lp o <= lvl_bin o1 -> S (lvl_bin o) <= rp o1.
Proof.
  intros o o1. unfold lp, rp. rewrite !assoc_lvl.
  destruct (Nat.eqb_spec (lvl_bin o) (lvl_bin OPower)), (Nat.eqb_spec (lvl_bin o1) (lvl_bin OPower)); lia.
Qed.
Lemma bare_left_un : forall o u, lp o <= lvl_un u -> S (lvl_bin o) <= lvl_un u.
Proof. destruct o, u; cbn; lia. Qed.
Lemma lp_pos : forall o, 1 <= lp o.
Proof. destruct o; cbn; lia. Qed.
Lemma chain_tok_bop : forall o, chain_tok (tok_bop o) = false.
Proof. destruct o; reflexivity. Qed.
Lemma refused_bop : forall o, refused (S (lvl_bin o)) (tok_bop o) = true.
Proof. intros o. unfold refused. rewrite classify_bop. apply Nat.ltb_lt. lia. Qed.

Lemma follow_left : forall o t, refused (S (lvl_bin o)) t = true -> chain_tok t = false ->
  forall a, lp o <= lvl a -> follow a t = true.
Proof.
  intros o t Hr Hn. apply (follow_bare (lp o) (S (lvl_bin o))); auto using bare_left_bin, bare_left_un.
  pose proof (lp_pos o). lia.
Qed.

(* `if` is refused wherever `or`, the loosest binary operator, is *)
Lemma follow_left_if : forall a, S lvl_tern <= lvl a -> follow a (TIdent (s2l "if")) = true.
Proof. apply (follow_left OOr); reflexivity. Qed.

(* the right edge of s is an operand b read at level p, bare unless w *)
Lemma followL_edge : forall s p (w : bool) b ts,
  (forall t, follow s t = refused p t && (if w then true else follow b t)) ->
  followL s ts = true -> refusedL p ts = true /\ (w = false -> followL b ts = true).
Proof.
  intros s p w b [|t ts] E H; [split; reflexivity|]. cbn [followL refusedL] in *. rewrite E in H.
  apply andb_prop in H. destruct H as [H1 H2]. split; [exact H1|]. intros ->. exact H2.
Qed.

Lemma nodup_names_NoDup : forall l, nodup_names l = true -> NoDup l.
Proof.
  induction l as [|x l IH]; cbn; intros H; constructor.
  - apply andb_prop in H. destruct H as [H _]. intros Hin.
    assert (existsb (str_eqb x) l = true).
    { apply existsb_exists. exists x. split; [exact Hin|apply str_eqb_refl]. }
    rewrite H0 in H. discriminate.
  - apply andb_prop in H. destruct H as [_ H]. auto.
Qed.

Lemma kw_mem_false : forall n (acc : list (str * expr)), ~ In n (map fst acc) -> kw_mem n acc = false.
Proof.
  intros n acc H. unfold kw_mem. destruct (existsb _ acc) eqn:E; [|reflexivity].
  apply existsb_exists in E. destruct E as (p & Hin & Heq). apply str_eqb_eq in Heq. subst.
  exfalso. apply H. apply in_map. exact Hin.
Qed.

(* One iteration of the loop, by conversion: a step lemma (`ml_bin`, `ml_tern`, ...) rewrites with it
   once for each token the loop acts on.  Likewise `kwargs_loop_S`, `chain_loop_S`, `array_loop_S`,
   `map_loop_S`. *)
Lemma loop_S : forall bp maxb P c min k neg lhs t ts1,
  loop bp maxb P c min (S k) neg lhs (t :: ts1) =
  match classify t with
  | LBreak => Some (lhs, t :: ts1)
  | LNot =>
      if lbp bp OIn <? min then Some (lhs, t :: ts1) else
      match hd_kw ts1 with KIn => loop bp maxb P c min k true lhs ts1 | _ => None end
  | LSub =>
      match parse_subscript maxb P c lhs (t :: ts1) with
      | Some (e, ts2) => loop bp maxb P c min k neg e ts2
      | None => None
      end
  | LIf =>
      if tern_l bp <? min then Some (lhs, t :: ts1) else
      match P c 0 ts1 with
      | Some (cnd, ts2) =>
          match hd_kw ts2 with
          | KElse => match P c 0 (tl ts2) with
                     | Some (f, ts3) => Some (ETern cnd lhs f, ts3)
                     | None => None
                     end
          | _ => None
          end
      | None => None
      end
  | LOp o =>
      if lbp bp o <? min then Some (lhs, t :: ts1) else
      let isnot := bop_eqb o OIs && (match hd_kw ts1 with KNot => true | _ => false end) in
      let neg1 := if isnot then true else neg in
      let ts2 := if isnot then tl ts1 else ts1 in
      let r :=
        if bop_eqb o OIs then
          match parse_named P c ts2 with
          | Some (n, kw, ts3) => Some (ETest lhs n kw, ts3) | None => None end
        else if bop_eqb o OPipe then
          match parse_named P c ts2 with
          | Some (n, kw, ts3) => Some (EFilter lhs n kw, ts3) | None => None end
        else
          match P c (rbp bp o) ts2 with
          | Some (rhs, ts3) =>
              if is_concat o && is_unary rhs then None else Some (EBin o lhs rhs, ts3)
          | None => None
          end in
      match r with
      | None => None
      | Some (e, ts3) => loop bp maxb P c min k false (if neg1 then EUn UNot e else e) ts3
      end
  end.
Proof. reflexivity. Qed.

Lemma wrap_len : forall p l ts, List.length ts <= List.length (wrap p l ts).
Proof.
  intros. unfold wrap, paren. destruct (l <? p); cbn; [rewrite app_length; cbn|]; lia.
Qed.

Lemma spine_wrap : forall p s j mid, spine s <= List.length (raw s) -> j <= List.length mid ->
  j + (if lvl s <? p then 0 else spine s) <= List.length (wrap p (lvl s) (raw s) ++ mid).
Proof.
  intros p s j mid H Hj. rewrite app_length. pose proof (wrap_len p (lvl s) (raw s)).
  destruct (lvl s <? p); lia.
Qed.

Lemma spine_le : forall s, spine s <= List.length (raw s).
Proof.
  induction s; cbn [spine raw]; try lia.
  1: destruct (is_chain s1); [lia|].
  2: destruct (is_chain s); [lia|].
  4: apply (spine_wrap _ _ 2); [assumption|cbn; lia].
  all: apply (spine_wrap _ _ 1); [assumption|cbn; lia].
Qed.

Lemma need_pos : forall s, 1 <= need s.
Proof. induction s; cbn [need]; lia. Qed.

(* separated items: `first` = no comma before the first one *)
Fixpoint stoks {A} (f : A -> list token) (first : bool) (l : list A) : list token :=
  match l with
  | [] => []
  | it :: r => (if first then [] else [TComma]) ++ f it ++ stoks f false r
  end.
Definition trailc (trail : bool) : list token := if trail then [TComma] else [].

Lemma sep_by_stoks : forall {A} (f : A -> list token) l, sep_by TComma (map f l) = stoks f true l.
Proof.
  intros A f. induction l as [|it r IH]; [reflexivity|].
  destruct r as [|y r'].
  - cbn. rewrite app_nil_r. reflexivity.
  - change (sep_by TComma (map f (it :: y :: r')))
      with (f it ++ TComma :: sep_by TComma (map f (y :: r'))).
    rewrite IH. reflexivity.
Qed.

Lemma stoks_len_f : forall {A} (f : A -> list token) l, List.length l <= List.length (stoks f false l).
Proof.
  intros A f. induction l as [|it r IH]; cbn [stoks List.length]; [lia|].
  rewrite !app_length. cbn [List.length]. lia.
Qed.
Lemma stoks_len : forall {A} (f : A -> list token) l first, List.length l <= S (List.length (stoks f first l)).
Proof.
  intros A f l first. destruct l as [|it r]; cbn [stoks List.length]; [lia|].
  rewrite !app_length. pose proof (stoks_len_f f r). destruct first; cbn [List.length]; lia.
Qed.

Lemma stoks_fuel : forall {A} (f : A -> list token) l first mid t (rest : list token),
  exists j, S (List.length (stoks f first l ++ mid ++ t :: rest)) = S (List.length l) + j.
Proof.
  intros A f l first mid t rest. exists (List.length (stoks f first l ++ mid ++ t :: rest) - List.length l).
  rewrite !app_length. cbn [List.length]. pose proof (stoks_len f l first). lia.
Qed.

Lemma stail : forall {A} (f : A -> list token) (r : list A) trail close ts,
  closer close = true /\ as_ident close = None ->
  let rest := stoks f false r ++ trailc trail ++ close :: ts in closerL rest = true /\ hd_kw rest = KPlain.
Proof.
  intros A f r trail close ts [Hc Hi]. destruct r; destruct trail; cbn [stoks trailc app]; split; try reflexivity;
    [exact Hc | cbn [hd_kw]; rewrite Hi; reflexivity].
Qed.

Lemma acc_snoc_nonempty : forall {A} (acc : list A) x,
  match acc ++ [x] with [] => true | _ => false end = false.
Proof. intros A acc x. destruct acc; reflexivity. Qed.

Definition dmap {A} (l : list (A * sx)) : list (A * expr) :=
  map (fun p : A * sx => match p with (k, v) => (k, desugar v) end) l.

(* decides every `hd_is (t :: r) b` / `tis t b` whose two tokens are constructors, by conversion *)
Ltac hdis :=
  repeat match goal with
  | |- context [hd_is (?t :: ?r) ?b] =>
      first [ change (hd_is (t :: r) b) with true | change (hd_is (t :: r) b) with false ]
  | |- context [tis ?t ?b] =>
      first [ change (tis t b) with true | change (tis t b) with false ]
  end; cbv beta iota; cbn [tl orb andb].

Section RoundTrip.
Variable bp : bp_table.
Hypothesis Hwf : wf_bp bp = true.
Variable maxb maxdim : nat.

Definition min_bp_cuts := wf_bp_spec bp Hwf.

Notation PA := (parse bp maxb maxdim).
Notation LOOP d := (loop bp maxb (parse bp maxb maxdim d)).
Notation BODYK d := (body_k bp maxb maxdim (parse bp maxb maxdim d)).

Lemma PA_S : forall d c min ts,
  PA (S d) c min ts = BODYK d c min (S (List.length ts)) ts.
Proof. reflexivity. Qed.

(* d: recursion levels left; c: the counters (open subscript brackets, array dimension);
   `okw p` for an operand printed where level p is required, so possibly inside parentheses *)
Definition fits (s : sx) (c : nat * nat) : Prop := fst c + needb s <= maxb /\ snd c + needa s <= maxdim.
Definition ok (d : nat) (c : nat * nat) (s : sx) : Prop := printable s = true /\ need s <= d /\ fits s c.
Definition okw (p d : nat) (c : nat * nat) (s : sx) : Prop :=
  printable s = true /\ needw p (lvl s) (need s) <= d /\ fits s c.

Definition okl {A} (d : nat) (c : nat * nat) (l : list (A * sx)) : Prop :=
  forallb (fun p : A * sx => match p with (_, v) => printable v end) l = true /\
  fold_right Nat.max 0 (map (fun p : A * sx => match p with (_, v) => need v end) l) <= d /\
  fst c + fold_right Nat.max 0 (map (fun p : A * sx => match p with (_, v) => needb v end) l) <= maxb /\
  snd c + fold_right Nat.max 0 (map (fun p : A * sx => match p with (_, v) => needa v end) l) <= maxdim.

Lemma add_max_le : forall p n m q, p + Nat.max n m <= q <-> p + n <= q /\ p + m <= q.
Proof. lia. Qed.
Lemma S_max_le : forall n m q, S (Nat.max n m) <= q <-> S n <= q /\ S m <= q.
Proof. lia. Qed.
Lemma add_S_max_le : forall p n m q, p + S (Nat.max n m) <= q <-> p + S n <= q /\ p + S m <= q.
Proof. lia. Qed.

(* `printable` of a term is the conjunction of that of its parts, `need`, `needb`, `needa` are maxima
   over the parts: split before `lia` sees them (it would try every combination of branches) *)
Ltac ok_flat :=
  intros *; unfold ok, okw, okl, fits; cbn [printable need needb needa fst snd];
  let P := fresh in let N := fresh in let B := fresh in let A := fresh in
  intros (P & N & B & A);
  rewrite ?andb_true_iff in P; repeat (rewrite S_max_le in N || rewrite Nat.max_lub_iff in N);
  repeat (rewrite add_S_max_le in B || rewrite add_max_le in B); rewrite ?add_max_le in A.
Ltac ok_parts := ok_flat; repeat split; tauto || lia.

Lemma ok_bin : forall d c o a b, ok d c (SBin o a b) -> okw (lp o) d c a /\ okw (rp o) (pred d) c b.
Proof. ok_parts. Qed.

Lemma ok_tern : forall d c cnd t f, ok d c (STern cnd t f) ->
  okw (S lvl_tern) d c t /\ ok (pred d) c cnd /\ ok (pred d) c f.
Proof. ok_parts. Qed.

Lemma ok_item : forall d c e i opt, ok d c (SItem e i opt) ->
  okw lvl_atom d c e /\ ok (pred d) (S (fst c), snd c) i.
Proof. ok_parts. Qed.

Definition osub (d : nat) (c : nat * nat) (o : option sx) : Prop :=
  match o with Some x => ok d (S (fst c), snd c) x | None => True end.

Lemma osub_intro : forall d c o,
  match o with Some x => printable x | None => true end = true ->
  match o with Some x => need x | None => 0 end <= d ->
  S (fst c) + match o with Some x => needb x | None => 0 end <= maxb ->
  snd c + match o with Some x => needa x | None => 0 end <= maxdim ->
  osub d c o.
Proof. intros d c [x|] Hp Hn Hb Ha; [repeat split; assumption|exact I]. Qed.

Lemma ok_slice : forall d c e a b cc opt, ok d c (SSlice e a b cc opt) ->
  okw lvl_atom d c e /\ S (fst c) <= maxb /\ osub (pred d) c a /\ osub (pred d) c b /\ osub (pred d) c cc.
Proof. ok_flat. repeat split; try apply osub_intro; tauto || lia. Qed.

Lemma chain_lvl : forall s, is_chain s = true -> lvl s = lvl_atom.
Proof. destruct s; cbn; intros; try discriminate; reflexivity. Qed.

Lemma wrap_chain : forall e, is_chain e = true -> wrap lvl_atom (lvl e) (raw e) = raw e.
Proof. intros e Hc. unfold wrap. rewrite (chain_lvl e Hc), Nat.ltb_irrefl. reflexivity. Qed.

Lemma okw_chain : forall d c e, is_chain e = true -> okw lvl_atom d c e -> ok d c e.
Proof. intros d c e Hc. unfold okw, needw. rewrite (chain_lvl e Hc), Nat.ltb_irrefl. exact (fun H => H). Qed.

Lemma okl_all : forall {A} d c (l : list (A * sx)), okl d c l -> Forall (ok d c) (map snd l).
Proof.
  intros A d c l. unfold okl. induction l as [|[n v] r IHl]; cbn [map snd forallb fold_right];
    intros (Hp & Hn & Hb & Ha); constructor; apply andb_prop in Hp; destruct Hp.
  - repeat split; auto; lia.
  - apply IHl; repeat split; auto; lia.
Qed.

Lemma max_le_l : forall a b c, Nat.max a b <= c -> a <= c. Proof. intros; lia. Qed.
Lemma max_le_r : forall a b c, Nat.max a b <= c -> b <= c. Proof. intros; lia. Qed.

Lemma fold_max_in : forall {A} (f : A -> nat) (l : list A) x, In x l -> f x <= fold_right Nat.max 0 (map f l).
Proof.
  intros A f l x. induction l as [|y l IH]; cbn [In map fold_right]; [tauto|].
  intros [->|H]; [|specialize (IH H)]; lia.
Qed.

Lemma starter_not_rbrace : forall t r, starter t = true -> hd_is (t :: r) TRBrace = false.
Proof. intros t r H. apply starter_not; [exact H|reflexivity]. Qed.

Lemma closerL_refusedL : forall p ts, closerL ts = true -> refusedL p ts = true.
Proof. intros p [|t ts] H; [reflexivity|]. cbn in *. apply closer_refused; exact H. Qed.
Lemma closerL_followL : forall s ts, closerL ts = true -> followL s ts = true.
Proof. intros s [|t ts] H; [reflexivity|]. cbn in *. apply follow_closer; exact H. Qed.

(* what a parse with d levels left does with an operand printed where level p is required *)
Definition TOPat (d : nat) : Prop := forall s c min p ts,
  thr_ok bp min p = true -> okw p d c s ->
  refusedL p ts = true -> (lvl s <? p = false -> followL s ts = true) ->
  PA d c min (wrap p (lvl s) (raw s) ++ ts) = Some (desugar s, ts).

Section Level.
Variable d : nat.
Hypothesis SUB : TOPat d.

Lemma sub_bare : forall s c min p ts,
  thr_ok bp min p = true -> p <= lvl s -> ok d c s ->
  refusedL p ts = true -> followL s ts = true ->
  PA d c min (raw s ++ ts) = Some (desugar s, ts).
Proof.
  intros s c min p ts Hthr Hp Hok Hr Hfo. pose proof (SUB s c min p ts Hthr) as H.
  unfold wrap, okw, needw in H. rewrite (proj2 (Nat.ltb_ge _ _) Hp) in H. auto.
Qed.

Lemma sub_closer : forall s c r, ok d c s -> closerL r = true ->
  PA d c 0 (raw s ++ r) = Some (desugar s, r).
Proof.
  intros s c r Hok Hc.
  apply (sub_bare s c 0 0 r); auto using Nat.le_0_l, closerL_refusedL, closerL_followL.
Qed.

Lemma infix_not_is : forall o, infix o = true -> bop_eqb o OIs = false /\ bop_eqb o OPipe = false.
Proof. destruct o; cbn; intros; try discriminate; auto. Qed.

Lemma hd_kw_ident : forall s r, hd_kw (TIdent s :: r) = kw_of s.
Proof. reflexivity. Qed.

Lemma parse_unary_eq : forall P c u ts, starts_unary ts = false ->
  parse_unary bp P c u ts =
  match P c (un_bp bp u) ts with Some (e, ts') => Some (EUn u e, ts') | None => None end.
Proof.
  intros P c u [|t r] H; [reflexivity|]. unfold parse_unary.
  destruct t; try discriminate H; try reflexivity.
  cbn in *. destruct (kw_of s); try discriminate H; reflexivity.
Qed.

(* The loops of parse_kwargs, parse_array and parse_map on a printed separated list: LP is the loop,
   `fin acc ts` what it returns at the closing token; Inv relates what has been read to what is left
   (the argument names stay distinct; nothing for the other two). *)
Section SepLoop.
Context {A Res : Type}.
Variables (LP : nat -> list (A * expr) -> list token -> option Res)
          (f : A * sx -> list token) (close : token) (fin : list (A * expr) -> list token -> Res)
          (c : nat * nat) (Inv : list (A * expr) -> list (A * sx) -> Prop).
Hypothesis Hclose : closer close = true /\ as_ident close = None.
Hypothesis LP_end : forall k acc (trail : bool) ts, (trail = true -> acc <> []) ->
  LP (S k) acc (trailc trail ++ close :: ts) = Some (fin acc ts).
Hypothesis LP_item : forall k acc a v r rest,
  ok d c v -> Inv acc ((a, v) :: r) -> closerL rest = true -> hd_kw rest = KPlain ->
  LP (S k) acc ((if match acc with [] => true | _ => false end then [] else [TComma]) ++ f (a, v) ++ rest)
  = LP k (acc ++ [(a, desugar v)]) rest.
Hypothesis Inv_step : forall acc a v r, Inv acc ((a, v) :: r) -> Inv (acc ++ [(a, desugar v)]) r.

Lemma sep_loop_ok : forall l acc j trail ts,
  Forall (ok d c) (map snd l) -> Inv acc l -> (trail = true -> acc <> [] \/ l <> []) ->
  LP (S (List.length l) + j) acc
     (stoks f (match acc with [] => true | _ => false end) l ++ trailc trail ++ close :: ts)
  = Some (fin (acc ++ dmap l) ts).
Proof.
  induction l as [|[a v] r IH]; intros acc j trail ts HF HI HT.
  - cbn [stoks app dmap map]. rewrite app_nil_r. apply LP_end. intros E. destruct (HT E); congruence.
  - inversion HF as [|x l' Hg HF']; subst. cbn [stoks]. rewrite <- !app_assoc.
    change (S (List.length ((a, v) :: r)) + j) with (S (S (List.length r) + j)).
    destruct (stail f r trail close ts Hclose) as [Hc Hk]. rewrite (LP_item _ _ _ _ r _ Hg HI Hc Hk).
    rewrite <- (acc_snoc_nonempty acc (a, desugar v)), IH; auto.
    + rewrite <- app_assoc. reflexivity.
    + intros _. left. destruct acc; discriminate.
Qed.
End SepLoop.

Definition kwitem (p : str * sx) : list token := match p with (k, v) => TIdent k :: TAssign :: raw v end.

Lemma kwargs_loop_S : forall P k c acc ts,
  kwargs_loop P (S k) c acc ts =
    if hd_is ts TRParen then Some (acc, ts) else
    let after_comma :=
      match acc with
      | [] => Some ts
      | _ => if hd_is ts TComma then Some (tl ts) else None
      end in
    match after_comma with
    | None => None
    | Some ts1 =>
      if hd_is ts1 TRParen then Some (acc, ts1) else
      match ts1 with
      | t1 :: t2 :: ts2 =>
          match as_ident t1 with
          | Some n =>
              if tis t2 TAssign then
                if kw_mem n acc then None else
                match P c 0 ts2 with
                | Some (v, ts3) => kwargs_loop P k c (acc ++ [(n, v)]) ts3
                | None => None
                end
              else None
          | None => None
          end
      | _ => None
      end
    end.
Proof. reflexivity. Qed.

Lemma parse_kwargs_ok : forall c kw ts,
  okl d c kw -> nodup_names (map fst kw) = true ->
  parse_kwargs (PA d) c (paren (sep_by TComma (map kwitem kw)) ++ ts) = Some (dmap kw, ts).
Proof.
  intros c kw ts HF HN. apply okl_all in HF. apply nodup_names_NoDup in HN.
  unfold parse_kwargs, paren. cbn [app]. hdis.
  rewrite sep_by_stoks, <- app_assoc. cbn [app List.length].
  destruct (stoks_fuel kwitem kw true [] TRParen ts) as [j Hj]. cbn [app] in Hj. rewrite Hj, <- Nat.add_succ_r.
  change (TRParen :: ts) with (trailc false ++ TRParen :: ts).
  rewrite (sep_loop_ok (fun k => kwargs_loop (PA d) k c) kwitem TRParen (fun acc ts => (acc, TRParen :: ts)) c
             (fun acc l => NoDup (map fst acc ++ map fst l))) with (acc := []) (trail := false);
    auto; try discriminate.
  - (* LP_end *) intros k [|a0 acc] [|] ts0 H; try reflexivity. destruct (H eq_refl); reflexivity.
  - (* LP_item *) intros k acc n v r rest Hg HI Hc _.
    assert (Hmem : kw_mem n acc = false).
    { apply kw_mem_false. cbn [map fst] in HI. apply NoDup_remove_2 in HI.
      intros Hin. apply HI. apply in_or_app. left. exact Hin. }
    rewrite kwargs_loop_S.
    destruct acc as [|a0 acc0]; cbn [kwitem app]; hdis; cbv zeta; hdis; cbn [as_ident];
      rewrite ?Hmem; change (kw_mem n []) with false; cbv iota; rewrite (sub_closer v c rest Hg Hc); reflexivity.
  - (* Inv_step *) intros acc n v r HI. rewrite map_app. cbn [map fst]. rewrite <- app_assoc. exact HI.
Qed.

Definition kwpart (kw : list (str * sx)) : list token :=
  match kw with [] => [] | _ => paren (sep_by TComma (map kwitem kw)) end.

Lemma parse_named_ok : forall s c n kw ts,
  okl d c kw -> nodup_names (map fst kw) = true ->
  (forall t, follow s t = match kw with [] => negb (is_lparen t) | _ => true end) -> followL s ts = true ->
  parse_named (PA d) c (TIdent n :: kwpart kw ++ ts) = Some (n, dmap kw, ts).
Proof.
  intros s c n kw ts HF HN Hs Hfo. unfold parse_named. cbn [as_ident].
  destruct kw as [|it r].
  - cbn [kwpart app]. destruct ts as [|t ts0]; [reflexivity|]. cbn [followL] in Hfo. rewrite Hs in Hfo.
    assert (hd_is (t :: ts0) TLParen = false) by (destruct t; try reflexivity; discriminate Hfo).
    rewrite H. reflexivity.
  - unfold kwpart. change (hd_is (paren _ ++ ts) TLParen) with true. cbv iota. rewrite parse_kwargs_ok; auto.
Qed.

Lemma raw_call : forall n kw,
  raw (SCall n kw) = TIdent n :: paren (sep_by TComma (map kwitem kw)).
Proof. reflexivity. Qed.
Lemma desugar_test : forall e n kw neg,
  desugar (STest e n kw neg) =
  if neg then EUn UNot (ETest (desugar e) n (dmap kw)) else ETest (desugar e) n (dmap kw).
Proof. intros. destruct neg; reflexivity. Qed.
Lemma desugar_filter : forall e n kw, desugar (SFilter e n kw) = EFilter (desugar e) n (dmap kw).
Proof. reflexivity. Qed.
Lemma desugar_call : forall n kw, desugar (SCall n kw) = ECall n (dmap kw).
Proof. reflexivity. Qed.

Lemma subscript_item_ok : forall c e i (opt : bool) ts,
  ok (S d) c (SItem e i opt) ->
  parse_subscript maxb (PA d) c (desugar e) ((if opt then TQLBracket else TLBracket) :: raw i ++ TRBracket :: ts)
  = Some (desugar (SItem e i opt), ts).
Proof.
  intros c e i opt ts Hok. destruct (ok_item _ _ _ _ _ Hok) as [_ Hg].
  pose proof Hg as (Hp & _ & Hb & _). cbn [fst] in Hb.
  unfold parse_subscript.
  assert (Hm : maxb <? S (fst c) = false) by (apply Nat.ltb_ge; lia).
  destruct opt; hdis; rewrite Hm, (hd_raw_not i _ TColon Hp eq_refl); unfold sub_opt;
    rewrite (sub_closer i _ (TRBracket :: ts) Hg eq_refl); hdis; reflexivity.
Qed.

Definition oraw (o : option sx) : list token := match o with Some x => raw x | None => [] end.
Definition slice_toks (a b c : option sx) : list token :=
  oraw a ++ [TColon] ++ oraw b ++ match c with Some x => TColon :: raw x | None => [] end ++ [TRBracket].
Lemma raw_slice : forall e a b c opt,
  raw (SSlice e a b c opt) =
  wrap lvl_atom (lvl e) (raw e) ++ [if opt then TQLBracket else TLBracket] ++ slice_toks a b c.
Proof. reflexivity. Qed.

(* `stop` is the parser's test for the token that ends a bound of a slice: the bound is absent
   exactly when that token comes at once *)
Lemma sub_opt_ok : forall c o (stop : list token -> bool) r,
  osub d c o -> closerL r = true -> stop r = true ->
  (forall x, printable x = true -> stop (raw x ++ r) = false) ->
  sub_opt (PA d) (S (fst c), snd c) (stop (oraw o ++ r)) (oraw o ++ r) = Some (option_map desugar o, r).
Proof.
  intros c [x|] stop r G Hc Hs Hx; unfold sub_opt; cbn [oraw app option_map].
  - rewrite (Hx x), (sub_closer x _ r G Hc) by apply G. reflexivity.
  - rewrite Hs. reflexivity.
Qed.

Lemma subscript_slice_ok : forall c e a b cc (opt : bool) ts,
  ok (S d) c (SSlice e a b cc opt) ->
  parse_subscript maxb (PA d) c (desugar e) ((if opt then TQLBracket else TLBracket) :: slice_toks a b cc ++ ts)
  = Some (desugar (SSlice e a b cc opt), ts).
Proof.
  intros c e a b cc opt ts Hok. destruct (ok_slice _ _ _ _ _ _ _ Hok) as (_ & Hb & Ga & Gb & Gc).
  assert (Hm : maxb <? S (fst c) = false) by (apply Nat.ltb_ge; lia).
  unfold parse_subscript, slice_toks. rewrite <- !app_assoc. cbn [app].
  destruct opt; hdis; rewrite Hm;
    rewrite (sub_opt_ok c a (fun l => hd_is l TColon))
      by (assumption || reflexivity || (intros; apply hd_raw_not; auto)); hdis;
    destruct cc as [xc|]; cbn [app option_map];
    rewrite (sub_opt_ok c b (fun l => hd_is l TColon || hd_is l TRBracket))
      by (assumption || reflexivity || (intros; rewrite !hd_raw_not; auto)); hdis;
    rewrite ?(sub_closer xc _ (TRBracket :: ts) Gc eq_refl); hdis; reflexivity.
Qed.

Lemma chain_loop_S : forall P k c e t ts1,
  chain_loop maxb P (S k) c e (t :: ts1) =
      if tis t TDot || tis t TQDot then
        match ts1 with
        | t2 :: ts2 =>
            match as_ident t2 with
            | Some a => chain_loop maxb P k c (EAttr e a (tis t TQDot)) ts2
            | None => None
            end
        | [] => None
        end
      else if tis t TLBracket || tis t TQLBracket then
        match parse_subscript maxb P c e (t :: ts1) with Some (e', ts2) => chain_loop maxb P k c e' ts2 | None => None end
      else if tis t TLParen then None
      else Some (e, t :: ts1).
Proof. reflexivity. Qed.

Lemma chain_loop_stop : forall P k c e ts,
  (match ts with t :: _ => chain_tok t = false | [] => True end) ->
  chain_loop maxb P (S k) c e ts = Some (e, ts).
Proof.
  intros P k c e [|t ts1] H; [reflexivity|].
  rewrite chain_loop_S. destruct t; cbn in H; try discriminate; reflexivity.
Qed.

Fixpoint clen (s : sx) : nat :=
  match s with
  | SAttr e _ _ | SItem e _ _ | SSlice e _ _ _ _ => S (clen e)
  | _ => 0
  end.

Lemma clen_lt : forall s, clen s < List.length (raw s).
Proof.
  induction s; cbn [clen raw]; unfold paren; rewrite ?app_length; cbn [List.length]; try lia.
  - pose proof (wrap_len lvl_atom (lvl s1) (raw s1)). lia.
  - pose proof (wrap_len lvl_atom (lvl s) (raw s)). lia.
Qed.

Lemma follow_atom_bracket : forall e,
  is_chain e = false -> printable e = true -> lvl_atom <= lvl e -> follow e TLBracket = true.
Proof.
  intros e Hc Hp Hl.
  destruct e; cbn [is_chain follow lvl printable] in *; try reflexivity; try discriminate;
    try (rewrite Hc; reflexivity); try (cbv in Hl; lia).
  - apply andb_prop in Hp. destruct Hp as [Hp _]. congruence.
  - destruct u; cbv in Hl; lia.
  - destruct o; cbv in Hl; lia.
Qed.

Definition aitem (it : bool * sx) : list token :=
  match it with (b, v) => (if b then [TSpread] else []) ++ raw v end.

Lemma raw_arr : forall items trail,
  raw (SArr items trail) = TLBracket :: sep_by TComma (map aitem items) ++ trailc trail ++ [TRBracket].
Proof. reflexivity. Qed.
Lemma desugar_arr : forall items trail, desugar (SArr items trail) = fold_array (dmap items).
Proof. reflexivity. Qed.

Lemma array_loop_S : forall P k c0 c1 items ts,
  array_loop bp P (S k) c0 c1 items ts =
    if hd_is ts TRBracket then Some (fold_array items, tl ts) else
    let after_comma :=
      match items with
      | [] => Some ts
      | _ => if hd_is ts TComma then Some (tl ts) else None
      end in
    match after_comma with
    | None => None
    | Some ts1 =>
      if hd_is ts1 TRBracket then Some (fold_array items, tl ts1) else
      if hd_is ts1 TSpread then
        match P c1 0 (tl ts1) with
        | Some (e, ts2) => array_loop bp P k c0 c1 (items ++ [(true, e)]) ts2
        | None => None
        end
      else
        match P c1 0 ts1 with
        | Some (e, ts2) =>
            let is_for := match items with [] => match hd_kw ts2 with KFor => true | _ => false end | _ => false end in
            if is_for then parse_comp bp P c0 e ts2
            else array_loop bp P k c0 c1 (items ++ [(false, e)]) ts2
        | None => None
        end
    end.
Proof. reflexivity. Qed.

Lemma parse_array_ok : forall c items trail ts,
  Forall (ok d (fst c, S (snd c))) (map snd items) -> S (snd c) <= maxdim ->
  (trail = true -> items <> []) ->
  parse_array bp maxdim (PA d) c (stoks aitem true items ++ trailc trail ++ TRBracket :: ts)
  = Some (fold_array (dmap items), ts).
Proof.
  intros c items trail ts HF Hm HT. unfold parse_array.
  rewrite (proj2 (Nat.ltb_ge _ _) Hm).
  destruct (stoks_fuel aitem items true (trailc trail) TRBracket ts) as [j Hj]. rewrite Hj.
  apply (sep_loop_ok (fun k => array_loop bp (PA d) k c (fst c, S (snd c))) aitem TRBracket
           (fun acc ts => (fold_array acc, ts)) (fst c, S (snd c)) (fun _ _ => True)) with (acc := []); auto.
  - (* LP_end *) intros k [|a0 acc] [|] ts0 H; try reflexivity. destruct (H eq_refl); reflexivity.
  - (* LP_item *) intros k acc b v r rest Hg _ Hc HkR. pose proof Hg as (Hp & _).
    rewrite array_loop_S.
    destruct acc as [|a0 acc0]; destruct b; cbn [aitem app]; hdis; cbv beta iota zeta; hdis;
      rewrite ?(hd_raw_not v rest TRBracket Hp eq_refl), ?(hd_raw_not v rest TSpread Hp eq_refl);
      rewrite (sub_closer v _ rest Hg Hc); cbv beta iota zeta; rewrite ?HkR; reflexivity.
Qed.

Lemma nonempty_ne : forall {A} (l : list A) (trail : bool),
  (if trail then nonempty l else true) = true -> trail = true -> l <> [].
Proof. intros A l trail H E. subst. destruct l; [discriminate|congruence]. Qed.

Definition mitem (en : option mkey * sx) : list token :=
  match en with
  | (Some k, v) => tok_mkey k :: TColon :: raw v
  | (None, v) => TSpread :: raw v
  end.

Lemma raw_map : forall es trail,
  raw (SMap es trail) = TLBrace :: sep_by TComma (map mitem es) ++ trailc trail ++ [TRBrace].
Proof. reflexivity. Qed.
Lemma desugar_map : forall es trail, desugar (SMap es trail) = fold_map (dmap es).
Proof. reflexivity. Qed.

Lemma map_loop_S : forall P k c es ts,
  map_loop P (S k) c es ts =
    if hd_is ts TRBrace then Some (fold_map es, tl ts) else
    let after_comma :=
      match es with
      | [] => Some ts
      | _ => if hd_is ts TComma then Some (tl ts) else None
      end in
    match after_comma with
    | None => None
    | Some ts1 =>
      if hd_is ts1 TRBrace then Some (fold_map es, tl ts1) else
      if hd_is ts1 TSpread then
        match P c 0 (tl ts1) with
        | Some (e, ts2) => map_loop P k c (es ++ [(None, e)]) ts2
        | None => None
        end
      else
        match ts1 with
        | t :: ts1' =>
            match mkey_of_tok t with
            | Some key =>
                if hd_is ts1' TColon then
                  match P c 0 (tl ts1') with
                  | Some (e, ts2) => map_loop P k c (es ++ [(Some key, e)]) ts2
                  | None => None
                  end
                else None
            | None => None
            end
        | [] => None
        end
    end.
Proof. reflexivity. Qed.

Lemma parse_map_ok : forall c es trail ts,
  Forall (ok d c) (map snd es) -> (trail = true -> es <> []) ->
  parse_map (PA d) c (stoks mitem true es ++ trailc trail ++ TRBrace :: ts)
  = Some (fold_map (dmap es), ts).
Proof.
  intros c es trail ts HF HT. unfold parse_map.
  destruct (stoks_fuel mitem es true (trailc trail) TRBrace ts) as [j Hj]. rewrite Hj.
  apply (sep_loop_ok (fun k => map_loop (PA d) k c) mitem TRBrace
           (fun acc ts => (fold_map acc, ts)) c (fun _ _ => True)) with (acc := []); auto.
  - (* LP_end *) intros k [|a0 acc] [|] ts0 H; try reflexivity. destruct (H eq_refl); reflexivity.
  - (* LP_item *) intros k acc ko v r rest Hg _ Hc _.
    rewrite map_loop_S.
    destruct acc as [|a0 acc0]; destruct ko as [[ks|kz|kb]|]; cbn [mitem tok_mkey app]; hdis; cbv beta iota zeta; hdis;
      cbn [mkey_of_tok]; cbv beta iota zeta; hdis; rewrite (sub_closer v c rest Hg Hc); reflexivity.
Qed.

Definition comp_names (k : option str) (v : str) : list token :=
  match k with Some k => [TIdent k; TComma; TIdent v] | None => [TIdent v] end.
Definition comp_cond (cond : option sx) : list token :=
  match cond with Some c => TIdent (s2l "if") :: wrap (S lvl_tern) (lvl c) (raw c) | None => [] end.
Lemma raw_comp : forall e k v target cond,
  raw (SComp e k v target cond) =
  TLBracket :: raw e ++ TIdent (s2l "for") :: comp_names k v ++
  TIdent (s2l "in") :: wrap (S lvl_tern) (lvl target) (raw target) ++ comp_cond cond ++ [TRBracket].
Proof. reflexivity. Qed.

(* target and condition of a comprehension: parsed at TERNARY_L_BP + 1, so printed at level 1 *)
Lemma comp_operand_ok : forall c x r, okw (S lvl_tern) d c x ->
  refusedL 1 r = true -> (S lvl_tern <= lvl x -> followL x r = true) ->
  PA d c (S (tern_l bp)) (wrap (S lvl_tern) (lvl x) (raw x) ++ r) = Some (desugar x, r).
Proof.
  intros c x r Hok Hc Hfo. apply (SUB x c (S (tern_l bp)) 1 r); auto.
  - apply min_bp_cuts.
  - intros E. apply Hfo. apply Nat.ltb_ge. exact E.
Qed.

Lemma parse_comp_ok : forall c e' k v target cond ts,
  is_reserved v = false -> match k with Some k' => is_reserved k' = false | None => True end ->
  okw (S lvl_tern) d c target ->
  match cond with Some x => okw (S lvl_tern) d c x | None => True end ->
  parse_comp bp (PA d) c e'
    (TIdent (s2l "for") :: comp_names k v ++
     TIdent (s2l "in") :: wrap (S lvl_tern) (lvl target) (raw target) ++ comp_cond cond ++ TRBracket :: ts)
  = Some (EComp e' k v (desugar target) (option_map desugar cond), ts).
Proof.
  intros c e' k v target cond ts Hv Hk Hot Hc.
  assert (Hrest : PA d c (S (tern_l bp))
                    (wrap (S lvl_tern) (lvl target) (raw target) ++ comp_cond cond ++ TRBracket :: ts)
                  = Some (desugar target, comp_cond cond ++ TRBracket :: ts)).
  { apply comp_operand_ok; auto.
    - destruct cond; reflexivity.
    - intros E. destruct cond as [x|]; cbn [comp_cond app followL];
        [apply follow_left_if; exact E|apply follow_closer; reflexivity]. }
  assert (Hcond : match hd_kw (comp_cond cond ++ TRBracket :: ts) with
                  | KIf => match PA d c (S (tern_l bp)) (tl (comp_cond cond ++ TRBracket :: ts)) with
                           | Some (cd, ts6) => Some (Some cd, ts6) | None => None end
                  | _ => Some (None, comp_cond cond ++ TRBracket :: ts)
                  end = Some (option_map desugar cond, TRBracket :: ts)).
  { destruct cond as [x|]; cbn [comp_cond app option_map]; [|reflexivity].
    rewrite hd_kw_ident, kw_if. cbn [tl].
    rewrite (comp_operand_ok c x (TRBracket :: ts) Hc eq_refl); [reflexivity|].
    intros _. apply follow_closer. reflexivity. }
  unfold parse_comp.
  destruct k as [k'|]; cbn [comp_names app as_ident];
    [rewrite Hk; hdis; cbv beta iota zeta; cbn [tl as_ident]|];
    rewrite Hv; hdis; cbv beta iota zeta;
    rewrite hd_kw_ident, kw_in; cbn [tl]; rewrite Hrest; cbv beta iota zeta; rewrite Hcond; hdis; reflexivity.
Qed.

(* One frame: its counters c and its threshold min, which cuts at level p, stay while it reads on. *)
Section Frame.
Variables (c : nat * nat) (min p : nat).
Hypothesis Hthr : thr_ok bp min p = true.

Definition MLp (s : sx) : Prop := forall k ts,
  p <= lvl s -> ok (S d) c s -> followL s ts = true ->
  BODYK d c min (S k + spine s) (raw s ++ ts) = LOOP d c min (S k) false (desugar s) ts.

Lemma takes : forall o, p <= lvl_bin o -> (lbp bp o <? min) = false.
Proof. intros o H. rewrite (thr_bin _ _ _ o Hthr). apply Nat.ltb_ge, H. Qed.

Lemma body_paren : forall e K ts, ok d c e ->
  BODYK d c min K (paren (raw e) ++ ts) = LOOP d c min K false (desugar e) ts.
Proof.
  intros e K ts Hok. unfold paren, body_k, Pratt.prefix. cbn [app]. rewrite <- app_assoc. cbn [app].
  rewrite (sub_closer e c (TRParen :: ts) Hok eq_refl). reflexivity.
Qed.

Lemma left_op : forall a pa, MLp a ->
  forall k ts, p <= pa -> okw pa (S d) c a -> (pa <= lvl a -> followL a ts = true) ->
  BODYK d c min (S k + (if lvl a <? pa then 0 else spine a)) (wrap pa (lvl a) (raw a) ++ ts)
  = LOOP d c min (S k) false (desugar a) ts.
Proof.
  intros a pa ML k ts Hp (Hpr & Hn & Hf) Hfo.
  unfold wrap, needw in *. destruct (lvl a <? pa) eqn:E.
  - rewrite Nat.add_0_r. apply body_paren. split; [|split]; auto; lia.
  - apply Nat.ltb_ge in E. apply ML; auto; [lia|split; auto].
Qed.

(* The text of s is its left operand a (printed where level pa is required), then a token t the
   loop acts on, then m: the frame reads a, and j iterations of its loop turn `desugar a` into
   `desugar s`. *)
Lemma ml_spine : forall s a pa j t m,
  MLp a ->
  raw s = wrap pa (lvl a) (raw a) ++ t :: m ->
  spine s = j + (if lvl a <? pa then 0 else spine a) ->
  lvl s <= pa ->
  (ok (S d) c s -> okw pa (S d) c a) ->
  (printable a = true -> pa <= lvl a -> follow a t = true) ->
  (forall k ts, p <= lvl s -> ok (S d) c s -> followL s ts = true ->
     LOOP d c min (S (j + k)) false (desugar a) (t :: m ++ ts) = LOOP d c min (S k) false (desugar s) ts) ->
  MLp s.
Proof.
  intros s a pa j t m ML Eraw Esp Hlv Hsub Hfa Hstep k ts Hp Hok Hfo.
  rewrite Eraw, Esp, <- app_assoc, Nat.add_assoc, (Nat.add_comm (S k) j), Nat.add_succ_r. cbn [app].
  rewrite (left_op a pa ML); [apply Hstep; assumption | lia | apply Hsub, Hok | apply Hfa, (Hsub Hok)].
Qed.

Lemma unprintable_ml : forall s, printable s = false -> MLp s.
Proof. intros s H k ts _ (Hp & _). congruence. Qed.

Lemma ml_prefix : forall s, spine s = 0 ->
  (forall ts, ok (S d) c s -> followL s ts = true ->
     Pratt.prefix bp maxb maxdim (PA d) c (raw s ++ ts) = Some (desugar s, ts)) ->
  MLp s.
Proof.
  intros s Hsp Hpre k ts _ Hok Hfo.
  rewrite Hsp, Nat.add_0_r. unfold body_k. rewrite (Hpre ts Hok Hfo). reflexivity.
Qed.

Lemma ml_const : forall x, MLp (SConst x).
Proof.
  intros x. apply ml_prefix; [reflexivity|]. intros ts (Hpr & _) _.
  destruct x; try discriminate Hpr; reflexivity.
Qed.

Lemma ml_paren : forall e, MLp (SParen e).
Proof.
  intros e k ts Hp Hok Hfo.
  cbn [spine raw desugar]. rewrite Nat.add_0_r. apply body_paren. revert Hok. ok_parts.
Qed.

Lemma ml_un : forall u e, MLp (SUn u e).
Proof.
  intros u e. apply ml_prefix; [reflexivity|]. intros ts (Hpr & Hn & Hf) Hfo.
  destruct (followL_edge (SUn u e) _ _ e _ (fun _ => eq_refl) Hfo) as [Hr Hfe].
  assert (Hpu : forall rest, Pratt.prefix bp maxb maxdim (PA d) c (tok_unop u :: rest)
                             = parse_unary bp (PA d) c u rest) by (intros; destruct u; reflexivity).
  cbn [printable need raw desugar] in *. cbn [app]. rewrite Hpu.
  destruct ((lvl e <? lvl_un u) || starts_unary (raw e)) eqn:E.
  - (* in parentheses: the bare text of `SParen e`.  Behind the rewritten goal come the premises of
       sub_bare in its order: threshold, bare at lvl_un u, ok, refusedL, followL *)
    rewrite parse_unary_eq by reflexivity. change (paren (raw e)) with (raw (SParen e)).
    rewrite (sub_bare (SParen e) c (un_bp bp u) (lvl_un u) ts);
      [reflexivity | apply min_bp_cuts | destruct u; cbv; lia | split; [|split]; auto; cbn [need]; lia | exact Hr | destruct ts; reflexivity].
  - apply orb_false_elim in E. destruct E as [E1 E2]. apply Nat.ltb_ge in E1.
    rewrite parse_unary_eq.
    + rewrite (sub_bare e c (un_bp bp u) (lvl_un u) ts);
        [reflexivity | apply min_bp_cuts | exact E1 | split; [|split]; auto; lia | exact Hr | exact (Hfe eq_refl)].
    + destruct (raw_hd e Hpr) as (t & r & Er & _). rewrite Er in *. exact E2.
Qed.

(* neg: after the `not` of `not in` *)
Lemma loop_infix : forall o a b k neg lhs ts,
  p <= lvl_bin o -> ok (S d) c (SBin o a b) -> followL (SBin o a b) ts = true ->
  LOOP d c min (S k) neg lhs (tok_bop o :: wrap (rp o) (lvl b) (raw b) ++ ts)
  = LOOP d c min k false (if neg then EUn UNot (EBin o lhs (desugar b)) else EBin o lhs (desugar b)) ts.
Proof.
  intros o a b k neg lhs ts Hp Hok Hfo.
  destruct (followL_edge (SBin o a b) _ _ b _ (fun _ => eq_refl) Hfo) as [Hrb Hfb].
  destruct (ok_bin _ _ _ _ _ Hok) as [_ Hob].
  destruct Hok as (Hpr & _). cbn [printable] in Hpr. rewrite !andb_true_iff in Hpr. destruct Hpr as [[Ho _] _].
  assert (Hinf : infix o = true) by (destruct o; try discriminate; reflexivity).
  assert (Hcc : is_concat o && is_unary (desugar b) = false).
  { destruct o; try reflexivity. apply negb_true_iff in Ho. exact Ho. }
  destruct (infix_not_is o Hinf) as [Hnis Hnpipe].
  rewrite loop_S, classify_bop, (takes o Hp), Hnis, Hnpipe.
  cbn [andb]. cbv zeta.
  rewrite (SUB b c (rbp bp o) (rp o) ts), Hcc; auto. apply min_bp_cuts, Hinf.
Qed.

Lemma ml_bin : forall o a b, MLp a -> MLp (SBin o a b).
Proof.
  intros o a b MLa.
  apply (ml_spine _ a (lp o) 1 (tok_bop o) (wrap (rp o) (lvl b) (raw b))); auto.
  - apply lp_ge.
  - intros H. apply ok_bin in H. apply H.
  - intros _. apply follow_left; auto using refused_bop, chain_tok_bop.
  - intros k ts Hp Hok Hfo. apply (loop_infix o a b (S k) false); assumption.
Qed.

(* `SNotIn a b` has the side conditions of `SBin OIn a b`, by conversion *)
Lemma ml_notin : forall a b, MLp a -> MLp (SNotIn a b).
Proof.
  intros a b MLa.
  apply (ml_spine _ a (lp OIn) 2 (TIdent (s2l "not")) (TIdent (s2l "in") :: wrap (rp OIn) (lvl b) (raw b)));
    auto.
  - intros H. apply (ok_bin _ c OIn a b H).
  - intros _. apply (follow_left OIn); reflexivity.
  - intros k ts Hp Hok Hfo. cbn [plus app].
    rewrite loop_S. change (classify (TIdent (s2l "not"))) with LNot. cbv iota.
    rewrite (takes OIn Hp), hd_kw_ident, kw_in. cbv iota.
    apply (loop_infix OIn a b (S k) true); assumption.
Qed.

Lemma ml_tern : forall cnd t f, MLp t -> MLp (STern cnd t f).
Proof.
  intros cnd t f MLt.
  apply (ml_spine _ t (S lvl_tern) 1 (TIdent (s2l "if")) (raw cnd ++ TIdent (s2l "else") :: raw f)); auto.
  - intros H. apply ok_tern in H. apply H.
  - intros _. apply follow_left_if.
  - intros k ts Hp Hok Hfo.
    destruct (followL_edge (STern cnd t f) 0 false f _ (fun _ => eq_refl) Hfo) as [Hrb Hfb].
    destruct (ok_tern _ _ _ _ _ Hok) as (_ & Hoc & Hof).
    (* the ternary is let through at level 0 only; once past it the loop returns *)
    cbn [lvl] in Hp. assert (E : p = 0) by (unfold lvl_tern in Hp; lia).
    rewrite (loop_stop bp maxb _ c min p k _ ts Hthr) by (rewrite E; exact Hrb).
    cbn [plus desugar]. rewrite loop_S. change (classify (TIdent (s2l "if"))) with LIf. cbv iota.
    rewrite (thr_tern _ _ _ Hthr), (proj2 (Nat.ltb_ge _ _) Hp).
    rewrite <- app_assoc. cbn [app].
    rewrite (sub_closer cnd c (TIdent (s2l "else") :: raw f ++ ts) Hoc eq_refl).
    rewrite hd_kw_ident, kw_else. cbv iota. cbn [tl].
    rewrite (sub_bare f c 0 0 ts); auto using Nat.le_0_l.
Qed.

Lemma ml_test : forall e n kw neg, MLp e -> MLp (STest e n kw neg).
Proof.
  intros e n kw neg MLe.
  apply (ml_spine _ e (lp OIs) 1 (TIdent (s2l "is"))
           ((if neg then [TIdent (s2l "not")] else []) ++ TIdent n :: kwpart kw)); auto.
  - ok_parts.
  - intros _. apply (follow_left OIs); reflexivity.
  - intros k ts Hp Hok Hfo.
    assert (HG : okl d c kw /\ nodup_names (map fst kw) = true /\ not_kw_not n = true) by (revert Hok; ok_parts).
    destruct HG as (HG & HND & Hnn).
    rewrite desugar_test. cbn [plus].
    rewrite loop_S. change (classify (TIdent (s2l "is"))) with (LOp OIs). cbv iota. rewrite (takes OIs Hp).
    change (bop_eqb OIs OIs) with true. cbn [andb]. cbv zeta. rewrite <- app_assoc.
    destruct neg; cbn [app].
    + rewrite hd_kw_ident, kw_not.
      cbv iota. cbn [tl]. rewrite (parse_named_ok (STest e n kw true)); auto.
    + assert (Hk : (match hd_kw (TIdent n :: kwpart kw ++ ts) with KNot => true | _ => false end) = false).
      { cbn [hd_kw as_ident]. unfold not_kw_not in Hnn. destruct (kw_of n); try reflexivity; discriminate. }
      rewrite Hk. cbv iota. rewrite (parse_named_ok (STest e n kw false)); auto.
Qed.

Lemma ml_filter : forall e n kw, MLp e -> MLp (SFilter e n kw).
Proof.
  intros e n kw MLe.
  apply (ml_spine _ e (lp OPipe) 1 TPipe (TIdent n :: kwpart kw)); auto.
  - ok_parts.
  - intros _. apply (follow_left OPipe); reflexivity.
  - intros k ts Hp Hok Hfo.
    assert (HG : okl d c kw /\ nodup_names (map fst kw) = true) by (revert Hok; ok_parts).
    destruct HG as (HG & HND).
    rewrite desugar_filter. cbn [plus app].
    rewrite loop_S. change (classify TPipe) with (LOp OPipe). cbv iota. rewrite (takes OPipe Hp).
    change (bop_eqb OPipe OIs) with false. change (bop_eqb OPipe OPipe) with true. cbn [andb]. cbv zeta. cbv iota.
    rewrite (parse_named_ok (SFilter e n kw)); auto.
Qed.

Lemma ml_call : forall n kw, MLp (SCall n kw).
Proof.
  intros n kw. apply ml_prefix; [reflexivity|]. intros ts Hok _.
  assert (HG : okl d c kw /\ nodup_names (map fst kw) = true /\ plain n = true) by (revert Hok; ok_parts).
  destruct HG as (HG & HND & Hpl).
  rewrite raw_call, desugar_call. cbn [app]. unfold Pratt.prefix.
  unfold plain in Hpl. destruct (kw_of n); try discriminate.
  unfold parse_ident. change (hd_is (paren _ ++ ts) TLParen) with true. cbv iota. rewrite parse_kwargs_ok; auto.
Qed.

(* `prefix` where parse_ident enters chain_loop (a plain identifier, no `(` next), the fuel of the
   loop a parameter *)
Definition chain_k (K : nat) (ts : list token) : pres :=
  match ts with
  | TIdent x :: r => if plain x && negb (hd_is r TLParen) then chain_loop maxb (PA d) K c (EVar x) r else None
  | _ => None
  end.

Lemma prefix_chain : forall ts R,
  chain_k (List.length ts) ts = Some R -> Pratt.prefix bp maxb maxdim (PA d) c ts = Some R.
Proof.
  intros [|[] r] R; try discriminate. cbn [chain_k Pratt.prefix List.length]. unfold plain, parse_ident.
  destruct (kw_of s); try discriminate. destruct (hd_is r TLParen); [discriminate|exact (fun H => H)].
Qed.

Definition CLp (s : sx) : Prop := forall k ts, ok (S d) c s ->
  chain_k (S k + clen s) (raw s ++ ts) = chain_loop maxb (PA d) (S k) c (desugar s) ts.

(* at a `(` both sides fail: parse_ident sees a call, the loop refuses it *)
Lemma cl_var : forall x, CLp (SVar x).
Proof.
  intros x k ts (Hp & _). cbn [clen raw app chain_k printable desugar] in *. rewrite Hp, Nat.add_0_r.
  destruct ts as [|[] ts]; reflexivity.
Qed.

Lemma cl_attr : forall e a opt, CLp e -> CLp (SAttr e a opt).
Proof.
  intros e a opt CL k ts Hok. cbn [clen raw desugar].
  rewrite <- app_assoc, <- Nat.add_succ_comm, CL by (revert Hok; ok_parts).
  cbn [app]. rewrite chain_loop_S. destruct opt; reflexivity.
Qed.

Lemma cl_item : forall e i opt, is_chain e = true -> CLp e -> CLp (SItem e i opt).
Proof.
  intros e i opt Hc CL k ts Hok. cbn [clen raw]. rewrite (wrap_chain e Hc).
  rewrite <- !app_assoc, <- Nat.add_succ_comm, CL by (apply okw_chain, (ok_item _ _ _ _ _ Hok); exact Hc).
  cbn [app]. rewrite chain_loop_S, (subscript_item_ok c e i opt ts Hok). destruct opt; reflexivity.
Qed.

Lemma cl_slice : forall e a b cc opt, is_chain e = true -> CLp e -> CLp (SSlice e a b cc opt).
Proof.
  intros e a b cc opt Hc CL k ts Hok. rewrite raw_slice, (wrap_chain e Hc). cbn [clen].
  rewrite <- !app_assoc, <- Nat.add_succ_comm, CL by (apply okw_chain, (ok_slice _ _ _ _ _ _ _ Hok); exact Hc).
  cbn [app]. rewrite chain_loop_S, (subscript_slice_ok c e a b cc opt ts Hok). destruct opt; reflexivity.
Qed.

Lemma ml_chain : forall s, is_chain s = true -> CLp s -> MLp s.
Proof.
  intros s Hc CL. apply ml_prefix.
  { destruct s; cbn [is_chain spine] in *; try discriminate; try reflexivity; rewrite Hc; reflexivity. }
  intros ts Hok Hfo. apply prefix_chain.
  pose proof (clen_lt s). rewrite app_length.
  replace (List.length (raw s) + List.length ts)
    with (S (List.length (raw s) + List.length ts - S (clen s)) + clen s) by lia.
  rewrite CL by exact Hok. apply chain_loop_stop.
  destruct ts as [|t ts0]; [exact I|]. cbn [followL] in Hfo.
  destruct s; cbn [is_chain follow] in *; try discriminate; rewrite ?Hc in Hfo; apply negb_true_iff; exact Hfo.
Qed.

Lemma ml_item : forall e i opt, is_chain e = false -> MLp e -> MLp (SItem e i opt).
Proof.
  intros e i opt Hc MLe.
  (* `?[` exists only inside an identifier chain (parse_ident); the operator loop knows `[` alone, so
     on another base the optional form is not printable *)
  destruct opt; [apply unprintable_ml; cbn [printable]; rewrite Hc; reflexivity|].
  apply (ml_spine _ e lvl_atom 1 TLBracket (raw i ++ [TRBracket])); auto.
  - cbn [spine]. rewrite Hc. reflexivity.
  - intros H. apply (ok_item _ _ _ _ _ H).
  - apply follow_atom_bracket; assumption.
  - intros k ts Hp Hok Hfo.
    cbn [plus]. rewrite <- app_assoc. cbn [app]. rewrite loop_S. change (classify TLBracket) with LSub. cbv iota.
    rewrite (subscript_item_ok c e i false ts Hok). reflexivity.
Qed.

Lemma ml_slice : forall e a b cc opt, is_chain e = false -> MLp e -> MLp (SSlice e a b cc opt).
Proof.
  intros e a b cc opt Hc MLe.
  destruct opt; [apply unprintable_ml; cbn [printable]; rewrite Hc; reflexivity|].
  apply (ml_spine _ e lvl_atom 1 TLBracket (slice_toks a b cc)); auto.
  - cbn [spine]. rewrite Hc. reflexivity.
  - intros H. apply (ok_slice _ _ _ _ _ _ _ H).
  - apply follow_atom_bracket; assumption.
  - intros k ts Hp Hok Hfo.
    cbn [plus]. rewrite loop_S. change (classify TLBracket) with LSub. cbv iota.
    rewrite (subscript_slice_ok c e a b cc false ts Hok). reflexivity.
Qed.

Lemma ml_arr : forall items trail, MLp (SArr items trail).
Proof.
  intros items trail. apply ml_prefix; [reflexivity|]. intros ts Hok _.
  assert (HG : okl d (fst c, S (snd c)) items /\ S (snd c) <= maxdim /\
               (if trail then nonempty items else true) = true) by (revert Hok; ok_parts).
  destruct HG as (HG & Hm & Htr). apply okl_all in HG.
  rewrite raw_arr, desugar_arr. cbn [app]. unfold Pratt.prefix.
  rewrite sep_by_stoks. rewrite <- !app_assoc. cbn [app].
  apply (parse_array_ok c items trail ts HG Hm), nonempty_ne, Htr.
Qed.

Lemma ml_map : forall es trail, MLp (SMap es trail).
Proof.
  intros es trail. apply ml_prefix; [reflexivity|]. intros ts Hok _.
  assert (HG : okl d c es /\ (if trail then nonempty es else true) = true) by (revert Hok; ok_parts).
  destruct HG as (HG & Htr). apply okl_all in HG.
  rewrite raw_map, desugar_map. cbn [app]. unfold Pratt.prefix.
  rewrite sep_by_stoks. rewrite <- !app_assoc. cbn [app].
  apply (parse_map_ok c es trail ts HG), nonempty_ne, Htr.
Qed.

Lemma ml_comp : forall e k v target cond, MLp (SComp e k v target cond).
Proof.
  intros e k v target cond. apply ml_prefix; [reflexivity|].
  intros ts (Hpr & Hn & Hb & Ha) _.
  cbn [printable need needb needa] in *. repeat (apply andb_prop in Hpr; destruct Hpr as [Hpr ?]).
  rename H into Hpc, H0 into Hpt, H1 into Hrk, H2 into Hrv.
  apply negb_true_iff in Hrv.
  rewrite raw_comp. cbn [desugar app]. unfold Pratt.prefix. unfold parse_array.
  assert (E : maxdim <? S (snd c) = false) by (apply Nat.ltb_ge; lia). rewrite E.
  repeat (rewrite <- app_assoc; cbn [app]).
  rewrite array_loop_S.
  rewrite (hd_raw_not e _ TRBracket Hpr eq_refl). cbv beta iota zeta.
  rewrite ?(hd_raw_not e _ TRBracket Hpr eq_refl), (hd_raw_not e _ TSpread Hpr eq_refl).
  rewrite (sub_closer e (fst c, S (snd c))); [|unfold ok, fits; cbn [fst snd]; repeat split; auto; lia|reflexivity].
  cbv beta iota zeta. rewrite hd_kw_ident, kw_for.
  rewrite (parse_comp_ok c (desugar e) k v target cond ts); auto.
  - destruct k as [k'|]; [apply negb_true_iff in Hrk; exact Hrk|exact I].
  - unfold okw, fits. repeat split; auto; lia.
  - destruct cond as [x|]; [|exact I]. unfold okw, fits. repeat split; auto; lia.
Qed.

Definition Gp (s : sx) : Prop := MLp s /\ (is_chain s = true -> CLp s).

(* a link `.a`, `[i]`, `[a:b:c]` on e: a chain link when e is a chain, a spine item otherwise *)
Lemma gp_link : forall s e, is_chain s = is_chain e -> Gp e ->
  (is_chain e = true -> CLp e -> CLp s) -> (is_chain e = false -> MLp s) -> Gp s.
Proof.
  intros s e E [ML CL] Hch Hpl. unfold Gp. destruct (is_chain e); split; auto using ml_chain; congruence.
Qed.

Theorem gp_all : forall s, Gp s.
Proof.
  assert (ML : forall s, Gp s -> MLp s) by (intros s H; apply H).
  induction s;
    try solve [split; [|discriminate]; auto using ml_const, ml_un, ml_bin, ml_notin, ml_test, ml_filter,
                                                  ml_call, ml_tern, ml_paren, ml_arr, ml_map, ml_comp].
  - split; [apply ml_chain|]; auto using cl_var.
  - apply (gp_link _ s); auto using cl_attr.
    intros Hc. apply unprintable_ml. cbn [printable]. rewrite Hc. reflexivity.
  - apply (gp_link _ s1); auto using cl_item, ml_item.
  - apply (gp_link _ s); auto using cl_slice, ml_slice.
Qed.

End Frame.

(* the frame one level up: it reads the operand like a left operand, and its loop then stops *)
Theorem top_S : TOPat (S d).
Proof.
  intros s c min p ts Hthr Hok Hr Hfo. rewrite PA_S.
  pose proof (spine_wrap p s 0 ts (spine_le s) (Nat.le_0_l _)) as Hs.
  set (n := List.length _) in *. set (x := if lvl s <? p then 0 else spine s) in *.
  replace (S n) with (S (n - x) + x) by (cbn [plus] in Hs; lia).
  rewrite (left_op c min p s p (proj1 (gp_all c min p Hthr s))); auto.
  - eapply loop_stop; eassumption.
  - intros E. apply Hfo, Nat.ltb_ge, E.
Qed.

End Level.

Theorem top_all : forall d, TOPat d.
Proof.
  induction d as [|d IHd]; [|exact (top_S d IHd)].
  intros s c min p ts _ (_ & Hn & _). pose proof (need_pos s). unfold needw in Hn. destruct (lvl s <? p); lia.
Qed.

End RoundTrip.

Theorem pratt_roundtrip_gen : forall bp, wf_bp bp = true ->
  forall maxb maxdim s d c rest,
  printable s = true -> need s <= d -> fst c + needb s <= maxb -> snd c + needa s <= maxdim ->
  closerL rest = true ->
  parse bp maxb maxdim d c 0 (print s ++ rest) = Some (desugar s, rest).
Proof.
  intros bp Hwf maxb maxdim s d c rest Hp Hn Hb Ha Hc.
  apply (sub_closer bp maxb maxdim d (top_all bp Hwf maxb maxdim d)); [|exact Hc].
  repeat split; assumption.
Qed.

Definition embeds (e : expr) : Prop :=
  normal e = true -> printable (embed e) = true -> desugar (embed e) = e.

Lemma list_embed : forall {A} (l : list (A * expr)), Forall embeds (map snd l) ->
  forallb (fun p : A * expr => match p with (_, v) => normal v end) l = true ->
  forallb (fun p : A * sx => match p with (_, v) => printable v end)
          (map (fun p : A * expr => match p with (k, v) => (k, embed v) end) l) = true ->
  map (fun p : A * sx => match p with (k, v) => (k, desugar v) end)
      (map (fun p : A * expr => match p with (k, v) => (k, embed v) end) l) = l.
Proof.
  intros A l. induction l as [|[k v] r IHl]; intros HF Hn Hp; [reflexivity|].
  cbn [map snd forallb] in *. inversion HF as [|x l' Hv HF']; subst.
  apply andb_prop in Hn. destruct Hn as [Hn1 Hn2]. apply andb_prop in Hp. destruct Hp as [Hp1 Hp2].
  rewrite Hv, IHl by assumption. reflexivity.
Qed.

Lemma opt_embed : forall (o : option expr), match o with Some x => embeds x | None => True end ->
  match o with Some x => normal x | None => true end = true ->
  match option_map embed o with Some x => printable x | None => true end = true ->
  option_map desugar (option_map embed o) = o.
Proof. intros [x|] IH Hn Hp; cbn in *; [rewrite IH by assumption|]; reflexivity. Qed.

Lemma mkey_eqb_sym : forall a b, mkey_eqb a b = mkey_eqb b a.
Proof.
  destruct a as [s|z|x], b as [s'|z'|x']; cbn [mkey_eqb]; try reflexivity.
  - apply str_eqb_sym.
  - apply Z.eqb_sym.
  - destruct x, x'; reflexivity.
Qed.

Lemma insert_fresh : forall k v acc,
  existsb (fun a => mkey_eqb a k) (map fst acc) = false -> cmap_insert k v acc = acc ++ [(k, v)].
Proof.
  intros k v. induction acc as [|[k' v'] r IH]; cbn [map fst existsb cmap_insert app]; intros H; [reflexivity|].
  apply orb_false_elim in H. destruct H as [H1 H2]. rewrite mkey_eqb_sym, H1. rewrite IH by exact H2. reflexivity.
Qed.

Lemma keys_nodup_app_cons : forall A k R, keys_nodup (A ++ k :: R) = true ->
  existsb (fun a => mkey_eqb a k) A = false.
Proof.
  induction A as [|a A' IH]; intros k R H; [reflexivity|].
  cbn [app keys_nodup] in H. apply andb_prop in H. destruct H as [H1 H2].
  cbn [existsb]. rewrite (IH k R H2), orb_false_r.
  apply negb_true_iff in H1. rewrite existsb_app in H1. apply orb_false_elim in H1. destruct H1 as [_ H1].
  cbn [existsb] in H1. apply orb_false_elim in H1. destruct H1 as [H1 _]. exact H1.
Qed.

Definition centry (kv : mkey * const) : option mkey * expr := match kv with (k, x) => (Some k, EConst x) end.

Lemma as_const_entries_fold : forall m acc,
  keys_nodup (map fst acc ++ map fst m) = true ->
  fold_left (fun acc en =>
    match acc, en with
    | Some m, (Some k, EConst c) => Some (cmap_insert k c m)
    | _, _ => None
    end) (map centry m) (Some acc) = Some (acc ++ m).
Proof.
  induction m as [|[k x] r IH]; intros acc H; cbn [map fold_left centry].
  - rewrite app_nil_r. reflexivity.
  - cbn [map fst] in H.
    rewrite (insert_fresh k x acc (keys_nodup_app_cons _ _ _ H)).
    rewrite IH.
    + rewrite <- app_assoc. reflexivity.
    + rewrite map_app. cbn [map fst]. rewrite <- app_assoc. exact H.
Qed.

Lemma as_consts_consts : forall l, as_consts (map (fun x : const => (false, EConst x)) l) = Some l.
Proof.
  induction l as [|x r IH]; [reflexivity|].
  unfold as_consts in *. cbn [map fold_right]. rewrite IH. reflexivity.
Qed.

Lemma cembed_ok : forall c, const_ok c = true -> desugar (cembed c) = EConst c.
Proof.
  (* `const` holds lists of itself, and the generated induction principle says nothing of their elements:
     a structural `fix`, applied to the elements inside an induction on the list and cleared before
     automation could apply it to anything else (the guard is checked at Qed only) *)
  fix IH 1. intros [z|d|s|b| |l|m] Hok; try reflexivity; cbn [const_ok cembed] in *.
  - assert (Hx : dmap (map (fun x : const => (false, cembed x)) l) = map (fun x : const => (false, EConst x)) l).
    { clear - IH Hok. unfold dmap. induction l as [|y r IHr]; [reflexivity|].
      cbn [forallb map] in *. apply andb_prop in Hok. rewrite IH, IHr; tauto. }
    clear IH. rewrite desugar_arr, Hx. unfold fold_array. rewrite as_consts_consts. reflexivity.
  - apply andb_prop in Hok. destruct Hok as [Hnd Hok].
    assert (Hx : dmap (map (fun kv : mkey * const => match kv with (k, x) => (Some k, cembed x) end) m) = map centry m).
    { clear - IH Hok. unfold dmap. induction m as [|[k y] r IHr]; [reflexivity|].
      cbn [forallb map snd centry] in *. apply andb_prop in Hok. rewrite IH, IHr; tauto. }
    clear IH. rewrite desugar_map, Hx. unfold fold_map, as_const_entries.
    rewrite (as_const_entries_fold m []); [reflexivity|exact Hnd].
Qed.

Lemma desugar_embed : forall e, normal e = true -> printable (embed e) = true -> desugar (embed e) = e.
Proof.
  fix IH 1. intros e Hno Hp.
  destruct e; cbn [embed printable desugar normal] in *; try discriminate;
    rewrite ?andb_true_iff in Hp; rewrite ?andb_true_iff in Hno;
    rewrite ?IH, ?list_embed, ?opt_embed
      by (tauto ||
          match goal with
          | |- Forall _ (map snd ?l) => clear - IH; induction l as [|[k v] r IHr]; [constructor|exact (Forall_cons _ (IH v) IHr)]
          | |- match ?o with Some _ => _ | None => _ end => destruct o as [x|]; [exact (IH x)|exact I]
          end);
    try reflexivity.
  - apply cembed_ok. exact Hno.
  - unfold fold_array. destruct (as_consts items); [destruct Hno; discriminate|reflexivity].
  - unfold fold_map. destruct (as_const_entries entries); [destruct Hno; discriminate|reflexivity].
Qed.

Lemma gen_bp_wf : wf_bp gen_bp = true /\ gen_rows_complete = true.
Proof. split; vm_compute; reflexivity. Qed.
Lemma bp_matches_docs : bp_matches_docs_b gen_bp BpTables.doc_prec_rows = true.
Proof. vm_compute. reflexivity. Qed.
Lemma doc_levels_match : doc_levels_b BpTables.doc_prec_rows = true.
Proof. vm_compute. reflexivity. Qed.
