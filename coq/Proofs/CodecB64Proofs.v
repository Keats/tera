(* Proofs for the base64 theorems of Props/C20.v.  Encoder and decoder are both described through the
   stream of 6-bit values between bytes and symbols (`sextets`): b64_encode_engine is the symbols of the
   sextets plus padding (encode_engine_sextets), and Engine::decode accepts exactly those texts, with none,
   some or all of the padding (b64_accepts).  The arithmetic is in regroup3: three bytes and four sextets
   are made of the same six fields.  The refusals (a length of 1 mod 4, a character outside the alphabet)
   hold in every padding mode. *)
From TeraV Require Import Model.Value Model.Utf8 Gen.CodecTables Model.Codec Spec.Codec Proofs.CodecProofs.
From Coq Require Import Lia NArith List Bool.
Import ListNotations.
Open Scope N_scope.

Definition url_of (a : b64_alpha) : bool := match a with ALPHA_URL_SAFE => true | ALPHA_STANDARD => false end.

(* everything the proofs need to know of an alphabet, as one check over the 64 indices *)
Definition alpha_ok (url : bool) (al : list N) : bool :=
  forallb (fun i => match unsym al (sym al i) with Some j => j =? i | None => false end
                    && is_b64_char url (sym al i) && negb (sym al i =? 61) && (sym al i <? 128)) (below 64).

Lemma alphabets_ok a : alpha_ok (url_of a) (alphabet_of a) = true.
Proof. destruct a; vm_compute; reflexivity. Qed.

Lemma sym_facts a i :
  i < 64 ->
  unsym (alphabet_of a) (sym (alphabet_of a) i) = Some i /\ is_b64_char (url_of a) (sym (alphabet_of a) i) = true /\
  (sym (alphabet_of a) i =? 61) = false /\ sym (alphabet_of a) i < 128.
Proof.
  intros H. pose proof (sweep _ 64 (alphabets_ok a) i H) as K. cbv beta in K.
  rewrite !andb_true_iff in K. destruct K as [[[K1 K2] K3] K4]. repeat split.
  - destruct (unsym _ _); [|discriminate]. apply N.eqb_eq in K1. now subst.
  - exact K2.
  - now apply negb_true_iff.
  - now apply N.ltb_lt.
Qed.

Lemma sym_unsym a i : i < 64 -> unsym (alphabet_of a) (sym (alphabet_of a) i) = Some i.
Proof. intros H. apply (sym_facts a i H). Qed.

Lemma index_of_some b al i j :
  index_of b al i = Some j ->
  exists n, j = i + N.of_nat n /\ (n < length al)%nat /\ nth n al 0 = b.
Proof.
  revert i. induction al as [|x al IH]; intros i H; [discriminate|]. cbn [index_of] in H.
  destruct (N.eqb_spec x b) as [->|Hne].
  - injection H as <-. exists 0%nat. repeat split; [lia | cbn; lia].
  - destruct (IH _ H) as (n & -> & Hn & Hb). exists (S n). repeat split; [lia | cbn; lia | exact Hb].
Qed.

Lemma unsym_some a s m : unsym (alphabet_of a) s = Some m -> m < 64 /\ s = sym (alphabet_of a) m.
Proof.
  intros H. apply index_of_some in H. destruct H as (n & -> & Hn & Hb).
  assert (Hlen : length (alphabet_of a) = 64%nat) by (destruct a; reflexivity).
  rewrite Hlen in Hn. split; [lia|]. unfold sym. rewrite N.add_0_l, Nat2N.id. now rewrite Hb.
Qed.

Lemma unsym_none a x : is_b64_char (url_of a) x = false -> unsym (alphabet_of a) x = None.
Proof.
  intros H. destruct (unsym (alphabet_of a) x) as [m|] eqn:E; [|reflexivity].
  apply unsym_some in E. destruct E as [Hm ->]. destruct (sym_facts a m Hm) as (_ & C & _). congruence.
Qed.

Lemma list_ind3 {A} (P : list A -> Prop) :
  P [] -> (forall a, P [a]) -> (forall a b, P [a; b]) ->
  (forall a b c t, P t -> P (a :: b :: c :: t)) -> forall l, P l.
Proof.
  intros H0 H1 H2 H3. fix IH 1. intros [|a [|b [|c t]]].
  - exact H0. - apply H1. - apply H2. - apply H3, IH.
Qed.

Lemma div_mod_lin (d : positive) q r :
  r < N.pos d -> (q * N.pos d + r) / N.pos d = q /\ (q * N.pos d + r) mod N.pos d = r.
Proof.
  intros H. split; symmetry; [apply (N.div_unique _ _ _ r) | apply (N.mod_unique _ _ q)]; lia.
Qed.

Lemma fields a b c :
  a < 256 -> b < 256 -> c < 256 ->
  exists a1 a0 b1 b0 c1 c0,
    a / 4 = a1 /\ a mod 4 = a0 /\ b / 16 = b1 /\ b mod 16 = b0 /\ c / 64 = c1 /\ c mod 64 = c0 /\
    a = 4 * a1 + a0 /\ b = 16 * b1 + b0 /\ c = 64 * c1 + c0 /\
    a1 < 64 /\ a0 < 4 /\ b1 < 16 /\ b0 < 16 /\ c1 < 4 /\ c0 < 64.
Proof.
  intros Ha Hb Hc.
  destruct (div_mod_pos a 4) as (a1 & a0 & ? & ? & ? & ?), (div_mod_pos b 16) as (b1 & b0 & ? & ? & ? & ?),
           (div_mod_pos c 64) as (c1 & c0 & ? & ? & ? & ?).
  exists a1, a0, b1, b0, c1, c0. repeat split; try assumption; lia.
Qed.

(* [m0 .. m3] are what the encoder makes of x y z (right to left), and x y z are
   quad_bytes m0 m1 m2 m3 (left to right).  Either way the side that is given is cut into the six
   fields a1 a0 | b1 b0 | c1 c0, of which the other side is made by multiplication alone. *)
Lemma regroup3 m0 m1 m2 m3 x y z :
  m0 < 64 /\ m1 < 64 /\ m2 < 64 /\ m3 < 64 /\
  m0 * 4 + m1 / 16 = x /\ m1 mod 16 * 16 + m2 / 4 = y /\ m2 mod 4 * 64 + m3 = z <->
  x < 256 /\ y < 256 /\ z < 256 /\
  x / 4 = m0 /\ x mod 4 * 16 + y / 16 = m1 /\ y mod 16 * 4 + z / 64 = m2 /\ z mod 64 = m3.
Proof.
  split.
  - intros (B0 & B1 & B2 & B3 & <- & <- & <-).
    destruct (div_mod_pos m1 16) as (a0 & b1 & -> & -> & E1 & R1), (div_mod_pos m2 4) as (b0 & c1 & -> & -> & E2 & R2).
    destruct (div_mod_lin 4 m0 a0) as [-> ->]; [lia|]. destruct (div_mod_lin 16 b1 b0) as [-> ->]; [lia|].
    destruct (div_mod_lin 64 c1 m3 B3) as [-> ->]. repeat split; lia.
  - intros (Bx & By & Bz & <- & <- & <- & <-).
    destruct (fields x y z Bx By Bz)
      as (a1 & a0 & b1 & b0 & c1 & c0 & -> & -> & -> & -> & -> & -> & Ex & Ey & Ez & A1 & A0 & B1 & B0 & C1 & C0).
    destruct (div_mod_lin 16 a0 b1 B1) as [-> ->], (div_mod_lin 4 b0 c1 C1) as [-> ->]. repeat split; lia.
Qed.

(* internal_encode without the alphabet: 3 bytes -> 4 sextets; 2 -> 3; 1 -> 2 *)
Fixpoint sextets (l : list N) : list N :=
  match l with
  | a :: b :: c :: t => a / 4 :: a mod 4 * 16 + b / 16 :: b mod 16 * 4 + c / 64 :: c mod 64 :: sextets t
  | [a; b] => [a / 4; a mod 4 * 16 + b / 16; b mod 16 * 4]
  | [a] => [a / 4; a mod 4 * 16]
  | [] => []
  end.

Fixpoint npad (l : list N) : nat :=
  match l with
  | _ :: _ :: _ :: t => npad t
  | [_; _] => 1
  | [_] => 2
  | [] => 0
  end.

(* what decode_suffix makes of the 2..4 sextets of the last quad: the trailing bits must be zero *)
Definition tail_bytes (ms : list N) : option (list N) :=
  match ms with
  | [m0; m1] => if nonzero (m1 mod 16 * 16) then None else Some [m0 * 4 + m1 / 16]
  | [m0; m1; m2] => if nonzero (m2 mod 4 * 64) then None else Some [m0 * 4 + m1 / 16; m1 mod 16 * 16 + m2 / 4]
  | [m0; m1; m2; m3] => Some (quad_bytes m0 m1 m2 m3)
  | _ => None
  end.

Lemma if_nonzero {A} c (v w : A) : (if nonzero c then None else Some v) = Some w <-> c = 0 /\ v = w.
Proof.
  unfold nonzero. destruct (N.eqb_spec c 0) as [->|H]; cbn [negb].
  - split; [intros [= <-]; auto | intros [_ <-]; reflexivity].
  - split; [discriminate | intros [E _]; contradiction].
Qed.

Lemma tail_iff ms bs :
  Forall (fun m => m < 64) ms /\ tail_bytes ms = Some bs <->
  bytes bs /\ (1 <= length bs <= 3)%nat /\ sextets bs = ms.
Proof.
  unfold bytes. split.
  - intros [Hm T]. destruct ms as [|m0 [|m1 [|m2 [|m3 [|]]]]]; try discriminate T;
      cbn [tail_bytes] in T; rewrite !Forall_cons_iff in Hm.
    + apply if_nonzero in T. destruct T as [Z <-].
      destruct (proj1 (regroup3 m0 m1 0 0 (m0 * 4 + m1 / 16) 0 0)) as (Bx & _ & _ & E0 & E1 & _);
        [rewrite N.add_0_r; repeat split; assumption || apply Hm|].
      rewrite N.add_0_r in E1. cbn [sextets length]. rewrite E0, E1. repeat constructor; assumption.
    + apply if_nonzero in T. destruct T as [Z <-].
      destruct (proj1 (regroup3 m0 m1 m2 0 (m0 * 4 + m1 / 16) (m1 mod 16 * 16 + m2 / 4) 0))
        as (Bx & By & _ & E0 & E1 & E2 & _); [rewrite N.add_0_r; repeat split; assumption || apply Hm|].
      rewrite N.add_0_r in E2. cbn [sextets length]. rewrite E0, E1, E2. repeat constructor; assumption.
    + injection T as <-.
      destruct (proj1 (regroup3 m0 m1 m2 m3 (m0 * 4 + m1 / 16) (m1 mod 16 * 16 + m2 / 4) (m2 mod 4 * 64 + m3)))
        as (Bx & By & Bz & E0 & E1 & E2 & E3); [repeat split; assumption || apply Hm|].
      unfold quad_bytes. cbn [sextets length]. rewrite E0, E1, E2, E3. repeat constructor; assumption.
  - intros (Hb & Hl & <-). destruct bs as [|x [|y [|z [|]]]]; cbn [length] in Hl; try lia;
      rewrite !Forall_cons_iff in Hb; cbn [sextets tail_bytes].
    + destruct (proj2 (regroup3 (x / 4) (x mod 4 * 16) 0 0 x 0 0)) as (B0 & B1 & _ & _ & E & Z & _);
        [rewrite N.add_0_r; repeat split; apply Hb|].
      rewrite N.add_0_r in Z. rewrite E. repeat constructor; try apply if_nonzero; auto.
    + destruct (proj2 (regroup3 (x / 4) (x mod 4 * 16 + y / 16) (y mod 16 * 4) 0 x y 0))
        as (B0 & B1 & B2 & _ & E0 & E1 & Z); [rewrite N.add_0_r; repeat split; apply Hb|].
      rewrite N.add_0_r in Z. rewrite E0, E1. repeat constructor; try apply if_nonzero; auto.
    + destruct (proj2 (regroup3 (x / 4) (x mod 4 * 16 + y / 16) (y mod 16 * 4 + z / 64) (z mod 64) x y z))
        as (B0 & B1 & B2 & B3 & E0 & E1 & E2); [repeat split; apply Hb|].
      unfold quad_bytes. rewrite E0, E1, E2. repeat constructor; assumption.
Qed.

Lemma tail_lengths (bs : list N) :
  (1 <= length bs <= 3)%nat -> (2 <= length (sextets bs) /\ length (sextets bs) + npad bs = 4)%nat.
Proof. destruct bs as [|x [|y [|z [|]]]]; cbn; lia. Qed.

Lemma sextets_lt64 l : bytes l -> Forall (fun m => m < 64) (sextets l).
Proof.
  induction l as [| x | x y | x y z t IH] using list_ind3; intros Hb.
  - constructor.
  - apply (tail_iff _ [x]). cbn. auto with arith.
  - apply (tail_iff _ [x; y]). cbn. auto with arith.
  - change (x :: y :: z :: t) with ([x; y; z] ++ t) in Hb. apply Forall_app in Hb. destruct Hb as [H3 Ht].
    change (sextets (x :: y :: z :: t)) with (sextets [x; y; z] ++ sextets t).
    apply Forall_app. split; [|exact (IH Ht)]. apply (tail_iff _ [x; y; z]). cbn. auto with arith.
Qed.

Lemma syms_nonempty al l t : l <> [] -> map (sym al) (sextets l) ++ t <> [].
Proof. destruct l as [|x [|y [|z l]]]; [contradiction | | |]; discriminate. Qed.

Lemma mod_plus d n : d <> 0%nat -> ((d + n) mod d = n mod d)%nat.
Proof. intros H. replace (d + n)%nat with (n + 1 * d)%nat by lia. now apply Nat.mod_add. Qed.

Lemma npad_spec l : (npad l <= 2 /\ (length (sextets l) + npad l) mod 4 = 0)%nat.
Proof.
  induction l as [| x | x y | x y z t [IH1 IH2]] using list_ind3; try (split; [cbn; lia | reflexivity]).
  split; [exact IH1|]. exact (eq_trans (mod_plus 4 _ ltac:(discriminate)) IH2).
Qed.

Lemma sextets_app l1 l2 :
  (length l1 mod 3 = 0)%nat -> sextets (l1 ++ l2) = sextets l1 ++ sextets l2 /\ npad (l1 ++ l2) = npad l2.
Proof.
  induction l1 as [| x | x y | x y z t IH] using list_ind3; intros H; try discriminate H.
  - split; reflexivity.
  - destruct IH as [IH1 IH2]; [rewrite <- (mod_plus 3); [exact H | discriminate]|].
    cbn [app sextets npad]. now rewrite IH1, IH2.
Qed.

Lemma enc_body_sextets al l : b64_enc_body al l = map (sym al) (sextets l).
Proof.
  induction l as [| x | x y | x y z t IH] using list_ind3; try reflexivity.
  cbn [b64_enc_body sextets map]. now rewrite IH.
Qed.

Lemma padding_npad l : b64_padding (N.of_nat (length (sextets l))) = repeat 61 (npad l).
Proof.
  induction l as [| x | x y | x y z t IH] using list_ind3; try reflexivity.
  cbn [sextets length npad]. rewrite <- IH. unfold b64_padding. do 4 f_equal.
  replace (N.of_nat (S (S (S (S (length (sextets t))))))) with (N.of_nat (length (sextets t)) + 1 * 4) by lia.
  now apply N.mod_add.
Qed.

Lemma encode_engine_sextets e l :
  b64_encode_engine e l =
  map (sym (alphabet_of (fst (engine_cfg e)))) (sextets l) ++ repeat 61 (if snd (engine_cfg e) then npad l else 0).
Proof.
  unfold b64_encode_engine. destruct (engine_cfg e) as [a pad]. cbn [fst snd].
  rewrite enc_body_sextets, map_length, padding_npad. destruct pad; [reflexivity | now rewrite app_nil_r].
Qed.

Definition no_pad_engine (a : b64_alpha) : b64_engine :=
  match a with ALPHA_STANDARD => STANDARD_NO_PAD | ALPHA_URL_SAFE => URL_SAFE_NO_PAD end.

Lemma encode_no_pad a l : b64_encode_engine (no_pad_engine a) l = map (sym (alphabet_of a)) (sextets l).
Proof. rewrite encode_engine_sextets. destruct a; apply app_nil_r. Qed.

Lemma b64_engine_shape e l :
  bytes l ->
  exists body k,
    b64_encode_engine e l = body ++ repeat 61 k /\
    Forall (fun c => is_b64_char (url_of (fst (engine_cfg e))) c = true) body /\
    (k <= 2)%nat /\ (snd (engine_cfg e) = false -> k = 0%nat) /\
    (snd (engine_cfg e) = true -> (length (b64_encode_engine e l) mod 4 = 0)%nat).
Proof.
  intros H. rewrite encode_engine_sextets. destruct (npad_spec l) as [Hk Hlen].
  eexists _, _. split; [reflexivity|]. split; [|split; [|split]].
  - apply Forall_map. eapply Forall_impl; [|exact (sextets_lt64 l H)]. intros m Hm. apply (sym_facts _ m Hm).
  - destruct (snd (engine_cfg e)); lia.
  - now intros ->.
  - intros ->. now rewrite app_length, map_length, repeat_length.
Qed.

Lemma encode_engine_ascii e l : bytes l -> Forall (fun c => c < 128) (b64_encode_engine e l).
Proof.
  intros H. rewrite encode_engine_sextets. apply Forall_app. split.
  - apply Forall_map. eapply Forall_impl; [|exact (sextets_lt64 l H)]. intros m Hm. apply (sym_facts _ m Hm).
  - apply Forall_forall. intros c Hc. apply repeat_spec in Hc. now subst.
Qed.

Lemma scan_sym al off s m t idx ms fp lst :
  (s =? 61) = false -> unsym al s = Some m ->
  suffix_scan al off (s :: t) idx ms 0 fp lst = suffix_scan al off t (idx + 1) (ms ++ [m]) 0 fp s.
Proof.
  intros H1 H2. cbn [suffix_scan]. unfold PAD_BYTE. rewrite H1.
  change (0 <? 0) with false. cbv iota. rewrite H2. reflexivity.
Qed.

Lemma scan_pad al off t idx ms pads fp lst :
  2 <= idx ->
  suffix_scan al off (61 :: t) idx ms pads fp lst =
  suffix_scan al off t (idx + 1) ms (pads + 1) (if pads =? 0 then idx else fp) lst.
Proof.
  intros H. cbn [suffix_scan]. unfold PAD_BYTE. change (61 =? 61) with true. cbv iota.
  now apply N.ltb_ge in H as ->.
Qed.

(* the loop on symbols followed by "=" signs, which must not come before two symbols *)
Lemma scan_syms a off ms :
  Forall (fun m => m < 64) ms -> forall t idx acc fp lst,
  exists lst',
    suffix_scan (alphabet_of a) off (map (sym (alphabet_of a)) ms ++ t) idx acc 0 fp lst =
    suffix_scan (alphabet_of a) off t (idx + N.of_nat (length ms)) (acc ++ ms) 0 fp lst'.
Proof.
  induction 1 as [|m ms Hm _ IH]; intros t idx acc fp lst.
  - exists lst. cbn. now rewrite N.add_0_r, app_nil_r.
  - cbn [map app]. rewrite (scan_sym _ _ _ m) by (apply sym_facts; exact Hm).
    destruct (IH t (idx + 1) (acc ++ [m]) fp (sym (alphabet_of a) m)) as [lst' ->]. exists lst'.
    rewrite <- app_assoc. f_equal. cbn [length]. lia.
Qed.

Lemma scan_pads al off k : forall idx acc pads fp lst,
  2 <= idx -> exists fp', suffix_scan al off (repeat 61 k) idx acc pads fp lst = inr (acc, pads + N.of_nat k, fp', lst).
Proof.
  induction k as [|k IH]; intros idx acc pads fp lst H.
  - exists fp. cbn. now rewrite N.add_0_r.
  - cbn [repeat]. rewrite scan_pad by exact H.
    destruct (IH (idx + 1) acc (pads + 1) (if pads =? 0 then idx else fp) lst ltac:(lia)) as [fp' ->].
    exists fp'. do 4 f_equal. lia.
Qed.

Lemma scan_inv a off : forall l idx ms0 pads0 fp lst ms pads fp' lst',
  suffix_scan (alphabet_of a) off l idx ms0 pads0 fp lst = inr (ms, pads, fp', lst') ->
  exists ms' k, l = map (sym (alphabet_of a)) ms' ++ repeat 61 k /\ ms = ms0 ++ ms' /\
                Forall (fun m => m < 64) ms' /\ (0 < pads0 -> ms' = []).
Proof.
  induction l as [|b t IH]; intros idx ms0 pads0 fp lst ms pads fp' lst' H.
  - cbn in H. injection H as <- _ _ _. exists [], 0%nat. rewrite !app_nil_r. auto.
  - cbn [suffix_scan] in H. unfold PAD_BYTE in H. destruct (N.eqb_spec b 61) as [->|Hb].
    + destruct (idx <? 2); [discriminate|].
      apply IH in H. destruct H as (ms' & k & -> & -> & _ & Hp). rewrite (Hp ltac:(lia)).
      exists [], (S k). auto.
    + destruct (N.ltb_spec 0 pads0) as [Hp|Hp]; [discriminate|].
      destruct (unsym (alphabet_of a) b) as [m|] eqn:Em; [|discriminate].
      apply unsym_some in Em. destruct Em as [Hm ->].
      apply IH in H. destruct H as (ms' & k & -> & -> & HF & _).
      exists (m :: ms'), k. rewrite <- app_assoc. repeat split; [now constructor | lia].
Qed.

Lemma suffix_cases al off l ms pads fp lst :
  l <> [] -> (length ms <= 4)%nat ->
  suffix_scan al off l 0 [] 0 0 0 = inr (ms, pads, fp, lst) ->
  match tail_bytes ms with
  | Some bs => decode_suffix al Indifferent false off l = DOk bs
  | None => exists e, decode_suffix al Indifferent false off l = DErr e
  end.
Proof.
  intros Hl Hn H. unfold decode_suffix. rewrite H. destruct l; [contradiction|].
  destruct ms as [|m0 [|m1 [|m2 [|m3 [|m4 ms]]]]]; cbn [length] in Hn; try lia; cbn.
  - eauto.
  - eauto.
  - (* two symbols: cbn leaves the number of bytes kept as Pos.to_nat 1, and the absent third
       sextet as 0 / 4 in the second byte *)
    change (Pos.to_nat 1) with 1%nat. unfold quad_bytes. cbn [skipn firstn existsb].
    change (0 / 4) with 0. rewrite N.add_0_r, !orb_false_r. destruct (nonzero (m1 mod 16 * 16)); eauto.
  - change (Pos.to_nat 2) with 2%nat. unfold quad_bytes. cbn [skipn firstn existsb].
    rewrite N.add_0_r, !orb_false_r. destruct (nonzero (m2 mod 4 * 64)); eauto.
  - reflexivity.
Qed.

Lemma dq_step al m tr off a b c d t :
  t <> [] ->
  decode_quads al m tr off (a :: b :: c :: d :: t) =
  match decode_chunk_4 al off a b c d with
  | DErr x => DErr x
  | DOk x => match decode_quads al m tr (off + 4) t with DOk y => DOk (x ++ y) | DErr x => DErr x end
  end.
Proof. destruct t; [contradiction | reflexivity]. Qed.

Lemma dq_short al mode tr off l : (length l <= 4)%nat -> decode_quads al mode tr off l = decode_suffix al mode tr off l.
Proof.
  intros H. destruct l as [|a [|b [|c [|d [|e r]]]]]; try reflexivity. cbn in H. lia.
Qed.

Lemma list_ind4 {A} (P : list A -> Prop) :
  (forall l, (length l <= 4)%nat -> P l) ->
  (forall a b c d t, t <> [] -> P t -> P (a :: b :: c :: d :: t)) -> forall l, P l.
Proof.
  intros H0 H1. fix IH 1. intros l.
  destruct l as [|a l1]; [apply H0; cbn; lia|]. destruct l1 as [|b l2]; [apply H0; cbn; lia|].
  destruct l2 as [|c l3]; [apply H0; cbn; lia|]. destruct l3 as [|d l4]; [apply H0; cbn; lia|].
  pose proof (IH l4) as IH4. destruct l4 as [|e r]; [apply H0; cbn; lia|]. now apply H1.
Qed.

Lemma chunk_iff a off s0 s1 s2 s3 bs :
  decode_chunk_4 (alphabet_of a) off s0 s1 s2 s3 = DOk bs <->
  bytes bs /\ length bs = 3%nat /\ [s0; s1; s2; s3] = map (sym (alphabet_of a)) (sextets bs).
Proof.
  unfold decode_chunk_4. split.
  - destruct (unsym (alphabet_of a) s0) as [m0|] eqn:U0; [|discriminate].
    destruct (unsym (alphabet_of a) s1) as [m1|] eqn:U1; [|discriminate].
    destruct (unsym (alphabet_of a) s2) as [m2|] eqn:U2; [|discriminate].
    destruct (unsym (alphabet_of a) s3) as [m3|] eqn:U3; [|discriminate].
    intros [= <-]. apply unsym_some in U0, U1, U2, U3.
    destruct U0 as [B0 ->], U1 as [B1 ->], U2 as [B2 ->], U3 as [B3 ->].
    assert (Hm : Forall (fun m => m < 64) [m0; m1; m2; m3]) by (repeat constructor; assumption).
    destruct (proj1 (tail_iff _ _) (conj Hm eq_refl)) as (Hb & _ & ->).
    split; [exact Hb|]. split; reflexivity.
  - intros (Hb & L & E). destruct bs as [|x [|y [|z [|]]]]; try discriminate L.
    destruct (proj2 (tail_iff (sextets [x; y; z]) [x; y; z])) as [Hm T];
      [split; [exact Hb | split; [cbn; lia | reflexivity]]|].
    cbn [sextets map tail_bytes] in E, Hm, T. injection E as -> -> -> ->.
    rewrite !Forall_cons_iff in Hm. rewrite !sym_unsym by apply Hm. congruence.
Qed.

Lemma tail_roundtrip a off bs k :
  bytes bs -> (1 <= length bs <= 3)%nat -> (k <= npad bs)%nat ->
  decode_quads (alphabet_of a) Indifferent false off (map (sym (alphabet_of a)) (sextets bs) ++ repeat 61 k) = DOk bs.
Proof.
  intros Hb Hl Hk. destruct (tail_lengths bs Hl) as [Hn Hp].
  destruct (proj2 (tail_iff (sextets bs) bs)) as [Hm T]; [auto|].
  set (l := map (sym (alphabet_of a)) (sextets bs) ++ repeat 61 k).
  assert (Hlen : length l = (length (sextets bs) + k)%nat)
    by (unfold l; now rewrite app_length, map_length, repeat_length).
  rewrite dq_short by lia.
  destruct (scan_syms a off _ Hm (repeat 61 k) 0 [] 0 0) as [lst E]. fold l in E.
  destruct (scan_pads (alphabet_of a) off k (0 + N.of_nat (length (sextets bs))) ([] ++ sextets bs) 0 0 lst ltac:(lia))
    as [fp E'].
  rewrite E' in E.
  assert (Hne : l <> []) by (intros E0; rewrite E0 in Hlen; cbn in Hlen; lia).
  pose proof (suffix_cases _ _ _ (sextets bs) _ _ _ Hne ltac:(lia) E) as K. now rewrite T in K.
Qed.

Lemma dq_roundtrip a : forall bs, bytes bs -> forall k off, (k <= npad bs)%nat ->
  decode_quads (alphabet_of a) Indifferent false off (map (sym (alphabet_of a)) (sextets bs) ++ repeat 61 k) = DOk bs.
Proof.
  induction bs as [| x | x y | x y z t IH] using list_ind3; intros Hb k off Hk.
  - cbn in Hk. now replace k with 0%nat by lia.
  - apply tail_roundtrip; cbn; auto.
  - apply tail_roundtrip; cbn; auto.
  - destruct (list_eq_dec N.eq_dec t []) as [->|Hne]; [apply tail_roundtrip; cbn; auto|].
    change (x :: y :: z :: t) with ([x; y; z] ++ t) in Hb. apply Forall_app in Hb. destruct Hb as [H3 Ht].
    cbn [sextets map app]. rewrite dq_step by (now apply syms_nonempty).
    rewrite (proj2 (chunk_iff a off _ _ _ _ [x; y; z])) by (now repeat split). now rewrite IH.
Qed.

(* a text whose length is 1 mod 4 is never accepted *)
Lemma suffix_one al mode tr off x : exists e, decode_suffix al mode tr off [x] = DErr e.
Proof.
  unfold decode_suffix. cbn [suffix_scan]. unfold PAD_BYTE.
  destruct (x =? 61); [change (0 <? 2) with true; cbv iota; eauto|].
  change (0 <? 0) with false. cbv iota.
  destruct (unsym al x); [|eauto]. cbn. eauto.
Qed.

Lemma dq_bad_length al mode tr :
  forall l off, (length l mod 4 = 1)%nat -> exists e, decode_quads al mode tr off l = DErr e.
Proof.
  induction l as [l Hl | a b c d t Ht IH] using list_ind4; intros off Hm.
  - rewrite dq_short by assumption.
    destruct l as [|x [|y [|z [|w [|v t]]]]]; cbn in Hm, Hl; try discriminate; try lia.
    apply suffix_one.
  - rewrite dq_step by assumption. destruct (decode_chunk_4 al off a b c d); [|eauto].
    destruct (IH (off + 4)) as [err ->]; [|eauto].
    rewrite <- (mod_plus 4); [exact Hm | discriminate].
Qed.

(* the early check of Engine::decode only changes which error is reported *)
Lemma b64_decode_quads al mode tr l bs :
  b64_decode_bytes al mode tr l = DOk bs <-> decode_quads al mode tr 0 l = DOk bs.
Proof.
  unfold b64_decode_bytes.
  destruct (N.of_nat (length l) mod 4 =? 1) eqn:E; [|reflexivity].
  apply N.eqb_eq in E. change 4 with (N.of_nat 4) in E. rewrite <- Nat2N.inj_mod in E.
  destruct (dq_bad_length al mode tr l 0) as [e ->]; [lia|].
  destruct (_ && _); split; discriminate.
Qed.

Lemma b64_decode_err al mode tr l :
  (exists e, decode_quads al mode tr 0 l = DErr e) -> exists e, b64_decode_bytes al mode tr l = DErr e.
Proof. unfold b64_decode_bytes. destruct (_ && _); eauto. Qed.

Lemma tail_sound a off l bs :
  (length l <= 4)%nat ->
  decode_suffix (alphabet_of a) Indifferent false off l = DOk bs ->
  bytes bs /\ exists k, (k <= npad bs)%nat /\ l = map (sym (alphabet_of a)) (sextets bs) ++ repeat 61 k.
Proof.
  intros Hlen H.
  destruct (list_eq_dec N.eq_dec l []) as [->|Hne].
  { cbn in H. injection H as <-. split; [constructor|]. now exists 0%nat. }
  destruct (suffix_scan (alphabet_of a) off l 0 [] 0 0 0) as [e|[[[ms pads] fp] lst]] eqn:E.
  { unfold decode_suffix in H. rewrite E in H. discriminate. }
  destruct (scan_inv _ _ _ _ _ _ _ _ _ _ _ _ E) as (ms' & k & -> & Ems & Hm & _).
  cbn [app] in Ems. subst ms'. rewrite app_length, map_length, repeat_length in Hlen.
  pose proof (suffix_cases _ _ _ ms _ _ _ Hne ltac:(lia) E) as K.
  destruct (tail_bytes ms) as [bs'|] eqn:T; [|destruct K as [e K]; congruence].
  assert (bs' = bs) by congruence. subst bs'.
  destruct (proj1 (tail_iff ms bs) (conj Hm T)) as (Hb & Hl & <-).
  split; [exact Hb|]. exists k. split; [|reflexivity]. destruct (tail_lengths bs Hl). lia.
Qed.

Lemma dq_sound a : forall l off bs,
  decode_quads (alphabet_of a) Indifferent false off l = DOk bs ->
  bytes bs /\ exists k, (k <= npad bs)%nat /\ l = map (sym (alphabet_of a)) (sextets bs) ++ repeat 61 k.
Proof.
  induction l as [l Hl | s0 s1 s2 s3 t Ht IH] using list_ind4; intros off bs H.
  - rewrite dq_short in H by assumption. now apply tail_sound in H.
  - rewrite dq_step in H by assumption.
    destruct (decode_chunk_4 (alphabet_of a) off s0 s1 s2 s3) as [c3|] eqn:Ec; [|discriminate].
    destruct (decode_quads (alphabet_of a) Indifferent false (off + 4) t) as [rest|] eqn:Er; [|discriminate].
    injection H as <-.
    apply chunk_iff in Ec. destruct Ec as (Hc & L & E). destruct (IH _ _ Er) as (Hb & k & Hk & ->).
    destruct (sextets_app c3 rest) as [S P]; [now rewrite L|].
    split; [now apply Forall_app|]. exists k. now rewrite S, P, map_app, <- app_assoc, <- E.
Qed.

(* Engine::decode with indifferent padding, trailing bits refused *)
Lemma b64_accepts a l bs :
  b64_decode_bytes (alphabet_of a) Indifferent false l = DOk bs <->
  bytes bs /\ exists k, (k <= npad bs)%nat /\ l = map (sym (alphabet_of a)) (sextets bs) ++ repeat 61 k.
Proof.
  rewrite b64_decode_quads. split; [apply dq_sound|].
  intros (Hb & k & Hk & ->). now apply dq_roundtrip.
Qed.

Lemma b64_engine_roundtrip e l :
  bytes l ->
  b64_decode_bytes (alphabet_of (fst (engine_cfg e))) Indifferent false (b64_encode_engine e l) = DOk l.
Proof.
  intros H. apply b64_accepts. split; [exact H|]. rewrite encode_engine_sextets.
  eexists. split; [|reflexivity]. destruct (snd (engine_cfg e)); lia.
Qed.

Lemma scan_invalid al x :
  unsym al x = None -> x <> 61 ->
  forall l off idx ms pads fp lst, In x l -> exists e, suffix_scan al off l idx ms pads fp lst = inl e.
Proof.
  intros Hu Hne. induction l as [|b t IH]; intros off idx ms pads fp lst Hin; [contradiction|].
  cbn [suffix_scan]. unfold PAD_BYTE.
  destruct (N.eqb_spec b 61) as [->|Hb].
  - destruct (idx <? 2); [eauto|]. apply IH. destruct Hin as [E|Hin]; [congruence | exact Hin].
  - destruct (0 <? pads); [eauto|].
    destruct (unsym al b) eqn:Eb; [|eauto].
    apply IH. destruct Hin as [E|Hin]; [subst; congruence | exact Hin].
Qed.

Lemma chunk_invalid al x off a b c d :
  unsym al x = None -> In x [a; b; c; d] -> exists e, decode_chunk_4 al off a b c d = DErr e.
Proof.
  intros Hu Hin. unfold decode_chunk_4.
  destruct (unsym al a) eqn:Ea; [|eauto]. destruct (unsym al b) eqn:Eb; [|eauto].
  destruct (unsym al c) eqn:Ec; [|eauto]. destruct (unsym al d) eqn:Ed; [|eauto].
  exfalso. cbn in Hin. destruct Hin as [<-|[<-|[<-|[<-|[]]]]]; congruence.
Qed.

Lemma dq_invalid al mode tr x :
  unsym al x = None -> x <> 61 ->
  forall l off, In x l -> exists e, decode_quads al mode tr off l = DErr e.
Proof.
  intros Hu Hne. induction l as [l Hl | a b c d t Ht IH] using list_ind4; intros off Hin.
  - rewrite dq_short by assumption. unfold decode_suffix.
    destruct (scan_invalid al x Hu Hne l off 0 [] 0 0 0 Hin) as [e ->]. eauto.
  - rewrite dq_step by assumption.
    change (a :: b :: c :: d :: t) with ([a; b; c; d] ++ t) in Hin. apply in_app_or in Hin. destruct Hin as [H|H].
    + destruct (chunk_invalid al x off a b c d Hu H) as [err ->]. eauto.
    + destruct (decode_chunk_4 al off a b c d); [|eauto].
      destruct (IH (off + 4) H) as [err ->]. eauto.
Qed.

Lemma b64_filter_roundtrip u p s :
  scalars s ->
  exists t, b64_encode_filter u p s = ROk t /\ b64_decode_filter u t = ROk s.
Proof.
  intros Hs. pose proof (utf8_encode_bytes s Hs) as Hb.
  assert (T : exists e, lookup_engine b64_encode_table u p = Some e /\
                        lookup_bool b64_decode_table u = Some (fst (engine_cfg e), Indifferent, false))
    by (destruct u, p; eexists; split; reflexivity).
  destruct T as (e & T1 & T2). unfold b64_encode_filter, b64_decode_filter. rewrite T1, T2.
  eexists. split; [reflexivity|].
  rewrite utf8_encode_ascii by (now apply encode_engine_ascii). rewrite b64_engine_roundtrip by assumption.
  now rewrite utf8_roundtrip.
Qed.

Lemma b64_decode_ok_utf8 u s t :
  b64_decode_filter u s = ROk t ->
  exists a mode tr bs, lookup_bool b64_decode_table u = Some (a, mode, tr) /\
    b64_decode_bytes (alphabet_of a) mode tr (utf8_encode s) = DOk bs /\ utf8_decode bs = Some t.
Proof.
  unfold b64_decode_filter. destruct (lookup_bool b64_decode_table u) as [[[a mode] tr]|]; [|discriminate].
  destruct (b64_decode_bytes (alphabet_of a) mode tr (utf8_encode s)) as [bs|] eqn:E; [|discriminate].
  destruct (utf8_decode bs) as [t'|] eqn:E2; [|discriminate]. intros [= <-]. now exists a, mode, tr, bs.
Qed.
