(* The string half of the built-ins (C17), the case filters relative to the case-mapping oracle,
   and the check that every registered built-in has a model entry or is listed as oracle-only
   (`covered`; Props/C17.v runs it).
   The numeric half, and the lemmas on kwargs and argument conversion that the filters here use,
   are in BuiltinNumProofs.v. *)
From Coq Require Import String.
From TeraV Require Import Model.Value Model.StrOps Model.Builtins Spec.BuiltinLaws Gen.Tables Gen.Builtins
  Proofs.BuiltinNumProofs.
Open Scope list_scope.
Open Scope Z_scope.

Lemma orb_iff a b P Q : (a = true <-> P) -> (b = true <-> Q) -> (a || b = true <-> P \/ Q).
Proof. intros <- <-. apply orb_true_iff. Qed.

Lemma andb_iff a b P Q : (a = true <-> P) -> (b = true <-> Q) -> (a && b = true <-> P /\ Q).
Proof. intros <- <-. apply andb_true_iff. Qed.

Lemma is_ws_iff c : is_ws c = true <-> ws c.
Proof.
  eapply iff_trans.
  - unfold is_ws. repeat (apply orb_iff || apply andb_iff); (apply N.eqb_eq || apply N.leb_le).
  - unfold ws, white_space. cbn [In]. lia.
Qed.

Lemma is_ws_false c : is_ws c = false <-> ~ ws c.
Proof. apply false_iff_not, is_ws_iff. Qed.

Lemma drop_while_spec p s :
  exists w, s = w ++ drop_while p s /\ Forall (fun c => p c = true) w /\
            match drop_while p s with c :: _ => p c = false | [] => True end.
Proof.
  induction s as [|c t (w & H & A & N)]; [exists []; repeat split; constructor|].
  cbn [drop_while]. destruct (p c) eqn:E.
  - exists (c :: w). split; [cbn; f_equal; exact H|]. split; [constructor; assumption|exact N].
  - exists []. split; [reflexivity|]. split; [constructor|exact E].
Qed.

Lemma drop_while_id p s :
  match s with c :: _ => p c = false | [] => True end -> drop_while p s = s.
Proof. destruct s as [|c t]; [reflexivity|]. cbn. intros ->. reflexivity. Qed.

Lemma not_starts_ws s : ~ starts_with_ws s <-> match s with c :: _ => is_ws c = false | [] => True end.
Proof. destruct s as [|c t]; unfold starts_with_ws; [tauto|]. rewrite is_ws_false. tauto. Qed.

Lemma trim_start_spec s : trimmed_start s (trim_start_ws s).
Proof.
  destruct (drop_while_spec is_ws s) as (w & H & A & N). exists w. split; [exact H|]. split.
  - eapply Forall_impl; [|exact A]. intro c. exact (proj1 (is_ws_iff c)).
  - apply not_starts_ws. exact N.
Qed.

Lemma trimmed_rev s r : trimmed_start (rev s) r -> trimmed_end s (rev r).
Proof.
  intros (w & H & A & N). exists (rev w). split; [|split].
  - rewrite <- (rev_involutive s), H. apply rev_app_distr.
  - apply Forall_rev. exact A.
  - unfold ends_with_ws. rewrite rev_involutive. exact N.
Qed.

Lemma trim_end_spec s : trimmed_end s (trim_end_ws s).
Proof. apply trimmed_rev, trim_start_spec. Qed.

Lemma trim_start_id s : ~ starts_with_ws s -> trim_start_ws s = s.
Proof. intro H. apply drop_while_id. apply not_starts_ws. exact H. Qed.

Lemma trim_end_id s : ~ ends_with_ws s -> trim_end_ws s = s.
Proof.
  intro H. unfold trim_end_ws. rewrite drop_while_id; [apply rev_involutive|].
  apply not_starts_ws. exact H.
Qed.

Lemma trimmed_compose s r1 r : trimmed_start s r1 -> trimmed_end r1 r -> trimmed s r.
Proof.
  intros (w1 & -> & A1 & N1) (w2 & -> & A2 & N2). exists w1, w2. repeat split; try assumption.
  intro Hs. apply N1. destruct r; [contradiction|exact Hs].
Qed.

Lemma trim_spec s : trimmed s (trim_ws s).
Proof. exact (trimmed_compose _ _ _ (trim_start_spec s) (trim_end_spec (trim_start_ws s))). Qed.

Lemma trim_idempotent s :
  trim_ws (trim_ws s) = trim_ws s /\ trim_start_ws (trim_start_ws s) = trim_start_ws s /\
  trim_end_ws (trim_end_ws s) = trim_end_ws s.
Proof.
  destruct (trim_spec s) as (w1 & w2 & _ & _ & _ & N1 & N2).
  destruct (trim_start_spec s) as (_ & _ & _ & N3).
  destruct (trim_end_spec s) as (_ & _ & _ & N4).
  repeat split.
  - unfold trim_ws at 1. rewrite (trim_start_id _ N1). apply trim_end_id. exact N2.
  - apply trim_start_id. exact N3.
  - apply trim_end_id. exact N4.
Qed.

Lemma strip_prefix_some p : forall s r, strip_prefix p s = Some r <-> s = p ++ r.
Proof.
  induction p as [|a p IH]; intros s r; cbn.
  - split; [intros [= ->]|intros ->]; reflexivity.
  - destruct s as [|b s]; [split; discriminate|].
    destruct (N.eqb_spec a b) as [<-|E].
    + rewrite IH. split; [intros ->; reflexivity|intros [= H]; exact H].
    + split; [discriminate|intros [= H _]; congruence].
Qed.

Lemma strip_prefix_none p s : strip_prefix p s = None <-> ~ is_prefix p s.
Proof.
  split.
  - intros H [r Hr]. apply strip_prefix_some in Hr. congruence.
  - intro H. destruct (strip_prefix p s) as [r|] eqn:E; [|reflexivity].
    exfalso. apply H. exists r. apply strip_prefix_some. exact E.
Qed.

Lemma strip_all_spec p : p <> [] -> forall fuel s, (length s <= fuel)%nat ->
  pat_trimmed_start p s (strip_all fuel p s).
Proof.
  intros Hp fuel. induction fuel as [|f IH]; intros s Hl.
  - destruct s; [|cbn in Hl; lia]. exists O. split; [reflexivity|].
    intros [r Hr]. destruct p; [congruence|discriminate].
  - cbn [strip_all]. destruct (strip_prefix p s) as [r|] eqn:E.
    + apply strip_prefix_some in E. subst s.
      assert (Hr : (length r <= f)%nat).
      { rewrite app_length in Hl. destruct p; [congruence|]. cbn in Hl. lia. }
      destruct (IH r Hr) as (n & Hn & Hnot). exists (S n). split; [|exact Hnot].
      cbn [copies]. rewrite <- app_assoc, <- Hn. reflexivity.
    + exists O. split; [reflexivity|]. apply strip_prefix_none. exact E.
Qed.

Lemma trim_start_matches_spec p s :
  p <> [] -> pat_trimmed_start p s (trim_start_matches p s).
Proof.
  intro Hp. unfold trim_start_matches. destruct p as [|a p']; [congruence|].
  apply strip_all_spec; [exact Hp|apply le_n].
Qed.

Lemma trim_start_matches_id p s : ~ is_prefix p s -> trim_start_matches p s = s.
Proof.
  intro H. apply strip_prefix_none in H. destruct p as [|a p']; [reflexivity|].
  unfold trim_start_matches. destruct (length s); [reflexivity|]. cbn [strip_all]. rewrite H. reflexivity.
Qed.

Lemma trim_matches_empty s : trim_start_matches [] s = s /\ trim_end_matches [] s = s.
Proof. split; [reflexivity|]. unfold trim_end_matches. cbn. apply rev_involutive. Qed.

Lemma copies_snoc {A} n (p : list A) : copies n p ++ p = p ++ copies n p.
Proof. induction n as [|n IH]; cbn; [rewrite app_nil_r; reflexivity|]. rewrite <- app_assoc, IH. reflexivity. Qed.

Lemma rev_copies {A} n (p : list A) : rev (copies n p) = copies n (rev p).
Proof.
  induction n as [|n IH]; [reflexivity|]. cbn [copies]. rewrite rev_app_distr, IH. apply copies_snoc.
Qed.

Lemma pat_trimmed_rev p s r : pat_trimmed_start (rev p) (rev s) r -> pat_trimmed_end p s (rev r).
Proof.
  intros (n & Hn & Hnot). exists n. split.
  - rewrite <- (rev_involutive s), Hn, rev_app_distr, rev_copies, rev_involutive. reflexivity.
  - intros [x Hx]. apply Hnot. exists (rev x). rewrite <- (rev_involutive r), Hx. apply rev_app_distr.
Qed.

Lemma trim_end_matches_spec p s :
  p <> [] -> pat_trimmed_end p s (trim_end_matches p s).
Proof.
  intro Hp. apply pat_trimmed_rev, trim_start_matches_spec.
  intro H. apply Hp. rewrite <- (rev_involutive p), H. reflexivity.
Qed.

Lemma trim_start_matches_idempotent p s :
  trim_start_matches p (trim_start_matches p s) = trim_start_matches p s.
Proof.
  destruct p as [|a p']; [reflexivity|]. apply trim_start_matches_id.
  destruct (trim_start_matches_spec (a :: p') s) as (n & _ & Hnot); [discriminate|exact Hnot].
Qed.

Lemma trim_end_matches_idempotent p s :
  trim_end_matches p (trim_end_matches p s) = trim_end_matches p s.
Proof.
  unfold trim_end_matches. rewrite rev_involutive, trim_start_matches_idempotent. reflexivity.
Qed.

Lemma pat_trimmed_compose p s r1 r : pat_trimmed_start p s r1 -> pat_trimmed_end p r1 r ->
  exists i j, s = copies i p ++ r ++ copies j p /\ ~ is_prefix p r /\ ~ is_suffix p r.
Proof.
  intros (i & -> & Hnp) (j & -> & Hns). exists i, j. repeat split; [|exact Hns].
  intros [x ->]. apply Hnp. exists (x ++ copies j p). symmetry. apply app_assoc.
Qed.

Lemma trim_both_matches_spec p s : p <> [] ->
  exists i j, s = copies i p ++ trim_end_matches p (trim_start_matches p s) ++ copies j p /\
              ~ is_prefix p (trim_end_matches p (trim_start_matches p s)) /\
              ~ is_suffix p (trim_end_matches p (trim_start_matches p s)).
Proof.
  intro Hp. exact (pat_trimmed_compose _ _ _ _ (trim_start_matches_spec p s Hp) (trim_end_matches_spec p _ Hp)).
Qed.

Lemma f_trim_pat kw s b p b' :
  kw_find (s2l "pat") kw = Some (VStr p b') ->
  f_trim kw (VStr s b) = BOk (vstr (trim_end_matches p (trim_start_matches p s))) /\
  f_trim_start kw (VStr s b) = BOk (vstr (trim_start_matches p s)) /\
  f_trim_end kw (VStr s b) = BOk (vstr (trim_end_matches p s)).
Proof.
  intro H. unfold f_trim, f_trim_start, f_trim_end, on_str. cbn [arg_str bbind].
  rewrite !kw_get_spec, H. cbn [arg_str bbind]. repeat split; reflexivity.
Qed.

Definition text_of (v : value) : str := match v with VStr s _ => s | _ => [] end.

Lemma truncate_spec s n e :
  let endm := match e with Some x => x | None => ellipsis end in
  ((length s <= n)%nat -> str_truncate s n e = VStr s false) /\
  ((n < length s)%nat -> str_truncate s n e = VStr (firstn n s ++ endm) false /\
                          length (text_of (str_truncate s n e)) = (n + length endm)%nat) /\
  (length (text_of (str_truncate s n e)) <= n + length endm)%nat /\
  is_prefix (firstn n s) (text_of (str_truncate s n e)).
Proof.
  intro endm. unfold str_truncate. fold endm. destruct (Nat.ltb_spec n (length s)) as [E|E]; cbn [text_of].
  - assert (L : length (firstn n s ++ endm) = (n + length endm)%nat)
      by (rewrite app_length, firstn_length_le by lia; reflexivity).
    rewrite L. repeat split; try lia. exists endm. reflexivity.
  - repeat split; try lia. exists []. rewrite app_nil_r. symmetry. apply firstn_all2. exact E.
Qed.

Lemma truncate_clamp s n e :
  0 <= n ->
  str_truncate s (Z.to_nat (Z.min n (Z.of_nat (length s)))) e = str_truncate s (Z.to_nat n) e.
Proof.
  intro Hn. unfold str_truncate.
  destruct (Z_lt_le_dec n (Z.of_nat (length s))) as [H|H].
  - rewrite Z.min_l by lia. reflexivity.
  - rewrite Z.min_r, Nat2Z.id, Nat.ltb_irrefl by lia.
    rewrite (proj2 (Nat.ltb_ge (Z.to_nat n) (length s))) by lia. reflexivity.
Qed.

Lemma f_truncate_spec kw v :
  f_truncate kw v =
    match v with
    | VStr s _ =>
        match kw_find (s2l "length") kw with
        | None => BErr EMissingArg
        | Some l =>
            match arg_int TUsize l with
            | BErr e => BErr e
            | BOk n =>
                match kw_find (s2l "end") kw with
                | None => BOk (str_truncate s (Z.to_nat n) None)
                | Some (VStr e _) => BOk (str_truncate s (Z.to_nat n) (Some e))
                | Some _ => BErr EInvalidArg
                end
            end
        end
    | _ => BErr EInvalidArg
    end.
Proof.
  unfold f_truncate, on_str. destruct v; try reflexivity. cbn [arg_str bbind].
  rewrite kw_must_spec. destruct (kw_find (s2l "length") kw) as [l|]; [|reflexivity].
  destruct (arg_int TUsize l) as [n|e] eqn:E; [|reflexivity]. cbn [bbind].
  assert (Hn : 0 <= n).
  { apply arg_int_ok in E. destruct E as [(r0 & _ & Hr)|(f0 & _ & _ & Hr & _)]; cbn [ity_min] in Hr; lia. }
  rewrite kw_get_spec. destruct (kw_find (s2l "end") kw) as [ev|]; cbn [bbind].
  - destruct ev; cbn [arg_str bbind]; try reflexivity. rewrite truncate_clamp by exact Hn. reflexivity.
  - rewrite truncate_clamp by exact Hn. reflexivity.
Qed.

Lemma escape_with_spec tbl s : escaped_by tbl s (escape_with tbl s).
Proof.
  unfold escaped_by, escape_with.
  exists (map (fun c => match find (fun e => N.eqb (fst e) c) tbl with Some e => snd e | None => [c] end) s).
  split; [apply flat_map_concat_map|].
  induction s as [|c t IH]; cbn [map]; constructor; [|exact IH].
  destruct (find (fun e => N.eqb (fst e) c) tbl) as [e|] eqn:E.
  - left. apply find_some in E as [Hin He]. apply N.eqb_eq in He. exists (snd e). split; [|reflexivity].
    destruct e as [k rep]. cbn in *. subst k. exact Hin.
  - right. split; [|reflexivity]. intros rep Hin.
    pose proof (find_none _ _ E _ Hin) as Hn. cbn in Hn. rewrite N.eqb_refl in Hn. discriminate.
Qed.

Definition special_b (c : N) : bool := N.eqb c 60 || N.eqb c 62 || N.eqb c 34 || N.eqb c 39.

Lemma special_b_iff c : special_b c = true <-> html_special c.
Proof. unfold special_b, html_special. rewrite !orb_true_iff, !N.eqb_eq. tauto. Qed.

(* 60 62 34 39: less-than, greater-than, double and single quote *)
Definition table_sound (tbl : list (N * list N)) : bool :=
  forallb (fun e => forallb (fun c => negb (special_b c)) (snd e)) tbl &&
  forallb (fun k => if find (fun e => N.eqb (fst e) k) tbl then true else false) [60; 62; 34; 39]%N.

Lemma escape_no_specials tbl :
  table_sound tbl = true -> forall s c, In c (escape_with tbl s) -> ~ html_special c.
Proof.
  intros Hs s c Hin Hc. apply andb_true_iff in Hs as [H1 H2]. rewrite forallb_forall in H1, H2.
  unfold escape_with in Hin. apply in_flat_map in Hin as (x & _ & Hx).
  destruct (find (fun e => N.eqb (fst e) x) tbl) as [e|] eqn:E.
  - apply find_some in E as [He _]. specialize (H1 e He). rewrite forallb_forall in H1.
    specialize (H1 c Hx). apply special_b_iff in Hc. rewrite Hc in H1. discriminate.
  - destruct Hx as [<-|[]]. specialize (H2 x). rewrite E in H2.
    enough (In x [60; 62; 34; 39]%N) as Hk by discriminate (H2 Hk).
    destruct Hc as [->|[->|[->| ->]]]; cbn; tauto.
Qed.

Lemma xml_matches_doc : xml_map = doc_escape_xml. Proof. vm_compute. reflexivity. Qed.

Definition without (k : N) : list (N * list N) -> list (N * list N) :=
  filter (fun e => negb (N.eqb (fst e) k)).

Lemma find_without k c tbl : c <> k ->
  find (fun e => N.eqb (fst e) c) (without k tbl) = find (fun e => N.eqb (fst e) c) tbl.
Proof.
  intro H. induction tbl as [|e t IH]; [reflexivity|]. cbn [without filter find].
  destruct (N.eqb_spec (fst e) k) as [Ek|Ek]; cbn [negb find].
  - rewrite Ek. apply N.eqb_neq in H. rewrite N.eqb_sym, H. exact IH.
  - fold (without k t). rewrite IH. reflexivity.
Qed.

Lemma escape_with_without k tbl1 tbl2 s :
  without k tbl1 = without k tbl2 -> ~ In k s -> escape_with tbl1 s = escape_with tbl2 s.
Proof.
  intros Ht Hk. unfold escape_with. rewrite !flat_map_concat_map. f_equal. apply map_ext_in. intros c Hc.
  assert (H : c <> k) by (intros ->; exact (Hk Hc)).
  rewrite <- (find_without k c tbl1 H), <- (find_without k c tbl2 H), Ht. reflexivity.
Qed.

Lemma find_occ_eq p s :
  find_occ p s =
    match strip_prefix p s with
    | Some r => Some ([], r)
    | None => match s with
              | [] => None
              | c :: t => match find_occ p t with Some (a, r) => Some (c :: a, r) | None => None end
              end
    end.
Proof. destruct s; reflexivity. Qed.

Lemma leftmost_prefix {A} (p s r : list A) : s = p ++ r -> leftmost p s [] r.
Proof. intro H. split; [exact H|]. intros. apply Nat.le_0_l. Qed.

Lemma occ_cons {A} (p : list A) c t a r : c :: t = a ++ p ++ r ->
  is_prefix p (c :: t) \/ exists a', a = c :: a' /\ t = a' ++ p ++ r.
Proof.
  destruct a as [|d a']; intro H; [left; exists r; exact H|]. injection H as <- H.
  right. exists a'. split; [reflexivity|exact H].
Qed.

Lemma find_occ_spec p s :
  match find_occ p s with Some (a, r) => leftmost p s a r | None => ~ is_infix p s end.
Proof.
  induction s as [|c t IH]; rewrite find_occ_eq;
    (destruct (strip_prefix p _) as [r0|] eqn:E; [apply leftmost_prefix, strip_prefix_some, E|]);
    apply strip_prefix_none in E.
  - intros (a & r & H). destruct a; [|discriminate]. apply E. exists r. exact H.
  - destruct (find_occ p t) as [[a r]|].
    + destruct IH as [Ht Hmin]. split; [rewrite Ht; reflexivity|]. intros a' r' H.
      destruct (occ_cons _ _ _ _ _ H) as [Hp|(a3 & -> & H3)]; [contradiction|].
      apply le_n_S, (Hmin a3 r' H3).
    + intros (a & r & H). destruct (occ_cons _ _ _ _ _ H) as [Hp|(a3 & _ & H3)]; [contradiction|].
      apply IH. exists a3, r. exact H3.
Qed.

Lemma find_occ_shorter p s a r : p <> [] -> find_occ p s = Some (a, r) -> (length r < length s)%nat.
Proof.
  intros Hp H. pose proof (find_occ_spec p s) as L. rewrite H in L. destruct L as [-> _].
  rewrite !app_length. destruct p; [congruence|]. cbn. lia.
Qed.

(* one match consumes at least one character of a non-empty pattern: any fuel above the length does *)
Lemma split_fuel_indep p : p <> [] -> forall f f' s,
  (length s < f)%nat -> (length s < f')%nat -> split_fuel f p s = split_fuel f' p s.
Proof.
  intros Hp f. induction f as [|f IH]; intros f' s H1 H2; [lia|]. destruct f' as [|f']; [lia|].
  cbn [split_fuel]. destruct (find_occ p s) as [[a r]|] eqn:E; [|reflexivity]. f_equal.
  pose proof (find_occ_shorter _ _ _ _ Hp E). apply IH; lia.
Qed.

Lemma str_split_unfold p s : p <> [] ->
  str_split p s = match find_occ p s with Some (a, r) => a :: str_split p r | None => [s] end.
Proof.
  intro Hp. destruct p as [|x p']; [congruence|]. unfold str_split at 1. cbn [split_fuel].
  destruct (find_occ (x :: p') s) as [[a r]|] eqn:E; [|reflexivity]. f_equal.
  pose proof (find_occ_shorter _ _ _ _ Hp E). apply split_fuel_indep; [exact Hp|lia|lia].
Qed.

Lemma str_split_nonempty p s : str_split p s <> [].
Proof.
  unfold str_split. destruct p as [|x p']; [discriminate|]. cbn [split_fuel].
  destruct (find_occ (x :: p') s) as [[a r]|]; discriminate.
Qed.

Lemma split_spec p s : p <> [] -> split_at p s (str_split p s).
Proof.
  intro Hp. induction s as [s IH] using (induction_ltof1 _ (@length N)).
  rewrite (str_split_unfold p s Hp). pose proof (find_occ_spec p s) as L.
  destruct (find_occ p s) as [[a r]|] eqn:E.
  - apply split_one with (r := r); [exact L|]. apply IH. exact (find_occ_shorter _ _ _ _ Hp E).
  - apply split_none. exact L.
Qed.

Lemma split_at_join {A} (p s : list A) l : split_at p s l -> join_with p l = s.
Proof.
  induction 1 as [s Hn|s a r l [-> _] Hl IH]; [reflexivity|].
  destruct Hl; cbn [join_with] in IH |- *; [reflexivity|rewrite IH; reflexivity].
Qed.

Lemma intercalate_join sep l : intercalate sep l = join_with sep l.
Proof.
  induction l as [|x t IH]; [reflexivity|]. destruct t; [reflexivity|].
  cbn [intercalate join_with] in *. rewrite IH. reflexivity.
Qed.

Lemma intercalate_cons sep x l : l <> [] -> intercalate sep (x :: l) = x ++ sep ++ intercalate sep l.
Proof. destruct l; [congruence|reflexivity]. Qed.

(* replace: the text between the leftmost non-overlapping occurrences is kept, each occurrence
   becomes `to` *)
Lemma replace_spec from to s :
  from <> [] ->
  exists pieces, split_at from s pieces /\ join_with from pieces = s /\
                 str_replace from to s = join_with to pieces.
Proof.
  intro Hf. exists (str_split from s). pose proof (split_spec from s Hf) as H.
  split; [exact H|]. split; [apply split_at_join; exact H|]. apply intercalate_join.
Qed.

Lemma replace_empty_pattern to s :
  str_replace [] to s = to ++ flat_map (fun c => c :: to) s.
Proof.
  unfold str_replace, str_split.
  assert (G : forall t, intercalate to (map (fun c => [c]) t ++ [[]]) = flat_map (fun c => c :: to) t).
  { induction t as [|c t IH]; [reflexivity|]. cbn [map app flat_map].
    rewrite intercalate_cons by (destruct t; discriminate). rewrite IH. reflexivity. }
  rewrite intercalate_cons by (destruct s; discriminate). rewrite G. reflexivity.
Qed.

Lemma replace_unfold p to s : p <> [] ->
  str_replace p to s =
    match strip_prefix p s with
    | Some r => to ++ str_replace p to r
    | None => match s with [] => [] | c :: t => c :: str_replace p to t end
    end.
Proof.
  intro Hp. unfold str_replace. rewrite (str_split_unfold p s Hp), find_occ_eq.
  destruct (strip_prefix p s) as [r|].
  - apply intercalate_cons, str_split_nonempty.
  - destruct s as [|c t]; [reflexivity|]. rewrite (str_split_unfold p t Hp).
    destruct (find_occ p t) as [[a r]|]; [|reflexivity].
    rewrite !intercalate_cons by apply str_split_nonempty. reflexivity.
Qed.

(* newlines_to_br obeys the recursion that defines nl2br: the first replace consumes a CR LF pair,
   the second pass maps what is left character by character (and leaves the inserted <br> alone) *)
Lemma newlines_to_br_spec s : newlines_to_br s = nl2br s.
Proof.
  unfold newlines_to_br, CR, LF.
  induction s as [s IH] using (induction_ltof1 _ (@length N)). unfold ltof in IH.
  rewrite replace_unfold by discriminate. destruct s as [|c t]; [reflexivity|]. cbn [strip_prefix nl2br].
  rewrite (N.eqb_sym 13 c). destruct (N.eqb c 13) eqn:E.
  - apply N.eqb_eq in E. subst c. destruct t as [|d t']; [reflexivity|].
    rewrite (N.eqb_sym 10 d). destruct (N.eqb d 10).
    + rewrite flat_map_app, IH by (cbn; lia). reflexivity.
    + cbn [flat_map]. rewrite IH by (cbn; lia). reflexivity.
  - cbn [flat_map]. rewrite E, IH by (cbn; lia). destruct (N.eqb c 10); reflexivity.
Qed.

(* str::lines does not tell whether the text ended with a line feed; str_indent puts this back *)
Definition trail (w : str) : str := if ends_with_lf w then [LF] else [].

Lemma trail_app a c t : trail (a ++ c :: t) = trail (c :: t).
Proof. unfold trail, ends_with_lf. rewrite rev_app_distr. cbn [rev]. destruct (rev t); reflexivity. Qed.

(* cur is the line being read, reversed.  With a line feed put in front of the text every line follows
   a line feed, the empty text has no line and needs no case of its own, and a text without CR is its
   lines, each behind its line feed *)
Lemma lines_go_flat : forall s cur, ~ In CR (rev cur ++ s) -> ~ In LF cur ->
  flat_map (cons LF) (lines_go s cur) ++ trail (LF :: rev cur ++ s) = LF :: rev cur ++ s.
Proof.
  induction s as [|c t IH]; intros cur Hc Hl; cbn [lines_go].
  - rewrite app_nil_r. destruct cur as [|d cur']; [reflexivity|]. cbn [flat_map rev].
    rewrite app_comm_cons, trail_app. unfold trail, ends_with_lf. cbn [rev app].
    destruct (N.eqb_spec d LF) as [->|]; [destruct Hl; left; reflexivity|]. rewrite !app_nil_r. reflexivity.
  - destruct (N.eqb_spec c LF) as [->|E].
    + (* cur is a whole line, and has no CR to lose *)
      replace (match cur with d :: cur' => if N.eqb d CR then rev cur' else rev cur | [] => [] end)
        with (rev cur).
      2: { destruct cur as [|d cur']; [reflexivity|]. destruct (N.eqb_spec d CR) as [->|]; [|reflexivity].
           destruct Hc. cbn [rev]. rewrite <- app_assoc. apply in_or_app. right. left. reflexivity. }
      cbn [flat_map]. rewrite app_comm_cons, trail_app, <- app_assoc, IH; [reflexivity| |intros []].
      intro H. apply Hc, in_or_app. right. right. exact H.
    + specialize (IH (c :: cur)). cbn [rev] in IH. rewrite <- app_assoc in IH. apply IH; [exact Hc|].
      intros [H|H]; [exact (E H)|exact (Hl H)].
Qed.

Lemma indent_lines_nopad_rest : forall ls fi bl,
  indent_lines ls [] false fi bl = flat_map (fun l => LF :: l) ls.
Proof.
  induction ls as [|l t IH]; intros fi bl; [reflexivity|]. cbn [indent_lines flat_map].
  rewrite IH. destruct (negb match l with [] => true | _ :: _ => false end || bl); reflexivity.
Qed.

Lemma indent_width0_identity s fi bl : ~ In CR s -> str_indent s 0 fi bl = s.
Proof.
  intro H. unfold str_indent. change (repeat SP (Z.to_nat (Z.min 0 1000))) with (@nil N). fold (trail s).
  destruct s as [|c t]; [reflexivity|].
  pose proof (lines_go_flat (c :: t) [] H (fun x => x)) as L. cbn [rev] in L.
  rewrite app_comm_cons, trail_app in L. cbn [app] in L. unfold str_lines.
  destruct (lines_go (c :: t) []) as [|l r].
  - unfold trail in L. destruct (ends_with_lf _); discriminate L.
  - cbn [indent_lines]. rewrite indent_lines_nopad_rest. injection L as L. rewrite <- app_assoc.
    destruct fi; exact L.
Qed.

Section CaseLaws.
  Variables (upper_of lower_of : N -> list N) (final_sigma : str -> nat -> bool).

  (* what a case filter may put in the place of one character *)
  Definition case_variant (c : N) (piece : str) : Prop :=
    piece = [c] \/ piece = upper_of c \/ piece = lower_of c \/
    (c = sigma_cap /\ (piece = [sigma_small] \/ piece = [sigma_final])).

  Definition case_only (s out : str) : Prop :=
    exists pieces, Forall2 case_variant s pieces /\ out = concat pieces.

  Lemma case_only_cons c piece s out :
    case_variant c piece -> case_only s out -> case_only (c :: s) (piece ++ out).
  Proof.
    intros Hc (ps & Hf & ->). exists (piece :: ps). split; [constructor; assumption|reflexivity].
  Qed.

  Lemma case_only_nil : case_only [] [].
  Proof. exists []. split; [constructor|reflexivity]. Qed.

  Lemma lower_from_case_only whole : forall s i, case_only s (lower_from lower_of final_sigma whole i s).
  Proof.
    induction s as [|c t IH]; intro i; [apply case_only_nil|]. cbn [lower_from].
    apply case_only_cons; [|apply IH].
    destruct (N.eqb c sigma_cap) eqn:E.
    - apply N.eqb_eq in E. right. right. right. split; [exact E|].
      destruct (final_sigma whole i); [right|left]; reflexivity.
    - right. right. left. reflexivity.
  Qed.

  Lemma title_go_case_only : forall s cap, case_only s (title_go upper_of lower_of s cap).
  Proof.
    induction s as [|c t IH]; intro cap; [apply case_only_nil|]. cbn [title_go].
    destruct (is_ascii_punct c || is_ws c).
    - apply (case_only_cons c [c]); [left; reflexivity|apply IH].
    - destruct cap; (apply case_only_cons; [|apply IH]); [right; left|right; right; left]; reflexivity.
  Qed.

  Lemma case_filters_case_only s :
    case_only s (str_upper upper_of s) /\
    case_only s (str_lower lower_of final_sigma s) /\
    case_only s (str_capitalize upper_of lower_of final_sigma s) /\
    case_only s (str_title upper_of lower_of s).
  Proof.
    split; [|split; [|split]].
    - induction s as [|c t IH]; [apply case_only_nil|]. cbn. apply case_only_cons; [|exact IH].
      right. left. reflexivity.
    - apply lower_from_case_only.
    - destruct s as [|c t]; [apply case_only_nil|]. cbn.
      apply case_only_cons; [right; left; reflexivity|apply lower_from_case_only].
    - apply title_go_case_only.
  Qed.

  Definition caseless (c : N) : Prop := upper_of c = [c] /\ lower_of c = [c] /\ c <> sigma_cap.

  Lemma case_only_caseless s out : Forall caseless s -> case_only s out -> out = s.
  Proof.
    intros H (ps & Hf & ->). induction Hf as [|c p s ps Hc _ IH]; [reflexivity|].
    inversion H as [|? ? (Hu & Hl & Hs) Ht]; subst. cbn [concat]. rewrite (IH Ht).
    destruct Hc as [->|[->|[->|[E _]]]]; [|rewrite Hu|rewrite Hl|contradiction]; reflexivity.
  Qed.

  Lemma case_filter_shapes s :
    str_upper upper_of s = flat_map upper_of s /\
    (forall c t, s = c :: t ->
       str_capitalize upper_of lower_of final_sigma s = upper_of c ++ str_lower lower_of final_sigma t) /\
    (~ In sigma_cap s -> str_lower lower_of final_sigma s = flat_map lower_of s).
  Proof.
    repeat split.
    - intros c t ->. reflexivity.
    - intro Hn. unfold str_lower. generalize 0%nat. generalize s at 1.
      induction s as [|c t IH]; intros whole i; [reflexivity|]. cbn [lower_from flat_map].
      assert (E : N.eqb c sigma_cap = false) by (apply N.eqb_neq; intro; apply Hn; left; congruence).
      rewrite E, IH by (intro; apply Hn; right; assumption). reflexivity.
  Qed.
End CaseLaws.

Definition covered (registered modelled oracle_only : list string) : bool :=
  forallb (fun n => existsb (String.eqb n) modelled || existsb (String.eqb n) oracle_only) registered.
