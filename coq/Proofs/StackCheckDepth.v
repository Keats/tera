(* C07: the component recursion guard in the concrete VM model (interpreter.rs render_component
   / render_include), one step of `run` at a time. `depth` is run's component_recursion_depth
   parameter:
   - Include passes it on unchanged (the included template's VM keeps the counter), so recursion
     that alternates component calls and includes is still counted (include_keeps_depth,
     include_keeps_depth_captured);
   - a component call runs its chunk at `S depth` (component_increases_depth, for the inline form),
     and only when `S depth <= w_max_depth`: at the limit the step fails and starts no run
     (component_guard).
   The bound on the depth of every nested run is not stated here; over call/include event traces
   it is C05_depth_bounded. *)
From TeraV Require Import Model.Value Model.Instr Model.VM Proofs.RunStep.
Local Open Scope nat_scope.

Section Depth.
  Variable W : Type.
  Variable wr : W -> str -> option W.
  Variable wd : world.

  (* the same record as RunStep.include_start, under the name the C07 statements use *)
  Definition include_state (s : state) : state :=
    {| stack := []; loops := []; setvars := []; caps := []; blocks := []; cur_block := None;
       parent := Some (scope_of s); context := context s; global := None; capture_block := None;
       block_buffer := [] |}.

  Lemma include_keeps_depth f tpl ae depth ch ip s o n t2 :
    nth_error ch ip = Some (Include n) -> assoc_get (w_templates wd) n = Some t2 -> caps s = [] ->
    run W wr wd (S f) tpl ae depth ch ip s o =
    match run W wr wd f t2 ae depth (t_root_chunk t2) 0 (include_state s) o with
    | RDone _ o1 => run W wr wd f tpl ae depth ch (S ip) s o1
    | RFail e => RFail e
    | ROutOfFuel => ROutOfFuel
    end.
  Proof. intros H1 H2 H3. rewrite run_step, H1. cbv [instr_effect pure_step is_unop is_binop is_stackop]. rewrite H2, H3. reflexivity. Qed.

  Lemma include_keeps_depth_captured f tpl ae depth ch ip s o n t2 c ct :
    nth_error ch ip = Some (Include n) -> assoc_get (w_templates wd) n = Some t2 -> caps s = c :: ct ->
    run W wr wd (S f) tpl ae depth ch ip s o =
    match run W wr wd f t2 ae depth (t_root_chunk t2) 0 (include_state s) (SinkBuf c) with
    | RDone _ (SinkBuf c1) => run W wr wd f tpl ae depth ch (S ip) (upd_caps s (c1 :: ct)) o
    | RDone _ (SinkTop _) => RFail ErrPanic
    | RFail e => RFail e
    | ROutOfFuel => ROutOfFuel
    end.
  Proof. intros H1 H2 H3. rewrite run_step, H1. cbv [instr_effect pure_step is_unop is_binop is_stackop]. rewrite H2, H3. reflexivity. Qed.

  Lemma component_guard f tpl ae depth ch ip s o i n :
    nth_error ch ip = Some i -> i = RenderInlineComponent n \/ i = RenderBodyComponent n ->
    w_max_depth wd < S depth ->
    exists e, run W wr wd (S f) tpl ae depth ch ip s o = RFail e.
  Proof.
    intros H1 Hi Hd. apply Nat.ltb_lt in Hd. rewrite run_step, H1.
    enough (exists e, instr_effect wd tpl ae depth i s = EffFail e) as (e & ->) by (exists e; reflexivity).
    destruct Hi as [-> | ->]; cbv [instr_effect pure_step is_unop is_binop is_stackop]; rewrite Hd;
      (destruct (pop1 s) as [[kw s1]|]; [|eauto]);
      (destruct (kwargs_of kw) as [k|], (assoc_get (w_components wd) n) as [[def c]|]; eauto).
    - destruct (w_build_ctx wd def k None); eauto.
    - (* the body form pops the body first *)
      destruct (pop1 s1) as [[b s2]|]; [|eauto]. destruct (w_build_ctx wd def k _); eauto.
  Qed.

  Lemma component_increases_depth f tpl ae depth ch ip s o n kw s1 k def c cctx :
    nth_error ch ip = Some (RenderInlineComponent n) -> pop1 s = Some (kw, s1) -> kwargs_of kw = Some k ->
    assoc_get (w_components wd) n = Some (def, c) -> w_build_ctx wd def k None = ROk cctx ->
    S depth <= w_max_depth wd ->
    run W wr wd (S f) tpl ae depth ch ip s o =
    match run W wr wd f tpl ae (S depth) c 0 (new_state cctx) (SinkBuf []) with
    | ROutOfFuel => ROutOfFuel
    | RFail e => RFail e
    | RDone _ (SinkTop _) => RFail ErrPanic
    | RDone _ (SinkBuf text) => run W wr wd f tpl ae depth ch (S ip) (push s1 (VStr text true)) o
    end.
  Proof.
    intros H1 H2 H3 H4 H5 Hd. apply Nat.ltb_ge in Hd.
    rewrite run_step, H1. cbv [instr_effect pure_step is_unop is_binop is_stackop]. rewrite H2, H3, H4, H5, Hd. reflexivity.
  Qed.
End Depth.
