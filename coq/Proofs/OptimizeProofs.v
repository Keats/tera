(* C09, structural half: the ported fusion pass only merges variable-path loads (and a directly
   following write), never swallows a jump target, and re-targets every jump to the group that
   starts where the jump pointed. *)
From TeraV Require Import Model.Value Model.Instr Model.Optimize Gen.Tables.
Local Open Scope nat_scope.

Definition expand1 (x : instr) : list instr :=
  match x with
  | LoadPath (n :: attrs) => LoadName n :: map LoadAttr attrs
  | WritePath (n :: attrs) => LoadName n :: map LoadAttr attrs ++ [WriteTop]
  | i => [i]
  end.
Definition expand (c : list instr) : list instr := flat_map expand1 c.
Definition gsize (x : instr) : nat := length (expand1 x).

(* original index at which group number n starts *)
Definition group_start (o : list instr) (n : nat) : nat := length (expand (firstn n o)).

Definition is_fused (x : instr) : bool :=
  match x with LoadPath _ | WritePath _ => true | _ => false end.
Definition unfused (p : chunk) : Prop := forall x, In x p -> is_fused (fst x) = false.

(* index_map entries for the groups of o, the first group having new index olen *)
Fixpoint imap_of (olen : nat) (o : list instr) : list nat :=
  match o with
  | [] => [olen]
  | g :: o' => repeat olen (gsize g) ++ imap_of (S olen) o'
  end.

Lemma unfused_expand1 i : is_fused i = false -> expand1 i = [i].
Proof. destruct i; (reflexivity || discriminate). Qed.

Lemma gsize_LoadPath n attrs : gsize (LoadPath (n :: attrs)) = S (length attrs).
Proof. unfold gsize. cbn. rewrite map_length. reflexivity. Qed.

Lemma gsize_WritePath n attrs : gsize (WritePath (n :: attrs)) = S (S (length attrs)).
Proof. unfold gsize. cbn. rewrite app_length, map_length. cbn. lia. Qed.

Lemma gsize_pos g : 0 < gsize g.
Proof.
  destruct (is_fused g) eqn:F; [|unfold gsize; rewrite (unfused_expand1 _ F); cbn; lia].
  destruct g; try discriminate F; destruct p; cbn; lia.
Qed.

Lemma expand_app a b : expand (a ++ b) = expand a ++ expand b.
Proof. unfold expand. apply flat_map_app. Qed.

Lemma expand_length_ge o : length o <= length (expand o).
Proof.
  induction o as [|g o IH]; [cbn; lia|]. cbn [expand flat_map length]. rewrite app_length.
  pose proof (gsize_pos g). unfold gsize in *. fold (expand o). lia.
Qed.

Lemma group_start_0 o : group_start o 0 = 0.
Proof. reflexivity. Qed.

Lemma group_start_S g o n : group_start (g :: o) (S n) = gsize g + group_start o n.
Proof. unfold group_start. cbn [firstn expand flat_map]. rewrite app_length. reflexivity. Qed.

Lemma group_start_all o : group_start o (length o) = length (expand o).
Proof. unfold group_start. rewrite firstn_all. reflexivity. Qed.

Lemma nth_error_repeat_app {A} (x : A) k l n :
  n < k -> nth_error (repeat x k ++ l) n = Some x.
Proof.
  revert n. induction k as [|k IH]; intros n H; [lia|].
  destruct n; cbn; [reflexivity|]. apply IH. lia.
Qed.

Lemma nth_error_repeat_app_ge {A} (x : A) k l n :
  nth_error (repeat x k ++ l) (k + n) = nth_error l n.
Proof. induction k as [|k IH]; cbn; auto. Qed.

Lemma imap_at_start o : forall olen n, n <= length o ->
  nth_error (imap_of olen o) (group_start o n) = Some (olen + n).
Proof.
  induction o as [|g o IH]; intros olen n Hn.
  - cbn in Hn. assert (n = 0) by lia. subst. cbn. f_equal. lia.
  - destruct n as [|n].
    + rewrite group_start_0. cbn [imap_of]. rewrite nth_error_repeat_app by apply gsize_pos.
      f_equal. lia.
    + rewrite group_start_S. cbn [imap_of]. rewrite nth_error_repeat_app_ge.
      rewrite IH by (cbn in Hn; lia). f_equal. lia.
Qed.

Lemma imap_length o olen : length (imap_of olen o) = S (length (expand o)).
Proof.
  revert olen. induction o as [|g o IH]; intros olen; [reflexivity|].
  cbn [imap_of expand flat_map]. fold (expand o).
  rewrite !app_length, repeat_length, IH. unfold gsize. lia.
Qed.

Lemma collect_attrs_spec jt : forall rest j,
  let '(attrs, sps, r, j') := collect_attrs jt j rest in
  exists pre, rest = pre ++ r /\ map fst pre = map LoadAttr attrs /\
    sps = concat (map snd pre) /\ j' = j + length attrs /\
    (forall k, k < length attrs -> jt (j + k) = false).
Proof.
  (* wherever the loop stops at once, pre is empty *)
  induction rest as [|[i sp] rest IH]; intros j; [|destruct i]; cbn [collect_attrs];
    try (exists []; repeat split; [apply plus_n_O|intros q Hq; inversion Hq]).
  destruct (jt j) eqn:Ej; [exists []; repeat split; [apply plus_n_O|intros q Hq; inversion Hq]|].
  specialize (IH (S j)). destruct (collect_attrs jt (S j) rest) as [[[attrs sps] r] j'].
  destruct IH as (pre & Hr & Hm & Hs & Hj & Hn).
  exists ((LoadAttr a, sp) :: pre). cbn [map fst snd app length concat]. repeat split.
  - rewrite Hr. reflexivity.
  - f_equal. exact Hm.
  - rewrite Hs. reflexivity.
  - lia.
  - intros k Hk. destruct k; [rewrite Nat.add_0_r; exact Ej|].
    replace (j + S k) with (S j + k) by lia. apply Hn. lia.
Qed.

Definition is_start (o : list instr) (k : nat) : Prop :=
  exists n, n <= length o /\ group_start o n = k.

Lemma is_start_cons g o k : is_start o k -> is_start (g :: o) (gsize g + k).
Proof.
  intros [n [Hn Hs]]. exists (S n). split; [cbn; lia|]. rewrite group_start_S. lia.
Qed.

Lemma is_start_zero o : is_start o 0.
Proof. exists 0. split; [lia|reflexivity]. Qed.

Definition fused_shape (g : instr) : Prop :=
  exists n attrs, is_magic n = false /\ (g = LoadPath (n :: attrs) \/ g = WritePath (n :: attrs)).

(* of opt_go's result on `rest`, which stands at index i of the chunk, its groups numbered from olen:
   it expands to rest; its index_map is imap_of; the end of rest and every offset that jt marks as a
   jump target begin a group; what is fused has a fusable shape *)
Definition go_spec (jt : nat -> bool) (i olen : nat) (rest : chunk) (res : chunk * list nat) : Prop :=
  expand (map fst (fst res)) = map fst rest /\
  snd res = imap_of olen (map fst (fst res)) /\
  (forall k, k <= length rest -> (k = length rest \/ jt (i + k) = true) -> is_start (map fst (fst res)) k) /\
  (forall x, In x (fst res) -> is_fused (fst x) = true -> fused_shape (fst x)).

Lemma unfused_tail x p : unfused (x :: p) -> unfused p.
Proof. intros H y Hy. apply H. right. exact Hy. Qed.

Lemma unfused_app_r a b : unfused (a ++ b) -> unfused b.
Proof. intros H y Hy. apply H. apply in_or_app. right. exact Hy. Qed.

Lemma fused_shape_fused g : fused_shape g -> is_fused g = true.
Proof. intros (n & attrs & _ & [-> | ->]); reflexivity. Qed.

(* one round: x and the |pre| + |tailw| instructions after it (tailw is the absorbed write) become
   the one instruction g *)
Lemma go_spec_group jt i olen x pre tailw r g gsp o m :
  expand1 g = fst x :: map fst pre ++ map fst tailw ->
  (is_fused g = true -> fused_shape g) ->
  (forall k, 0 < k -> k <= length tailw + length pre -> jt (i + k) = false) ->
  go_spec jt (length tailw + (S i + length pre)) (S olen) r (o, m) ->
  go_spec jt i olen (x :: pre ++ tailw ++ r)
          ((g, gsp) :: o, repeat olen (S (length tailw + length pre)) ++ m).
Proof.
  intros Hex Hg Hnt (G1 & G2 & G3 & G4). cbn [fst snd] in *. unfold go_spec. cbn [fst snd].
  assert (Hgs : gsize g = S (length tailw + length pre)).
  { unfold gsize. rewrite Hex. cbn. rewrite app_length, !map_length. lia. }
  set (k := length tailw + length pre) in *.
  repeat split.
  - cbn [map fst expand flat_map]. fold (expand (map fst o)). rewrite G1, Hex.
    cbn [map fst app]. rewrite !map_app. rewrite <- !app_assoc. reflexivity.
  - cbn [map fst imap_of]. rewrite Hgs. f_equal. exact G2.
  - intros q Hq Hc. cbn [map fst].
    destruct (Nat.eq_dec q 0) as [->|Hq0]; [apply is_start_zero|].
    cbn [length] in Hq, Hc. rewrite !app_length in Hq, Hc.
    destruct (Nat.le_gt_cases q k) as [Hle|Hgt].
    + exfalso. destruct Hc as [Hc|Hc]; [lia|].
      rewrite Hnt in Hc by lia. discriminate.
    + replace q with (gsize g + (q - S k)) by lia.
      apply is_start_cons. apply G3; [lia|].
      destruct Hc as [Hc|Hc]; [left; lia|right].
      replace (length tailw + (S i + length pre) + (q - S k)) with (i + q) by lia. exact Hc.
  - intros y [<-|Hy]; [exact Hg|apply G4; assumption].
Qed.

(* One round of `opt_go`, for any property of its result: either the head instruction is copied, or
   it is a LoadName of a non-magic variable that absorbs the LoadAttr run `pre` after it and, in
   `tailw`, the WriteTop that follows. The fuel and length arguments are spelled the way the function
   computes them. *)
Lemma opt_go_cases f jt i olen x rest' (Pr : chunk * list nat -> Prop) :
  Pr (let '(o, m) := opt_go f jt (S i) (S olen) rest' in (x :: o, olen :: m)) ->
  (forall n sp pre tailw r g,
     x = (LoadName n, sp) -> rest' = pre ++ tailw ++ r ->
     expand1 g = LoadName n :: map fst pre ++ map fst tailw -> fused_shape g ->
     (forall k, 0 < k -> k <= length tailw + length pre -> jt (i + k) = false) ->
     Pr (let '(o, m) := opt_go f jt (length tailw + (S i + length pre)) (S olen) r in
         ((g, sp ++ concat (map snd pre)) :: o, repeat olen (S (length tailw + length pre)) ++ m))) ->
  Pr (opt_go (S f) jt i olen (x :: rest')).
Proof.
  intros Hplain Hgroup. destruct x as [ins sp].
  (* unfolded once, before the split on the instruction, and without zeta: the function's
     `let no_write` stays shared by the arms of `match r` *)
  cbn beta iota delta [opt_go]. destruct ins; try exact Hplain.
  destruct (is_magic n) eqn:Emagic; [exact Hplain|].
  pose proof (collect_attrs_spec jt rest' (S i)) as Hc.
  destruct (collect_attrs jt (S i) rest') as [[[attrs sps] r] j]. destruct Hc as (pre & -> & Hpre & -> & -> & Hnt).
  assert (Hlp : length attrs = length pre).
  { rewrite <- (map_length fst pre), Hpre, map_length. reflexivity. }
  rewrite Hlp in *.
  assert (Hshape : forall g, g = LoadPath (n :: attrs) \/ g = WritePath (n :: attrs) -> fused_shape g)
    by (intros g Hg; exists n, attrs; split; assumption).
  assert (Hnowrite : Pr
    (match attrs with
     | [] => let '(o, m) := opt_go f jt (S i) (S olen) (pre ++ r) in ((LoadName n, sp) :: o, olen :: m)
     | _ :: _ => let '(o, m) := opt_go f jt (S i + length pre) (S olen) r in
                 ((LoadPath (n :: attrs), sp ++ concat (map snd pre)) :: o, repeat olen (S (length pre)) ++ m)
     end)).
  { destruct attrs as [|a0 attrs'] eqn:Ea; [exact Hplain|]. rewrite <- Ea in *.
    apply (Hgroup n sp pre [] r (LoadPath (n :: attrs))); auto.
    - cbn [expand1 map]. rewrite Hpre, app_nil_r. reflexivity.
    - intros q Hq0 Hq. replace (i + q) with (S i + (q - 1)) by lia. apply Hnt. cbn [length] in Hq. lia. }
  destruct r as [|[rins rsp] r']; [exact Hnowrite|].
  destruct rins; try exact Hnowrite.
  destruct (jt (S i + length pre)) eqn:Ejt; [exact Hnowrite|].
  (* a WriteTop that is not a jump target is absorbed *)
  apply (Hgroup n sp pre [(WriteTop, rsp)] r' (WritePath (n :: attrs))); auto.
  - cbn [expand1 map fst]. rewrite Hpre. reflexivity.
  - intros q Hq0 Hq. cbn [length] in Hq.
    destruct (Nat.eq_dec q (S (length pre))) as [->|Hne].
    + replace (i + S (length pre)) with (S i + length pre) by lia. exact Ejt.
    + replace (i + q) with (S i + (q - 1)) by lia. apply Hnt. lia.
Qed.

Lemma opt_go_spec jt : forall fuel i olen rest,
  length rest < fuel -> unfused rest ->
  go_spec jt i olen rest (opt_go fuel jt i olen rest).
Proof.
  induction fuel as [|f IH]; intros i olen rest Hf Hu; [lia|].
  destruct rest as [|x rest'].
  - unfold go_spec. cbn [opt_go fst snd map expand flat_map imap_of length]. split; [reflexivity|].
    split; [reflexivity|]. split.
    + intros k Hk _. assert (k = 0) by lia. subst. apply is_start_zero.
    + intros y [].
  - cbn [length] in Hf. apply opt_go_cases.
    + pose proof (IH (S i) (S olen) rest' ltac:(lia) (unfused_tail _ _ Hu)) as H.
      destruct (opt_go f jt (S i) (S olen) rest') as [o m]. pose proof (Hu x (or_introl eq_refl)) as Hx.
      destruct x as [ins sp]. apply (go_spec_group jt i olen (ins, sp) [] [] rest' ins sp).
      * exact (unfused_expand1 _ Hx).
      * cbn [fst] in Hx. congruence.
      * cbn. intros; lia.
      * cbn [length Nat.add]. rewrite Nat.add_0_r. exact H.
    + intros n sp pre tailw r g -> -> Hex Hshape Hnt. rewrite !app_length in Hf.
      pose proof (IH (length tailw + (S i + length pre)) (S olen) r ltac:(lia)
                    (unfused_app_r _ _ (unfused_app_r _ _ (unfused_tail _ _ Hu)))) as H.
      destruct (opt_go f jt _ (S olen) r) as [o m].
      apply go_spec_group; auto.
Qed.

Definition targets_in_range (p : chunk) : Prop :=
  forall x t, In x p -> target_of (fst x) = Some t -> t <= length p.

(* i' is the optimised counterpart of the original instruction i *)
Definition rel (o : list instr) (i' i : instr) : Prop :=
  match target_of i with
  | Some t => exists t', i' = set_target i t' /\ t' <= length o /\ group_start o t' = t
  | None => i' = i
  end.

Lemma is_jump_target_intro p x t :
  In x p -> target_of (fst x) = Some t -> is_jump_target p t = true.
Proof.
  intros Hin Ht. unfold is_jump_target. apply existsb_exists. exists x. split; [exact Hin|].
  rewrite Ht. apply Nat.eqb_refl.
Qed.

Lemma target_unfused i t : target_of i = Some t -> is_fused i = false.
Proof. destruct i; cbn; intros H; try discriminate; reflexivity. Qed.

Lemma set_target_fused i t' : is_fused (set_target i t') = is_fused i.
Proof. destruct i; reflexivity. Qed.

Lemma set_target_gsize i t' : gsize (set_target i t') = gsize i.
Proof. destruct i; reflexivity. Qed.

(* what `retarget m` does to an instruction whose target m covers: the pass's result is the raw
   grouping with every instruction mapped through it *)
Definition re (m : list nat) (i : instr) : instr :=
  match target_of i with Some t => set_target i (nth t m 0) | None => i end.

Lemma map_opt_retarget m : forall o_raw : chunk,
  (forall x t, In x o_raw -> target_of (fst x) = Some t -> exists n, nth_error m t = Some n) ->
  exists o, map_opt (retarget m) o_raw = Some o /\ map fst o = map (re m) (map fst o_raw).
Proof.
  induction o_raw as [|x o_raw IH]; intros H; [exists []; split; reflexivity|].
  destruct IH as (o & Ho & Hf). { intros y t Hy. apply H. right. exact Hy. }
  cbn [map_opt map]. unfold retarget at 1, re at 1. destruct (target_of (fst x)) as [t|] eqn:Et.
  - destruct (H x t (or_introl eq_refl) Et) as (n & Hn). rewrite Hn, (nth_error_nth _ _ 0 Hn), Ho.
    eexists. split; [reflexivity|]. cbn [map fst]. rewrite Hf. reflexivity.
  - rewrite Ho. eexists. split; [reflexivity|]. cbn [map]. rewrite Hf. reflexivity.
Qed.

Lemma re_fused m i : is_fused (re m i) = true -> re m i = i.
Proof.
  unfold re. destruct (target_of i) as [t|] eqn:Et; [|reflexivity].
  rewrite set_target_fused, (target_unfused _ _ Et). discriminate.
Qed.

Lemma expand1_no_target i : target_of i = None -> Forall (fun e => target_of e = None) (expand1 i).
Proof.
  intros Ht. destruct (is_fused i) eqn:Ef; [|rewrite (unfused_expand1 _ Ef); repeat constructor; exact Ht].
  destruct i; try discriminate Ef; destruct p as [|n attrs]; repeat constructor;
    [|apply Forall_app; split; [|repeat constructor]];
    apply Forall_forall; intros e He; apply in_map_iff in He; destruct He as (a & <- & _); reflexivity.
Qed.

(* re-pointing commutes with expansion: a jump is its own group, and no piece of a group is a jump *)
Lemma re_expand1 m i : expand1 (re m i) = map (re m) (expand1 i).
Proof.
  unfold re at 1. destruct (target_of i) as [t|] eqn:Et.
  - pose proof (target_unfused _ _ Et) as Hu.
    rewrite (unfused_expand1 i Hu), unfused_expand1 by (rewrite set_target_fused; exact Hu).
    cbn [map]. unfold re. rewrite Et. reflexivity.
  - rewrite <- (map_id (expand1 i)) at 1. apply map_ext_in. intros e He.
    pose proof (expand1_no_target i Et) as H. rewrite Forall_forall in H. unfold re. rewrite (H e He). reflexivity.
Qed.

Lemma re_expand m o : expand (map (re m) o) = map (re m) (expand o).
Proof.
  induction o as [|g o IH]; [reflexivity|]. cbn [map expand flat_map]. rewrite map_app, re_expand1. f_equal. exact IH.
Qed.

Lemma re_group_start m o n : group_start (map (re m) o) n = group_start o n.
Proof. unfold group_start. rewrite firstn_map, re_expand, map_length. reflexivity. Qed.

Lemma Forall2_map_self {A} (R : A -> A -> Prop) f l : (forall x, In x l -> R (f x) x) -> Forall2 R (map f l) l.
Proof.
  induction l as [|x l IH]; intros H; constructor; [apply H; left; reflexivity|].
  apply IH. intros y Hy. apply H. right. exact Hy.
Qed.

Theorem optimize_structure p :
  unfused p -> targets_in_range p ->
  exists o, optimize p = Some o /\
    (* the optimised code is the original with only path loads (+ write) merged,
       jumps re-pointed to the group that starts at their old target *)
    Forall2 (rel (map fst o)) (expand (map fst o)) (map fst p) /\
    (* no merged group contains a jump target other than as its first instruction *)
    (forall t, t <= length p -> (t = length p \/ is_jump_target p t = true) -> is_start (map fst o) t) /\
    length (expand (map fst o)) = length p /\
    (* fused instructions have a non-magic head variable *)
    (forall g, In g (map fst o) -> is_fused g = true -> fused_shape g).
Proof.
  intros Hu Hr. unfold optimize, optimize_raw.
  pose proof (opt_go_spec (is_jump_target p) (S (length p)) 0 0 p ltac:(lia) Hu) as Hs.
  destruct (opt_go (S (length p)) (is_jump_target p) 0 0 p) as [o_raw m] eqn:E.
  destruct Hs as (S1 & S2 & S3 & S4). cbn [fst snd] in *.
  (* a target of p is the start of a group of the raw result, and m holds that group's number there *)
  assert (Hm : forall i t, In i (map fst p) -> target_of i = Some t ->
            exists n, nth_error m t = Some n /\ n <= length (map fst o_raw) /\ group_start (map fst o_raw) n = t).
  { intros i t Hi Ht. apply in_map_iff in Hi. destruct Hi as (x & <- & Hx).
    destruct (S3 t (Hr x t Hx Ht) (or_intror (is_jump_target_intro _ _ _ Hx Ht))) as (n & Hn & Hg).
    exists n. split; [|split; assumption]. rewrite S2, <- Hg. apply imap_at_start. exact Hn. }
  destruct (map_opt_retarget m o_raw) as (o & Ho & Hf).
  { (* a jump of the raw result is its own group, so it is a jump of p *)
    intros x t Hx Ht. destruct (Hm (fst x) t) as (n & Hn & _); [|exact Ht|exists n; exact Hn].
    rewrite <- S1. apply in_flat_map. exists (fst x). split; [exact (in_map fst _ _ Hx)|].
    rewrite (unfused_expand1 _ (target_unfused _ _ Ht)). left. reflexivity. }
  exists o. split; [exact Ho|]. rewrite Hf, re_expand, S1.
  split; [|split; [|split]].
  - apply Forall2_map_self. intros i Hi.
    unfold rel. destruct (target_of i) as [t|] eqn:Et; [|unfold re; rewrite Et; reflexivity].
    destruct (Hm i t Hi Et) as (n & Hn & Hle & Hg). exists n. rewrite map_length, re_group_start.
    unfold re. rewrite Et, (nth_error_nth _ _ 0 Hn). auto.
  - intros t Ht Hc. destruct (S3 t Ht) as (n & Hn & Hg); [destruct Hc; [left|right]; auto|].
    exists n. rewrite map_length, re_group_start. auto.
  - rewrite !map_length. reflexivity.
  - intros g Hg Hfg. apply in_map_iff in Hg. destruct Hg as (g0 & <- & Hg0). rewrite (re_fused _ _ Hfg) in Hfg |- *.
    apply in_map_iff in Hg0. destruct Hg0 as (x & <- & Hx). exact (S4 x Hx Hfg).
Qed.

Lemma gsize_le_expand : forall (o : list instr) g, In g o -> gsize g <= length (expand o).
Proof.
  induction o as [|x o IH]; intros g []; cbn [expand flat_map]; rewrite app_length; fold (expand o).
  - subst. unfold gsize. lia.
  - specialize (IH g H). lia.
Qed.

(* compiled chunks never contain fused instructions and their targets are in range: both are
   decidable, so the correspondence run checks them on every real listing *)
Definition unfusedb (p : chunk) : bool := forallb (fun x => negb (is_fused (fst x))) p.
Definition targets_in_rangeb (p : chunk) : bool :=
  forallb (fun x => match target_of (fst x) with Some t => Nat.leb t (length p) | None => true end) p.

Lemma unfusedb_ok p : unfusedb p = true -> unfused p.
Proof.
  unfold unfusedb, unfused. rewrite forallb_forall. intros H x Hx.
  specialize (H x Hx). destruct (is_fused (fst x)); [discriminate|reflexivity].
Qed.

Lemma targets_in_rangeb_ok p : targets_in_rangeb p = true -> targets_in_range p.
Proof.
  unfold targets_in_rangeb, targets_in_range. rewrite forallb_forall. intros H x t Hx Ht.
  specialize (H x Hx). rewrite Ht in H. apply Nat.leb_le. exact H.
Qed.
