(* The full token stream of Model/Lexer.v: the span bookkeeping of `advance!`
   is the line/column function of the source (`linecol` here is written over Lexer.loc, next to
   `advance_loc`; `linecol_bridge` identifies it with Spec/LineCol.v's, the one C12 uses for
   Model/Report.v); the tokens account for a prefix of the source, so every range lies inside
   it and a run never ends by running out of fuel; the fuel of the nested scanners is irrelevant. *)
From Coq Require Import Arith.
From TeraV Require Import Model.Value Model.Utf8Lex Model.Lexer Spec.Doc Model.LexerDoc Proofs.ListFacts Proofs.Utf8Proofs
  Proofs.LexerProofs.
From TeraV Require Spec.LineCol Model.Report Proofs.ReportProofs.
Local Open Scope nat_scope.


Definition is_nl (b : byte) : bool := (b =? 10)%N.

Fixpoint count_nl (s : bytes) : nat :=
  match s with [] => 0 | b :: t => (if is_nl b then 1 else 0) + count_nl t end.

Definition nchars (s : bytes) : nat := length (filter (fun b => negb (is_cont b)) s).

Fixpoint last_line (s : bytes) : bytes :=
  match s with
  | [] => []
  | b :: t => if 0 <? count_nl t then last_line t else if is_nl b then t else s
  end.

(* 1-based line, 0-based column in characters, byte offset *)
Definition linecol (src : bytes) (off : nat) : loc :=
  let p := firstn off src in (1 + count_nl p, nchars (last_line p), length p).

Lemma advance_loc_scan : forall s lc byte,
  advance_loc s (lc, byte) = (ReportProofs.scan_from lc s, byte + length s).
Proof.
  induction s as [|b t IH]; intros [line col] byte; [cbn; now rewrite Nat.add_0_r|].
  cbn [advance_loc ReportProofs.scan_from fold_left length]. unfold Report.scan_byte at 2. cbn [fst snd].
  change (Utf8Chars.is_cont b) with (is_cont b).
  (* advance! asks is_cont before '\n', scan_byte the other way round *)
  destruct (is_cont b) eqn:C; [rewrite (ReportProofs.is_cont_not_nl b C)|destruct (b =? 10)%N];
    rewrite IH; f_equal; lia.
Qed.

Lemma count_nl_eq : forall s, count_nl s = LineCol.count_nl s.
Proof.
  induction s as [|b t IH]; [reflexivity|]. rewrite ReportProofs.count_nl_cons, <- IH. reflexivity.
Qed.

Lemma last_line_eq : forall s, last_line s = LineCol.after_last_nl s.
Proof.
  induction s as [|b t IH]; [reflexivity|]. cbn [last_line]. rewrite count_nl_eq.
  change (b :: t) with ([b] ++ t) at 2. rewrite ReportProofs.after_last_nl_app.
  destruct (0 <? LineCol.count_nl t); [exact IH|].
  change [b] with ([] ++ [b]). rewrite ReportProofs.after_last_nl_snoc. unfold is_nl, LineCol.NL.
  destruct (b =? 10)%N; reflexivity.
Qed.

Lemma linecol_bridge : forall src off,
  linecol src off = (LineCol.linecol src off, length (firstn off src)).
Proof. intros src off. unfold linecol, LineCol.linecol. rewrite count_nl_eq, last_line_eq. reflexivity. Qed.

Lemma advance_loc_app : forall a b l, advance_loc (a ++ b) l = advance_loc b (advance_loc a l).
Proof.
  induction a as [|x a IH]; intros b l; [reflexivity|].
  destruct l as [[line col] byte]. cbn [app advance_loc]. apply IH.
Qed.

Theorem advance_is_linecol : forall src off, advance_loc (firstn off src) loc0 = linecol src off.
Proof.
  intros src off. unfold loc0. rewrite advance_loc_scan, linecol_bridge, ReportProofs.linecol_scan.
  reflexivity.
Qed.


Fixpoint offsets (o : nat) (ts : list ptok) : list (nat * nat) :=
  match ts with
  | [] => []
  | (_, pre, len) :: r => (o + pre, o + pre + len) :: offsets (o + pre + len) r
  end.

Lemma firstn_plus : forall (A : Type) (o n : nat) (l : list A),
  firstn (o + n) l = firstn o l ++ firstn n (skipn o l).
Proof.
  intros A o. induction o as [|o IH]; intros n l; [reflexivity|].
  destruct l as [|x l]; [cbn; now rewrite firstn_nil|]. cbn. f_equal. apply IH.
Qed.

Lemma spans_from_offsets : forall src ts o,
  spans_from (skipn o src) (advance_loc (firstn o src) loc0) ts
  = map (fun '(t, (s, e)) => (t, (linecol src s, linecol src e)))
        (combine (map tok_of ts) (offsets o ts)).
Proof.
  intros src. induction ts as [|[[t pre] len] r IH]; intro o; [reflexivity|].
  cbn [spans_from offsets map combine tok_of fst].
  rewrite <- !advance_loc_app, <- firstn_plus, !skipn_skipn, (Nat.add_comm pre o), <- firstn_plus.
  replace (len + (o + pre)) with (o + pre + len) by lia.
  rewrite IH, !advance_is_linecol. reflexivity.
Qed.

Lemma raw_loop_bound : forall fuel dl rest bstart off w body we adv,
  length (d_bs dl) = 2 ->
  raw_loop fuel dl rest bstart off w = Some (body, we, adv) -> adv <= length rest.
Proof.
  induction fuel as [|f IH]; intros dl rest bstart off w body we adv Lb H; [discriminate|].
  cbn [raw_loop] in H.
  destruct (memstr (skipn off rest) (d_bs dl)) as [block|] eqn:M; [|discriminate].
  apply memstr_bound in M; [|exact Lb]. rewrite skipn_length in M.
  destruct (skip_tag (skipn (off + block + 2) rest) name_endraw (d_be dl)) as [[en we']|] eqn:S.
  - injection H as <- <- <-. destruct (skip_tag_inv _ _ _ _ _ S) as (_ & _ & _ & r & _ & _ & _ & L).
    rewrite skipn_length in L. lia.
  - eapply IH; eauto.
Qed.

Lemma mlen_ge : forall w, 2 <= mlen w.
Proof. intros [|]; cbn; lia. Qed.

(* ErrPanic is the model's out-of-fuel error *)
Definition run_ok (n : nat) (r : res (list ptok)) : Prop :=
  match r with ROk pt => consumed pt <= n | RErr e => e <> ErrPanic end.

Lemma res_cons_ok : forall l r n m, run_ok m r -> consumed l + m <= n -> run_ok n (res_cons l r).
Proof. intros l [pt|e] n m H L; cbn in *; [rewrite consumed_app; lia|exact H]. Qed.

Lemma inside_arm_ok : forall ts te ws e rest1 k,
  (forall r, length r < mlen ws + length rest1 -> run_ok (length r) (k r)) ->
  run_ok (mlen ws + length rest1) (inside_arm ts te ws e rest1 k).
Proof.
  intros ts te ws e rest1 k Hk. unfold inside_arm.
  pose proof (scan_inside_spec (S (length rest1)) e rest1) as SC.
  destruct (scan_inside _ e rest1) as [toks w pre rest2|toks|];
    [|cbn [run_ok consumed]; lia|intros Q; discriminate Q].
  destruct SC as (_ & L & ->). pose proof (mlen_ge ws). pose proof (mlen_ge w).
  eapply res_cons_ok; [apply Hk|]; cbn [consumed]; rewrite ?consumed_app, skipn_length; cbn [consumed]; lia.
Qed.

(* every iteration of the Template state consumes at least one byte, so `S (length src)`
   iterations suffice *)
Theorem lex_loop_run : forall dl, validate dl = ROk tt ->
  forall fuel rest, length rest < fuel -> run_ok (length rest) (lex_loop fuel dl rest).
Proof.
  intros dl V. apply WsFilterProofs.validate_spec in V as Hok.
  pose proof Hok as (Lb & _ & Lv & _ & Lc & Lz & _). cbn [bs vs cs ce spelling_of] in *.
  induction fuel as [|f IH]; intros rest Hf; [lia|].
  destruct rest as [|b0 rest0]; [cbn; lia|]. set (rest := b0 :: rest0) in *.
  rewrite (lex_loop_S dl f rest _ _ ltac:(discriminate) (check_ws_start_eq rest)).
  set (ws := byte_at_is rest 2 dash). set (rest1 := skipn (mlen ws) rest).
  assert (K : forall r, length r < length rest -> run_ok (length r) (lex_loop f dl r))
    by (intros r Hr; apply IH; lia).
  (* a start delimiter and its optional `-` (mlen ws bytes) lie inside rest *)
  assert (LR : forall d, starts2 d rest = true -> length rest = mlen ws + length rest1).
  { intros d Hd. apply ws_start_len in Hd. unfold rest1. rewrite skipn_length. fold ws in Hd. lia. }
  pose proof (mlen_ge ws) as W2.
  destruct (starts2 (d_vs dl) rest) eqn:SV.
  { rewrite (LR _ SV). apply inside_arm_ok. rewrite <- (LR _ SV). exact K. }
  destruct (starts2 (d_bs dl) rest) eqn:SB.
  { rewrite (LR _ SB). destruct (skip_tag rest1 name_raw (d_be dl)) as [[off w]|].
    - destruct (raw_loop (S (length rest1)) dl rest1 off off w) as [[[body we] adv]|] eqn:RL;
        [|intros Q; discriminate Q].
      apply raw_loop_bound in RL; [|exact Lb].
      eapply res_cons_ok; [apply K|]; cbn [consumed]; rewrite skipn_length, ?(LR _ SB); lia.
    - apply inside_arm_ok. rewrite <- (LR _ SB). exact K. }
  destruct (starts2 (d_cs dl) rest) eqn:SC.
  { rewrite (LR _ SC). destruct (memstr rest1 (d_ce dl)) as [ep|] eqn:M; [|intros Q; discriminate Q].
    apply memstr_bound in M; [|exact Lz].
    eapply res_cons_ok; [apply K|]; cbn [consumed]; rewrite skipn_length, ?(LR _ SC); lia. }
  destruct (find_start_marker dl rest) as [st|] eqn:F; [|cbn [run_ok consumed]; lia].
  pose proof (find_start_marker_sound dl Hok _ _ F) as SA. pose proof (start_at_long dl Hok _ _ SA) as L.
  eapply res_cons_ok; [apply K|]; cbn [consumed]; rewrite skipn_length; [|lia].
  (* a text is not empty: no start delimiter begins at its first byte *)
  enough (st <> 0) by lia. intros ->.
  destruct SA as [W|[W|W]]; apply starts2_window in W; try assumption;
    cbn [bs vs cs spelling_of] in W; congruence.
Qed.

Lemma offsets_bound : forall ts o s e, In (s, e) (offsets o ts) -> s <= e /\ e <= o + consumed ts.
Proof.
  induction ts as [|[[t pre] len] r IH]; intros o s e H; [contradiction|].
  cbn [offsets consumed] in *. destruct H as [H|H].
  - inversion H; subst. lia.
  - apply IH in H. lia.
Qed.

Lemma lex_ptoks_run : forall dl src, validate dl = ROk tt -> run_ok (length src) (lex_ptoks dl src).
Proof.
  intros dl src V. apply lex_loop_run; [exact V|lia].
Qed.

Theorem token_ranges_in_source : forall dl src pt s e,
  validate dl = ROk tt -> lex_ptoks dl src = ROk pt -> In (s, e) (offsets 0 pt) ->
  s <= e /\ e <= length src.
Proof.
  intros dl src pt s e V L H. pose proof (lex_ptoks_run dl src V) as R. rewrite L in R. cbn in R.
  apply offsets_bound in H. lia.
Qed.

Theorem lex_ptoks_total : forall dl src, validate dl = ROk tt -> lex_ptoks dl src <> RErr ErrPanic.
Proof. intros dl src V E. pose proof (lex_ptoks_run dl src V) as R. rewrite E in R. exact (R eq_refl). Qed.

Lemma scan_inside_fuel : forall f1 f2 e s, length s < f1 -> length s < f2 ->
  scan_inside f1 e s = scan_inside f2 e s.
Proof.
  induction f1 as [|f1 IH]; intros f2 e s H1 H2; [lia|]. destruct f2 as [|f2]; [lia|].
  pose proof (skip_ascii_ws_len s) as SL.
  destruct (skip_ascii_ws s) as [|b0 t0] eqn:E; [now rewrite !scan_inside_eof|].
  rewrite !(scan_inside_S _ e s _ E) by discriminate.
  destruct (end_marker e (b0 :: t0)); [reflexivity|].
  destruct (inner_token (b0 :: t0)) as [[t len]|] eqn:T; [|reflexivity].
  apply inner_token_spec in T.
  rewrite (IH f2 e (skipn len (b0 :: t0))); [reflexivity| |]; rewrite skipn_length; lia.
Qed.

Lemma raw_loop_fuel : forall f1 f2 dl rest bs off w, length (d_bs dl) = 2 ->
  length rest - off < f1 -> length rest - off < f2 -> off <= length rest ->
  raw_loop f1 dl rest bs off w = raw_loop f2 dl rest bs off w.
Proof.
  induction f1 as [|f1 IH]; intros f2 dl rest bs off w Lb H1 H2 Ho; [lia|]. destruct f2 as [|f2]; [lia|].
  cbn [raw_loop].
  destruct (memstr (skipn off rest) (d_bs dl)) as [block|] eqn:M; [|reflexivity].
  apply memstr_bound in M; [|exact Lb]. rewrite skipn_length in M.
  destruct (skip_tag (skipn (off + block + 2) rest) name_endraw (d_be dl)) as [[en we]|]; [reflexivity|].
  apply IH; try exact Lb; lia.
Qed.
