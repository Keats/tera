(* Proofs for the string half of C14 (Model/StrOps.v). *)
From TeraV Require Import Model.Value Model.Slice Model.StrOps Spec.PySlice Proofs.SliceProofs.

(* a Unicode scalar value: below 0x110000 and not a surrogate *)
Definition valid_scalar (c : N) : Prop := (c < 55296 \/ 57343 < c /\ c < 1114112)%N.
Definition valid_text (s : str) : Prop := Forall valid_scalar s.
Definition value_valid_text (v : value) : Prop :=
  match v with VStr s _ => valid_text s | _ => True end.

Lemma firstn_In {A} n (l : list A) x : In x (firstn n l) -> In x l.
Proof. intros H. rewrite <- (firstn_skipn n l). apply in_or_app. auto. Qed.

Lemma str_iter_from_valid s i len :
  valid_text s -> Forall (fun p => value_valid_text (fst p)) (str_iter_from s i len).
Proof.
  revert i. induction s as [|c t IH]; intros i H; cbn [str_iter_from]; constructor.
  - cbn. inversion H; subst. constructor; auto.
  - apply IH. inversion H; assumption.
Qed.

Theorem string_ops_valid_text s safe start stop step n e v :
  valid_text s -> valid_text (match e with Some e => e | None => ellipsis end) ->
  value_valid_text (str_reverse s) /\
  value_valid_text (str_truncate s n e) /\
  Forall (fun p => value_valid_text (fst p)) (str_iter s) /\
  value_valid_text (VStr (py_slice s start stop step) safe) /\
  (forall c, py_index s v = Some c -> valid_text [c]).
Proof.
  intros Hs He. repeat split.
  - cbn. eapply incl_Forall; [|exact Hs]. intros x Hx. apply in_rev. assumption.
  - unfold str_truncate. destruct (Nat.ltb n (length s)); cbn; [|assumption].
    unfold valid_text. apply Forall_app. split; [|assumption].
    eapply incl_Forall; [|exact Hs]. intros x Hx. eapply firstn_In. eassumption.
  - apply str_iter_from_valid. assumption.
  - cbn. eapply incl_Forall; [apply py_slice_incl|assumption].
  - intros c Hc. apply py_index_in in Hc. constructor; [|constructor].
    unfold valid_text in Hs. rewrite Forall_forall in Hs. auto.
Qed.

Lemma str_iter_from_concat s i len :
  concat (map (fun p => match fst p with VStr c _ => c | _ => [] end) (str_iter_from s i len)) = s.
Proof. revert i. induction s as [|c t IH]; intros i; cbn; [reflexivity|]. rewrite IH. reflexivity. Qed.

Lemma str_iter_from_meta s i len :
  map (fun p => snd p) (str_iter_from s i len) =
  map (fun i => (i, len, Nat.eqb i 0, Nat.eqb (S i) len)) (seq i (length s)).
Proof. revert i. induction s as [|c t IH]; intros i; cbn; [reflexivity|]. rewrite IH. reflexivity. Qed.

Theorem string_ops_by_chars s n e :
  str_length s = VInt U64 (Z.of_nat (length s)) /\
  (exists r, str_reverse s = VStr r false /\ rev r = s) /\
  (str_truncate s n e =
     if Nat.ltb n (length s)
     then VStr (firstn n s ++ match e with Some e => e | None => ellipsis end) false
     else VStr s false) /\
  concat (map (fun p => match fst p with VStr c _ => c | _ => [] end) (str_iter s)) = s /\
  map (fun p => snd p) (str_iter s) =
    map (fun i => (i, length s, Nat.eqb i 0, Nat.eqb (S i) (length s))) (seq 0 (length s)).
Proof.
  repeat split.
  - exists (rev s). split; [reflexivity|apply rev_involutive].
  - apply str_iter_from_concat.
  - apply str_iter_from_meta.
Qed.
