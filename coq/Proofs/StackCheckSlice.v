(* C07: indexing and slicing in the VM model never reach their out-of-bounds arms (the Rust
   `items[i as usize]` can not panic), for sequences of any length and operands of any kind. *)
From TeraV Require Import Model.Value Model.Slice.
Local Open Scope nat_scope.

Lemma index_usize_in_range {A} (l : list A) i :
  (0 <= i < Z.of_nat (length l))%Z -> index_usize l i <> None.
Proof.
  intros [H0 H1]. unfold index_usize. destruct (i <? 0)%Z eqn:E; [apply Z.ltb_lt in E; lia|].
  apply nth_error_Some. lia.
Qed.

Lemma resolve_index_spec {A} (l : list A) item :
  match resolve_index item (Z.of_nat (length l)) with
  | ROk (Some i) => index_usize l i <> None
  | ROk None => True
  | RErr e => e <> ErrPanic
  end.
Proof.
  unfold resolve_index. destruct (as_i128 item) as [idx|]; [|destruct (is_u128 item); [exact I|discriminate]].
  set (n := if (idx <? 0)%Z then _ else idx). destruct ((0 <=? n)%Z && (n <? _)%Z) eqn:E; [|exact I].
  apply andb_prop in E. destruct E as [E1 E2].
  apply Z.leb_le in E1. apply Z.ltb_lt in E2. apply index_usize_in_range. lia.
Qed.

Lemma get_item_seq_no_panic v item : get_item_seq v item <> RErr ErrPanic.
Proof.
  assert (H : forall {A} (l : list A) (k : A -> value),
            res_bind (resolve_index item (Z.of_nat (length l))) (fun r =>
              match r with
              | Some i => match index_usize l i with Some x => ROk (k x) | None => RErr ErrPanic end
              | None => ROk VUndef
              end) <> RErr ErrPanic).
  { intros A l k. pose proof (resolve_index_spec l item) as Hr.
    destruct (resolve_index item (Z.of_nat (length l))) as [[i|]|e]; cbn [res_bind]; [|discriminate|congruence].
    destruct (index_usize l i); [discriminate|congruence]. }
  unfold get_item_seq. destruct v as [ | |?|? ?|?|s safe|l|?|?]; try discriminate; try (destruct item; discriminate).
  - exact (H _ s (fun c => VStr [c] safe)).
  - exact (H _ l (fun x => x)).
Qed.

(* the indices visited lie between the start, as far as it is an i128, and the end, the end excluded *)
Lemma slice_loop_range fuel : forall i e step x, In x (slice_loop fuel i e step) ->
  if (0 <? step)%Z then (Z.min i i128_max <= x < e)%Z else (e < x <= Z.max i i128_min)%Z.
Proof.
  induction fuel as [|f IH]; intros i e step x Hin; [destruct Hin|].
  cbn [slice_loop] in Hin. specialize (IH (sat_add i step) e step x). unfold sat_add in IH.
  destruct (0 <? step)%Z eqn:Es; [apply Z.ltb_lt in Es|apply Z.ltb_ge in Es];
    (destruct (_ <? _)%Z eqn:Ei in Hin; [apply Z.ltb_lt in Ei|destruct Hin]);
    (destruct Hin as [<-|Hin]; [lia|specialize (IH Hin); lia]).
Qed.

Lemma collect_total {A} (items : list A) idx :
  (forall x, In x idx -> (0 <= x < Z.of_nat (length items))%Z) -> collect items idx <> None.
Proof.
  induction idx as [|i t IH]; intros H; [discriminate|]. cbn [collect].
  destruct (index_usize items i) eqn:Ei.
  - destruct (collect items t) eqn:Ec; [discriminate|]. exfalso. apply IH; [|reflexivity].
    intros x Hx. apply H. right. exact Hx.
  - exfalso. exact (index_usize_in_range items i (H i (or_introl eq_refl)) Ei).
Qed.

Lemma clamp_range x lo hi : (lo <= hi)%Z -> (lo <= clamp x lo hi <= hi)%Z.
Proof.
  intros H. unfold clamp. destruct (x <? lo)%Z eqn:E1; [lia|]. apply Z.ltb_ge in E1.
  destruct (hi <? x)%Z eqn:E2; [lia|]. apply Z.ltb_ge in E2. lia.
Qed.

Lemma slice_items_total {A} (items : list A) start stop step : step <> 0%Z ->
  slice_items items start stop step <> None.
Proof.
  intros Hstep. unfold slice_items. apply collect_total. intros x Hx.
  set (len := Z.of_nat (length items)) in *. assert (Hlen : (0 <= len)%Z) by (unfold len; lia).
  unfold slice_indices, bounds in Hx.
  (* `bounds` clamps start and stop to [0, len] for a positive step and to [-1, len - 1] for a negative
     one; either way every index the loop visits lies in [0, len) *)
  assert (Hr : forall lo hi p d, (lo <= hi)%Z -> (lo <= d <= hi)%Z -> (lo <= resolve_param len lo hi p d <= hi)%Z).
  { intros lo hi p d Hlh Hd. unfold resolve_param. destruct p as [p|]; [|exact Hd]. apply clamp_range. exact Hlh. }
  destruct (0 <? step)%Z eqn:Es; apply slice_loop_range in Hx; rewrite Es in Hx.
  - pose proof (Hr 0%Z len start 0%Z Hlen ltac:(lia)). pose proof (Hr 0%Z len stop len Hlen ltac:(lia)).
    assert (0 <= i128_max)%Z by discriminate. lia.
  - pose proof (Hr (-1)%Z (len - 1)%Z start (len - 1)%Z ltac:(lia) ltac:(lia)).
    pose proof (Hr (-1)%Z (len - 1)%Z stop (-1)%Z ltac:(lia) ltac:(lia)).
    assert (i128_min <= -1)%Z by discriminate. lia.
Qed.

Lemma value_slice_no_panic v s e st : value_slice v s e st <> RErr ErrPanic.
Proof.
  unfold value_slice. set (step := match st with Some x => x | None => 1%Z end).
  destruct (step =? 0)%Z eqn:E; [discriminate|]. apply Z.eqb_neq in E.
  destruct v; try discriminate;
    match goal with |- context [slice_items ?l s e step] =>
      pose proof (slice_items_total l s e step E); destruct (slice_items l s e step) end;
    (discriminate || congruence).
Qed.

Lemma slice_operand_err v e : slice_operand v = RErr e -> e = ErrRender.
Proof.
  unfold slice_operand. destruct (is_none v); [discriminate|]. destruct (is_undefined v); [congruence|].
  destruct (as_i128 v); [discriminate|]. destruct (is_u128 v); [discriminate|congruence].
Qed.

Lemma vm_slice_err opt v a b c e : vm_slice opt v a b c = RErr e -> e = ErrRender.
Proof.
  unfold vm_slice. destruct (opt && (is_undefined v || is_none v)); [discriminate|].
  destruct (is_undefined v); [congruence|].
  destruct (slice_operand a) as [x|e1] eqn:E1; cbn [res_bind]; [|rewrite (slice_operand_err _ _ E1); congruence].
  destruct (slice_operand b) as [y|e2] eqn:E2; cbn [res_bind]; [|rewrite (slice_operand_err _ _ E2); congruence].
  destruct (slice_operand c) as [z|e3] eqn:E3; cbn [res_bind]; [|rewrite (slice_operand_err _ _ E3); congruence].
  pose proof (value_slice_no_panic v x y z) as Hp.
  destruct (value_slice v x y z) as [r|[]]; congruence.
Qed.
