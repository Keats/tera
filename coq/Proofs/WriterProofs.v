(* C18 — the writer half and purity, proved on Model/VM.v.

   Three inductions over the fuelled `run` (run_sink_inv, run_sim, run_same_ctx), each a case split
   on the effect of the instruction (RunStep.run_step), nested runs by the induction hypothesis.
   run_sim is the one the rest hangs on: two runs that differ in the writer alone perform the same
   effects and stay in lockstep while both writers succeed; when wr2 fails where wr1 succeeded,
   run2 ends in RFail ErrIo and run1 goes on with a writer state marked dead.

   The hub of the consequences is the call log. `simulable`, which run_sim gives every entry point,
   is instantiated once, for the log against an arbitrary writer (log_replay): the run with a writer
   is the log's calls performed in order (`feed`) up to the writer's first refusal. The C18
   statements are that fact read for particular writers (a total one, the infallible buffer, the
   sticky observer, a lawful one). *)
From TeraV Require Import Model.Value Model.Instr Model.VM Model.World0 Model.Writer Proofs.VMProofs Proofs.RunStep.
Local Open Scope nat_scope.

Definition top_ok {W} (P : W -> Prop) (o : sink W) : Prop := exists a, o = SinkTop a /\ P a.

Section SinkInv.
  Variable W : Type.
  Variable wr : W -> str -> option W.
  Variable P : W -> Prop.
  Hypothesis P_closed : forall w t w', P w -> wr w t = Some w' -> P w'.
  Variable wd : world.

  Definition inv_out (r : rres W) : Prop :=
    match r with RDone _ o => top_ok P o | _ => True end.

  Lemma emit_inv s o t s' o' : top_ok P o -> emit W wr s o t = Some (s', o') -> top_ok P o'.
  Proof.
    intros Ho E. destruct (emit_some _ _ _ _ _ _ _ E) as [(_ & _ & Ew)|(c & ct & _ & _ & ->)]; [|exact Ho].
    destruct Ho as (a & -> & Pa). cbn in Ew. destruct (wr a t) as [a'|] eqn:Ea; [|discriminate].
    injection Ew as <-. exists a'. split; [reflexivity|exact (P_closed _ _ _ Pa Ea)].
  Qed.

  (* a callee that writes into a buffer of its own leaves the caller's sink alone; one that writes into
     the caller's sink keeps it by the induction hypothesis *)
  Lemma run_sink_inv : forall fuel tpl ae depth ch ip s o,
    top_ok P o -> inv_out (run W wr wd fuel tpl ae depth ch ip s o).
  Proof.
    induction fuel as [|f IH]; intros tpl ae depth ch ip s o Ho; [exact I|]. rewrite run_step.
    destruct (nth_error ch ip) as [i|]; [|exact Ho].
    destruct (instr_effect wd tpl ae depth i s) as [[s1|t s1|e]|s1 t|t2 d2 c2 s0 b k]; cbn [perform].
    - apply IH, Ho.
    - apply IH, Ho.
    - exact I.
    - destruct (emit W wr s1 o t) as [[s2 o2]|] eqn:E; [apply IH; exact (emit_inv _ _ _ _ _ Ho E)|exact I].
    - pose proof (IH t2 ae d2 c2 0 s0 (call_sink W o b)) as Hn.
      destruct (run W wr wd f t2 ae d2 c2 0 s0 (call_sink W o b)) as [s2 o2|e|]; [|exact I|exact I].
      destruct b; [destruct o2; [exact I|apply IH, Ho]|apply IH, Hn, Ho].
  Qed.
End SinkInv.

Section Sim.
  Variables W1 W2 : Type.
  Variable wr1 : W1 -> str -> option W1.
  Variable wr2 : W2 -> str -> option W2.
  Variable R : W1 -> W2 -> Prop.     (* the two writers are at the same point *)
  Variable D : W1 -> Prop.           (* wr2 has failed earlier; wr1 went on *)
  Hypothesis D_closed : forall w t w', D w -> wr1 w t = Some w' -> D w'.
  Hypothesis Hsim : forall w1 w2 t w1', R w1 w2 -> wr1 w1 t = Some w1' ->
      (exists w2', wr2 w2 t = Some w2' /\ R w1' w2') \/ (wr2 w2 t = None /\ D w1').
  Variable wd : world.

  Definition sink_rel (o1 : sink W1) (o2 : sink W2) : Prop :=
    match o1, o2 with
    | SinkTop a, SinkTop b => R a b
    | SinkBuf a, SinkBuf b => a = b
    | _, _ => False
    end.

  Definition dead_sink (o1 : sink W1) : Prop := top_ok D o1.
  Definition Dex : Prop := exists a, D a.                       (* wr2 did fail somewhere *)
  Definition Fex : Prop := exists w t, wr1 w t = None.          (* wr1 can fail *)

  (* run2 ends as run1 does with related sinks, or it has ended in ErrIo because wr2 refused a write
     that wr1 took (then D holds somewhere: Dex, and of run1's final sink if there is one). The
     exception is run1 failing with ErrIo at a write that wr1 itself refused (Fex): wr2 may have taken
     that write, so nothing is said of r2 there. In the one instance the consequences use
     (log_replay) wr1 cannot fail. *)
  Definition out_rel (r1 : rres W1) (r2 : rres W2) : Prop :=
    match r1 with
    | RDone s o1 => (exists o2, r2 = RDone s o2 /\ sink_rel o1 o2) \/ (r2 = RFail ErrIo /\ dead_sink o1)
    | RFail e => r2 = RFail e \/ (e = ErrIo /\ Fex) \/ (r2 = RFail ErrIo /\ Dex)
    | ROutOfFuel => r2 = ROutOfFuel \/ (r2 = RFail ErrIo /\ Dex)
    end.

  Lemma dead_Dex o : dead_sink o -> Dex.
  Proof. intros (a & _ & Da). exists a. exact Da. Qed.

  Lemma dead_cont : forall f tpl ae depth ch ip s o1,
    dead_sink o1 -> out_rel (run W1 wr1 wd f tpl ae depth ch ip s o1) (RFail ErrIo).
  Proof.
    intros f tpl ae depth ch ip s o1 Hd.
    pose proof (run_sink_inv W1 wr1 D D_closed wd f tpl ae depth ch ip s o1 Hd) as H.
    destruct (run W1 wr1 wd f tpl ae depth ch ip s o1) as [s' o'| e |]; cbn [out_rel inv_out] in *.
    - right. split; [reflexivity|exact H].
    - right. right. split; [reflexivity|exact (dead_Dex _ Hd)].
    - right. split; [reflexivity|exact (dead_Dex _ Hd)].
  Qed.

  Lemma emit_sim s o1 o2 t : sink_rel o1 o2 ->
    match emit W1 wr1 s o1 t with
    | Some (s', o1') => (exists o2', emit W2 wr2 s o2 t = Some (s', o2') /\ sink_rel o1' o2') \/
                        (emit W2 wr2 s o2 t = None /\ dead_sink o1')
    | None => Fex
    end.
  Proof.
    intros Hrel. unfold emit. destruct (caps s) as [|c ct]; [|left; exists o2; split; [reflexivity|exact Hrel]].
    destruct o1 as [a|b1], o2 as [b|b2]; cbn [sink_rel sink_write] in *; try contradiction.
    - destruct (wr1 a t) as [a'|] eqn:E1; [|exists a, t; exact E1].
      destruct (Hsim _ _ _ _ Hrel E1) as [(b' & -> & Hr) | (-> & Hd)].
      + left. exists (SinkTop b'). split; [reflexivity|exact Hr].
      + right. split; [reflexivity|]. exists a'. split; [reflexivity|exact Hd].
    - subst. left. exists (SinkBuf (b2 ++ t)). split; reflexivity.
  Qed.

  (* once wr2 has failed its run is RFail ErrIo, to which whatever run1 does is related: a failure or
     ROutOfFuel by Dex, and if run1 continues, alone, by dead_cont *)
  Lemma run_sim : forall fuel tpl ae depth ch ip s o1 o2,
    sink_rel o1 o2 ->
    out_rel (run W1 wr1 wd fuel tpl ae depth ch ip s o1) (run W2 wr2 wd fuel tpl ae depth ch ip s o2).
  Proof.
    induction fuel as [|f IH]; intros tpl ae depth ch ip s o1 o2 Hrel; [left; reflexivity|]. rewrite !run_step.
    destruct (nth_error ch ip) as [i|]; [|left; exists o2; split; [reflexivity|exact Hrel]].
    destruct (instr_effect wd tpl ae depth i s) as [[s1|t s1|e]|s1 t|t2 d2 c2 s0 b k]; cbn [perform].
    - apply IH, Hrel.
    - apply IH, Hrel.
    - left. reflexivity.
    - pose proof (emit_sim s1 o1 o2 t Hrel) as He. destruct (emit W1 wr1 s1 o1 t) as [[s2 o1']|].
      + destruct He as [(o2' & -> & Hr) | (-> & Hd)]; [apply IH, Hr|apply dead_cont, Hd].
      + right. left. split; [reflexivity|exact He].
    - assert (Hn : out_rel (run W1 wr1 wd f t2 ae d2 c2 0 s0 (call_sink W1 o1 b)) (run W2 wr2 wd f t2 ae d2 c2 0 s0 (call_sink W2 o2 b)))
        by (apply IH; destruct b; [reflexivity|exact Hrel]).
      destruct (run W1 wr1 wd f t2 ae d2 c2 0 s0 (call_sink W1 o1 b)) as [s2 o1'|e|]; cbn [out_rel] in Hn.
      + destruct Hn as [(o2' & -> & Hy) | (-> & Hd)].
        * (* related sinks have the same constructor *)
          destruct b; [|apply IH, Hy]. destruct o1', o2'; try contradiction; [left; reflexivity|]. cbn in Hy. subst. apply IH, Hrel.
        * (* a dead sink is a SinkTop *)
          pose proof (dead_Dex _ Hd) as Dx. destruct b; [|apply dead_cont, Hd]. destruct Hd as (a & -> & _).
          right. right. split; [reflexivity|exact Dx].
      + destruct Hn as [-> | [(-> & Hf) | (-> & Dx)]]; [left; reflexivity|right; left; auto|right; right; auto].
      + destruct Hn as [-> | (-> & Dx)]; [left; reflexivity|right; auto].
  Qed.
End Sim.

Definition runner := forall W : Type, (W -> str -> option W) -> W -> rres W.

Definition simulable (F : runner) : Prop :=
  forall (W1 W2 : Type) (wr1 : W1 -> str -> option W1) (wr2 : W2 -> str -> option W2)
         (R : W1 -> W2 -> Prop) (D : W1 -> Prop),
    (forall w t w', D w -> wr1 w t = Some w' -> D w') ->
    (forall w1 w2 t w1', R w1 w2 -> wr1 w1 t = Some w1' ->
       (exists w2', wr2 w2 t = Some w2' /\ R w1' w2') \/ (wr2 w2 t = None /\ D w1')) ->
    forall w1 w2, R w1 w2 -> out_rel W1 W2 wr1 R D (F W1 wr1 w1) (F W2 wr2 w2).

Lemma run_simulable wd fuel tpl ae depth ch ip s :
  simulable (fun W wr w => run W wr wd fuel tpl ae depth ch ip s (SinkTop w)).
Proof. intros W1 W2 wr1 wr2 R D Hc Hs w1 w2 Hr. apply run_sim; assumption. Qed.

Lemma const_simulable (e : errc) : simulable (fun W _ _ => RFail e).
Proof. intros W1 W2 wr1 wr2 R D _ _ w1 w2 _. left. reflexivity. Qed.

Lemma render_to_simulable wd fuel tpl block c g :
  simulable (fun W wr w => render_to W wr wd fuel tpl block c g w).
Proof.
  intros W1 W2 wr1 wr2 R D Hc Hs w1 w2 Hr. unfold render_to.
  destruct block as [b|]; [|apply run_sim; assumption].
  (* the run into io::sink() never meets a writer: it is simulated along the empty relation, with no
     dead writer states; the one write after it is a step of Hs *)
  match goal with |- context [run W1 wr1 wd fuel tpl None 0 (t_root_chunk tpl) 0 ?s (SinkBuf [])] => set (s0 := s) end.
  pose proof (run_sim W1 W2 wr1 wr2 (fun _ _ => False) (fun _ => False) (fun _ _ _ H _ => H)
                      (fun _ _ _ _ (H : False) => match H with end)
                      wd fuel tpl None 0 (t_root_chunk tpl) 0 s0 (SinkBuf []) (SinkBuf []) eq_refl) as Hn.
  destruct (run W1 wr1 wd fuel tpl None 0 (t_root_chunk tpl) 0 s0 (SinkBuf [])) as [s1 o1|e|]; cbn [out_rel] in Hn.
  - destruct Hn as [(o2 & -> & _) | (_ & (a & _ & []))].
    destruct (wr1 w1 (block_buffer s1)) as [w1'|] eqn:E1.
    + destruct (Hs _ _ _ _ Hr E1) as [(w2' & -> & Hr') | (-> & Hd)].
      * left. exists (SinkTop w2'). split; [reflexivity|exact Hr'].
      * right. split; [reflexivity|]. exists w1'. split; [reflexivity|exact Hd].
    + right. left. split; [reflexivity|]. exists w1, (block_buffer s1). exact E1.
  - destruct Hn as [-> | [Hf | (_ & (a & []))]]; [left; reflexivity|right; left; exact Hf].
  - destruct Hn as [-> | (_ & (a & []))]. left. reflexivity.
Qed.

Lemma tera_render_to_simulable wd fuel name c g :
  simulable (fun W wr w => tera_render_to W wr wd fuel name c g w).
Proof.
  unfold tera_render_to. destruct (assoc_get (w_templates wd) name).
  - apply render_to_simulable.
  - apply const_simulable.
Qed.

Lemma tera_render_block_to_simulable wd fuel name block c g :
  simulable (fun W wr w => tera_render_block_to W wr wd fuel name block c g w).
Proof.
  unfold tera_render_block_to. destruct (assoc_get (w_templates wd) name) as [tpl|].
  - destruct (assoc_get (t_lineage tpl) block); [apply render_to_simulable|apply const_simulable].
  - apply const_simulable.
Qed.

Lemma tera_render_component_to_simulable wd fuel comp src supplied body ae :
  simulable (fun W wr w => tera_render_component_to W wr wd fuel comp src supplied body ae w).
Proof.
  unfold tera_render_component_to. destruct (assoc_get (w_components wd) comp) as [[def cchunk]|].
  - destruct (w_build_ctx wd def supplied _); [apply run_simulable|apply const_simulable].
  - apply const_simulable.
Qed.

Definition prefix (p x : str) : Prop := exists q, x = p ++ q.

Lemma concat_snoc (l : list str) (t : str) : concat (l ++ [t]) = concat l ++ t.
Proof. rewrite concat_app. cbn. rewrite app_nil_r. reflexivity. Qed.

Lemma feed_app {W} (wr : W -> str -> option W) l1 : forall w l2,
  feed wr w (l1 ++ l2) = match feed wr w l1 with Some w' => feed wr w' l2 | None => None end.
Proof.
  induction l1 as [|t r IH]; intros w l2; [reflexivity|]. cbn [app feed].
  destruct (wr w t); [apply IH|reflexivity].
Qed.

Definition total {A} (f : A -> str -> A) : A -> str -> option A := fun w t => Some (f w t).

Lemma feed_total {A} (f : A -> str -> A) l : forall a, feed (total f) a l = Some (fold_left f l a).
Proof. induction l as [|t r IH]; intros a; [reflexivity|apply IH]. Qed.

Lemma fold_app_concat (l : list str) : forall h, fold_left (@app N) l h = h ++ concat l.
Proof.
  induction l as [|t r IH]; intros h; cbn; [symmetry; apply app_nil_r|]. rewrite IH. symmetry. apply app_assoc.
Qed.

Lemma feed_acc {W} (wr : W -> str -> option W) (acc : W -> str) :
  (forall w t w', wr w t = Some w' -> acc w' = acc w ++ t) ->
  forall l w0 w, feed wr w0 l = Some w -> acc w = acc w0 ++ concat l.
Proof.
  intros Hacc. induction l as [|t r IH]; intros w0 w; cbn [feed concat].
  - intros E. injection E as <-. symmetry. apply app_nil_r.
  - destruct (wr w0 t) as [w1|] eqn:E1; [|discriminate]. intros E.
    rewrite (IH _ _ E), (Hacc _ _ _ E1). symmetry. apply app_assoc.
Qed.

Lemma feed_sticky {W} (pw : pwriter W) w0 l :
  feed (wr_of pw) w0 l = let (w, live) := fold_left (sticky_step pw) l (w0, true) in if live then Some w else None.
Proof.
  induction l as [|t l IH] using rev_ind; [reflexivity|]. rewrite feed_app, fold_left_app, IH. cbn [fold_left feed].
  destruct (fold_left (sticky_step pw) l (w0, true)) as [w [|]]; [|reflexivity].
  cbn [sticky_step]. unfold wr_of. destruct (pw w t) as [w1 [|]]; reflexivity.
Qed.

Lemma lawful_fold {W} (pw : pwriter W) (acc : W -> str) : pw_lawful pw acc ->
  forall l st,
  exists p, acc (fst (fold_left (sticky_step pw) l st)) = acc (fst st) ++ p /\ prefix p (concat l) /\
            (snd (fold_left (sticky_step pw) l st) = true -> p = concat l).
Proof.
  intros Hl l st. induction l as [|t l (p & H1 & (q & H2) & H3)] using rev_ind.
  - exists []. cbn. rewrite app_nil_r. repeat split. exists []. reflexivity.
  - rewrite fold_left_app, concat_snoc. cbn [fold_left].
    destruct (fold_left (sticky_step pw) l st) as [w [|]]; cbn [sticky_step fst snd] in *.
    + specialize (H3 eq_refl). subst p. destruct (Hl w t) as (p1 & q1 & -> & Hacc & Hok).
      exists (concat l ++ p1). rewrite Hacc, H1, app_assoc. split; [reflexivity|]. split.
      * exists q1. rewrite app_assoc. reflexivity.
      * intros Hs. rewrite (Hok Hs), app_nil_r. reflexivity.
    + exists p. split; [exact H1|]. split; [|discriminate]. exists (q ++ t). rewrite H2, app_assoc. reflexivity.
Qed.

Lemma budget_writer_lawful : pw_lawful budget_writer acc_pair.
Proof.
  intros [a rem] t. unfold budget_writer, acc_pair. destruct (Nat.leb (length t) rem); cbn [fst snd].
  - exists t, []. rewrite app_nil_r. repeat split.
  - exists (firstn rem t), (skipn rem t). rewrite firstn_skipn. repeat split. discriminate.
Qed.

Lemma failing_at_call_lawful : pw_lawful failing_at_call acc_pair.
Proof.
  intros [a k] t. unfold failing_at_call, acc_pair. destruct k; cbn [fst snd].
  - exists [], t. rewrite app_nil_r. repeat split. discriminate.
  - exists t, []. rewrite app_nil_r. repeat split.
Qed.

Lemma pw_str_lawful : pw_lawful pw_str acc_str.
Proof. intros w t. exists t, []. unfold pw_str, acc_str. cbn. rewrite app_nil_r. repeat split. Qed.

Definition map_rres {A B} (phi : A -> B) (r : rres A) : rres B :=
  match r with
  | RDone s (SinkTop a) => RDone s (SinkTop (phi a))
  | RDone s (SinkBuf b) => RDone s (SinkBuf b)
  | RFail e => RFail e
  | ROutOfFuel => ROutOfFuel
  end.

(* r is the run with wr from w0 when rl is the run that logs the calls. A failed run carries no sink, so
   when the template itself fails all that is known is that ErrIo can only come from a refusal *)
Definition replay {W} (wr : W -> str -> option W) (w0 : W) (rl : rres (list str)) (r : rres W) : Prop :=
  match rl with
  | RDone s (SinkTop l) => r = match feed wr w0 l with Some w => RDone s (SinkTop w) | None => RFail ErrIo end
  | RDone s (SinkBuf b) => r = RDone s (SinkBuf b)
  | RFail e => r = RFail e \/ (r = RFail ErrIo /\ exists l, feed wr w0 l = None)
  | ROutOfFuel => r = ROutOfFuel \/ (r = RFail ErrIo /\ exists l, feed wr w0 l = None)
  end.

Lemma replay_inv {W} (wr : W -> str -> option W) w0 rl r : replay wr w0 rl r ->
  match r with
  | RDone s (SinkTop w) => exists l, rl = RDone s (SinkTop l) /\ feed wr w0 l = Some w
  | RDone s (SinkBuf b) => rl = RDone s (SinkBuf b)
  | RFail e => rl = RFail e \/ e = ErrIo
  | ROutOfFuel => rl = ROutOfFuel
  end.
Proof.
  destruct rl as [s [l|b]|e|]; cbn [replay].
  - destruct (feed wr w0 l) as [w|] eqn:E; intros ->; [exists l; split; [reflexivity|exact E]|right; reflexivity].
  - intros ->. reflexivity.
  - intros [-> | [-> _]]; [left|right]; reflexivity.
  - intros [-> | [-> _]]; [|right]; reflexivity.
Qed.

Section Consequences.
  Variable F : runner.
  Hypothesis HF : simulable F.

  (* the log against wr, related while `feed` of the log so far succeeds *)
  Lemma log_replay (W : Type) (wr : W -> str -> option W) (w0 : W) :
    replay wr w0 (F (list str) wr_log []) (F W wr w0).
  Proof.
    pose proof (HF (list str) W wr_log wr (fun l w => feed wr w0 l = Some w) (fun l => feed wr w0 l = None)) as H.
    lapply H; [clear H; intros H|intros l t l' Hd E; injection E as <-; rewrite feed_app, Hd; reflexivity].
    lapply H; [clear H; intros H; specialize (H [] w0 eq_refl)|].
    2: { intros l w t l' Hr E. injection E as <-. rewrite feed_app, Hr. cbn [feed].
         destruct (wr w t) as [w'|]; [left; exists w'|right]; split; reflexivity. }
    destruct (F (list str) wr_log []) as [s [l|b]|e|]; cbn [out_rel replay] in *.
    - destruct H as [([w|b] & -> & Hr) | (-> & (a & Ha & Hd))]; [rewrite Hr; reflexivity|destruct Hr|].
      injection Ha as <-. rewrite Hd. reflexivity.
    - destruct H as [([w|b'] & -> & Hr) | (_ & (a & Ha & _))]; [destruct Hr|rewrite Hr; reflexivity|discriminate].
    - destruct H as [H | [(_ & (l & t & E)) | H]]; [left; exact H|discriminate|right; exact H].
    - exact H.
  Qed.

  (* the call log is the initial total writer: it determines the result of every other one ... *)
  Lemma log_initial B (f : B -> str -> B) b0 :
    F B (total f) b0 = map_rres (fun l => fold_left f l b0) (F (list str) wr_log []).
  Proof.
    pose proof (log_replay B (total f) b0) as H.
    destruct (F (list str) wr_log []) as [s [l|b]|e|]; cbn [replay map_rres] in *.
    (* a total writer refuses nothing *)
    3, 4: destruct H as [H | (_ & (l & Hl))]; [exact H|rewrite feed_total in Hl; discriminate].
    - rewrite feed_total in H. exact H.
    - exact H.
  Qed.

  (* ... in particular the infallible output *)
  Lemma str_of_log out0 : F str wr_str out0 = map_rres (fun l => out0 ++ concat l) (F (list str) wr_log []).
  Proof.
    rewrite (log_initial str (@app N)). destruct (F (list str) wr_log []) as [s [l|b]|e|]; cbn [map_rres]; try reflexivity.
    rewrite fold_app_concat. reflexivity.
  Qed.

  Theorem write_calls_are_ordered (W : Type) (pw : pwriter W) (w0 : W) (out0 : str) s l :
    F (list str) wr_log [] = RDone s (SinkTop l) ->
    F str wr_str out0 = RDone s (SinkTop (out0 ++ concat l)) /\
    F (W * bool)%type (sticky pw) (w0, true) = RDone s (SinkTop (fold_left (sticky_step pw) l (w0, true))) /\
    F W (wr_of pw) w0 = match feed (wr_of pw) w0 l with
                        | Some w => RDone s (SinkTop w)
                        | None => RFail ErrIo
                        end.
  Proof.
    intros Hlog. split; [|split].
    - rewrite str_of_log, Hlog. reflexivity.
    - rewrite (log_initial _ (sticky_step pw)), Hlog. reflexivity.
    - pose proof (log_replay W (wr_of pw) w0) as H. rewrite Hlog in H. exact H.
  Qed.

  (* when the template itself fails (or runs out of fuel) the writer can only turn that into ErrIo *)
  Theorem write_calls_failing_run (W : Type) (wr : W -> str -> option W) (w0 : W) :
    (forall e, F (list str) wr_log [] = RFail e -> F W wr w0 = RFail e \/ F W wr w0 = RFail ErrIo) /\
    (F (list str) wr_log [] = ROutOfFuel -> F W wr w0 = ROutOfFuel \/ F W wr w0 = RFail ErrIo).
  Proof.
    pose proof (log_replay W wr w0) as H.
    split; [intros e Hl|intros Hl]; rewrite Hl in H; destruct H as [H | [H _]]; auto.
  Qed.

  Theorem failing_writer_prefix (W : Type) (pw : pwriter W) (acc : W -> str) :
    pw_lawful pw acc -> forall w0,
    let gen := F W (wr_of pw) w0 in
    let obs := F (W * bool)%type (sticky pw) (w0, true) in
    let inf := F str wr_str [] in
    (* (a) success: same final state, the writer accepted exactly the infallible output, no call failed *)
    (forall s w, gen = RDone s (SinkTop w) ->
       exists out, inf = RDone s (SinkTop out) /\ acc w = acc w0 ++ out /\ obs = RDone s (SinkTop (w, true))) /\
    (* (b) failure: the template's own failure, or an I/O error *)
    (forall e, gen = RFail e -> inf = RFail e \/ e = ErrIo) /\
    (* (b', c) when the full output exists: the writer observed from outside ends having accepted a
       prefix of it; the render succeeded iff no call failed, and otherwise returned ErrIo *)
    (forall s out, inf = RDone s (SinkTop out) ->
       exists w live p, obs = RDone s (SinkTop (w, live)) /\ acc w = acc w0 ++ p /\ prefix p out /\
         (if live then gen = RDone s (SinkTop w) /\ p = out else gen = RFail ErrIo)) /\
    (gen = ROutOfFuel -> inf = ROutOfFuel).
  Proof.
    intros Hl w0 gen obs inf.
    (* inf, obs and gen are all read off the call log; in each case of its result the clauses whose
       premise that result rules out go by discriminate *)
    pose proof (log_replay W (wr_of pw) w0) as Hgen. fold gen in Hgen.
    unfold obs, inf. rewrite (log_initial _ (sticky_step pw)), str_of_log. clearbody gen. clear obs inf.
    destruct (F (list str) wr_log []) as [s' [l|b]|e'|]; cbn [map_rres replay app] in *.
    - (* the calls l were made: gen is decided by the observer's flag after them *)
      rewrite feed_sticky in Hgen. destruct (lawful_fold pw acc Hl l (w0, true)) as (p & Hp1 & Hp2 & Hp3).
      destruct (fold_left (sticky_step pw) l (w0, true)) as [w' [|]]; cbn [fst snd] in *; subst gen;
        (split; [|split; [|split]]); try discriminate.
      + (* live, (a) *) intros s w E. injection E as <- <-. exists (concat l). rewrite <- (Hp3 eq_refl). repeat split. exact Hp1.
      + (* live, (b', c) *) intros s out E. injection E as <- <-. exists w', true, p. repeat split; auto.
      + (* frozen, (b) *) intros e E. injection E as <-. right. reflexivity.
      + (* frozen, (b', c) *) intros s out E. injection E as <- <-. exists w', false, p. repeat split; auto.
    - subst gen. (split; [|split; [|split]]); discriminate.
    - (* the template fails: (b) is left, for its own error and for ErrIo *)
      destruct Hgen as [-> | [-> _]]; (split; [|split; [|split]]); try discriminate;
        intros e E; injection E as <-; [left|right]; reflexivity.
    - (* out of fuel: the last clause, or (b) when the writer refused first *)
      destruct Hgen as [-> | [-> _]]; (split; [|split; [|split]]); try discriminate.
      + reflexivity.
      + intros e E. injection E as <-. right. reflexivity.
  Qed.

  Theorem accepting_writer_agrees (W : Type) (wr : W -> str -> option W) (acc : W -> str) :
    (forall w t w', wr w t = Some w' -> acc w' = acc w ++ t) ->
    forall w0 s w, F W wr w0 = RDone s (SinkTop w) ->
    exists out, F str wr_str [] = RDone s (SinkTop out) /\ acc w = acc w0 ++ out.
  Proof.
    intros Hacc w0 s w Hg. pose proof (replay_inv _ _ _ _ (log_replay W wr w0)) as H. rewrite Hg in H.
    destruct H as (l & Hlog & Hf). rewrite str_of_log, Hlog. exists (concat l). split; [reflexivity|exact (feed_acc wr acc Hacc l w0 w Hf)].
  Qed.

  (* render_pure, part 1: the engine never reads back what it wrote *)
  Definition shift (h : str) (r : rres str) : rres str :=
    match r with RDone s (SinkTop b) => RDone s (SinkTop (h ++ b)) | r => r end.

  Theorem buffer_history_irrelevant (h : str) : F str wr_str h = shift h (F str wr_str []).
  Proof. rewrite !str_of_log. destruct (F (list str) wr_log []) as [s [l|b]|e|]; reflexivity. Qed.
End Consequences.

(* render_pure, part 2: one after another into one buffer, against each into a fresh buffer *)
Fixpoint render_seq (reqs : list runner) (w : str) : option str :=
  match reqs with
  | [] => Some w
  | F :: r => match F str wr_str w with
              | RDone _ (SinkTop w') => render_seq r w'
              | _ => None
              end
  end.

Fixpoint render_each (reqs : list runner) : option (list str) :=
  match reqs with
  | [] => Some []
  | F :: r => match F str wr_str [] with
              | RDone _ (SinkTop o) => option_map (cons o) (render_each r)
              | _ => None
              end
  end.

Theorem render_seq_independent : forall reqs, Forall simulable reqs -> forall h,
  render_seq reqs h = option_map (fun os => h ++ concat os) (render_each reqs).
Proof.
  induction reqs as [|F r IH]; intros Hall h.
  - cbn. rewrite app_nil_r. reflexivity.
  - inversion Hall as [|? ? HF Hr]; subst. cbn [render_seq render_each].
    rewrite (buffer_history_irrelevant F HF h).
    destruct (F str wr_str []) as [s [o|b]|e|]; cbn [shift]; try reflexivity.
    rewrite (IH Hr). destruct (render_each r) as [os|]; cbn; [|reflexivity].
    rewrite app_assoc. reflexivity.
Qed.

(* render_eq_render_to, block variant: everything is rendered into io::sink(), then block_buffer is
   written *)
Theorem render_block_two_step wd fuel tpl b c g h s out :
  render_to str wr_str wd fuel tpl (Some b) c g h = RDone s (SinkTop out) ->
  out = h ++ block_buffer s /\
  exists discarded,
    run str wr_str wd fuel tpl None 0 (t_root_chunk tpl) 0
        {| stack := []; loops := []; setvars := []; caps := []; blocks := []; cur_block := None;
           parent := None; context := c; global := Some g; capture_block := Some b; block_buffer := [] |}
        (SinkBuf []) = RDone s discarded.
Proof.
  unfold render_to.
  destruct (run str wr_str wd fuel tpl None 0 (t_root_chunk tpl) 0 _ (SinkBuf [])) as [s1 o1|e|]; try discriminate.
  cbn. intros H. inversion H; subst. split; [reflexivity|]. exists o1. reflexivity.
Qed.

(* render_eq_render_to: the String-returning variant of an entry point is the writer variant on an
   empty Vec<u8> *)
Definition string_variant (F : runner) : res str := res_of_run (F str wr_str []).

Theorem string_variant_agrees (F : runner) : simulable F ->
  (forall (W : Type) (wr : W -> str -> option W) (acc : W -> str),
     (forall w t w', wr w t = Some w' -> acc w' = acc w ++ t) ->
     forall w0 s w, F W wr w0 = RDone s (SinkTop w) ->
     exists out, string_variant F = ROk out /\ acc w = acc w0 ++ out) /\
  (forall (W : Type) (wr : W -> str -> option W) w0 e,
     F W wr w0 = RFail e -> string_variant F = RErr e \/ e = ErrIo) /\
  (forall h, F str wr_str h = shift h (F str wr_str [])).
Proof.
  intros HF. split; [|split].
  - intros W wr acc Hacc w0 s w Hg.
    destruct (accepting_writer_agrees F HF W wr acc Hacc w0 s w Hg) as (out & Hinf & Ha).
    exists out. unfold string_variant. rewrite Hinf. split; [reflexivity|exact Ha].
  - intros W wr w0 e Hg. pose proof (replay_inv _ _ _ _ (log_replay F HF W wr w0)) as H. rewrite Hg in H.
    destruct H as [H | H]; [left|right; exact H]. unfold string_variant. rewrite str_of_log, H by exact HF. reflexivity.
  - apply buffer_history_irrelevant. exact HF.
Qed.

Section CtxInv.
  Variable W : Type.
  Variable wr : W -> str -> option W.
  Variable wd : world.

  Definition same_ctx (s s' : state) : Prop := context s' = context s /\ global s' = global s.
  Definition ctx_out (s : state) (r : rres W) : Prop :=
    match r with RDone s' _ => same_ctx s s' | _ => True end.

  Lemma ctx_out_trans s s1 r : same_ctx s s1 -> ctx_out s1 r -> ctx_out s r.
  Proof.
    intros [H1 H2]. destruct r as [s' o|e|]; cbn [ctx_out]; auto.
    intros [H3 H4]. split; congruence.
  Qed.

  Lemma emit_same s o t s' o' : emit W wr s o t = Some (s', o') -> same_ctx s s'.
  Proof.
    intros E. destruct (emit_some _ _ _ _ _ _ _ E) as [(_ & -> & _)|(c & ct & _ & -> & _)]; split; reflexivity.
  Qed.

  Lemma instr_effect_same_ctx tpl ae depth i s :
    match instr_effect wd tpl ae depth i s with
    | EffPure (PNext s1) | EffPure (PGoto _ s1) | EffEmit s1 _ => same_ctx s s1
    | EffPure (PFail _) => True
    | EffCall _ _ _ s0 _ k => forall s2 text, same_ctx s0 s2 -> same_ctx s (k s2 text)
    end.
  Proof.
    unfold instr_effect. destruct (pure_step wd i s) as [r|] eqn:Hp.
    { apply pure_step_frame in Hp. destruct r; [split; apply Hp|split; apply Hp|exact I]. }
    (* every state in the eight arms is s, or for `k` the callee's final state, under updates of other
       fields: once the scrutinees are split each claim holds by computation *)
    unfold EffFail, pop1, same_ctx. destruct i; try exact I;
      repeat (cbn [stack upd_stack];
              match goal with |- context [match ?x with _ => _ end] =>
                lazymatch x with context [match _ with _ => _ end] => fail | _ => destruct x end
              end);
      first [exact I | intros; split; reflexivity | exact (fun _ _ H => H)].
  Qed.

  Lemma run_same_ctx : forall fuel tpl ae depth ch ip s o,
    ctx_out s (run W wr wd fuel tpl ae depth ch ip s o).
  Proof.
    induction fuel as [|f IH]; intros tpl ae depth ch ip s o; [exact I|]. rewrite run_step.
    destruct (nth_error ch ip) as [i|]; [|split; reflexivity].
    pose proof (instr_effect_same_ctx tpl ae depth i s) as H.
    destruct (instr_effect wd tpl ae depth i s) as [[s1|t s1|e]|s1 t|t2 d2 c2 s0 b k]; cbn [perform].
    - exact (ctx_out_trans _ _ _ H (IH _ _ _ _ _ _ _)).
    - exact (ctx_out_trans _ _ _ H (IH _ _ _ _ _ _ _)).
    - exact I.
    - destruct (emit W wr s1 o t) as [[s2 o2]|] eqn:E; [|exact I]. apply emit_same in E.
      exact (ctx_out_trans _ _ _ H (ctx_out_trans _ _ _ E (IH _ _ _ _ _ _ _))).
    - pose proof (IH t2 ae d2 c2 0 s0 (call_sink W o b)) as Hn.
      destruct (run W wr wd f t2 ae d2 c2 0 s0 (call_sink W o b)) as [s2 o2|e|]; [|exact I|exact I].
      destruct b; [destruct o2; [exact I|]|]; exact (ctx_out_trans _ _ _ (H _ _ Hn) (IH _ _ _ _ _ _ _)).
  Qed.

  Lemma render_to_same_ctx fuel tpl block c g w s o :
    render_to W wr wd fuel tpl block c g w = RDone s o -> context s = c /\ global s = Some g.
  Proof.
    unfold render_to.
    match goal with |- context [run W wr wd fuel tpl None 0 (t_root_chunk tpl) 0 ?s0 _] =>
      pose proof (run_same_ctx fuel tpl None 0 (t_root_chunk tpl) 0 s0) as H end.
    destruct block as [b|]; [specialize (H (SinkBuf []))|specialize (H (SinkTop w))];
      destruct (run W wr wd fuel tpl None 0 (t_root_chunk tpl) 0 _ _) as [s1 o1|e|]; try discriminate.
    - destruct (wr w (block_buffer s1)); [|discriminate]. intros E; inversion E; subst. exact H.
    - intros E; inversion E; subst. exact H.
  Qed.
End CtxInv.

(* The formal counterpart of the purity-history oracle of harness/src/c18_history.rs. An engine
   operation either changes the world (registration, configuration: any function world -> world)
   or renders (any function of the world and a request: tera_render, tera_render_block, ...).
   True by construction — `render` gets the world as an argument and returns only its result —
   and stated so that the oracle's reference engine ("the same history without the renders") has
   a definition. *)
Section History.
  Variable req : Type.
  Variable render : world -> req -> res str.

  Inductive hop := HReg (f : world -> world) | HRender (r : req).

  Fixpoint run_history (wd : world) (h : list hop) : world * list (res str) :=
    match h with
    | [] => (wd, [])
    | HReg f :: t => run_history (f wd) t
    | HRender r :: t => let (w', outs) := run_history wd t in (w', render wd r :: outs)
    end.

  Definition is_reg (o : hop) : bool := match o with HReg _ => true | HRender _ => false end.
  Definition strip_renders (h : list hop) : list hop := filter is_reg h.

  Lemma history_strip : forall h wd, run_history wd (strip_renders h) = (fst (run_history wd h), []).
  Proof.
    unfold strip_renders. induction h as [|[f|r] t IH]; intros wd; cbn [filter is_reg run_history]; [reflexivity|apply IH|].
    rewrite (IH wd). destruct (run_history wd t). reflexivity.
  Qed.

  Lemma history_render_result : forall h1 r h2 wd,
    nth_error (snd (run_history wd (h1 ++ HRender r :: h2))) (length (filter (fun o => negb (is_reg o)) h1))
    = Some (render (fst (run_history wd (strip_renders h1))) r).
  Proof.
    induction h1 as [|o t IH]; intros r h2 wd.
    - cbn [app run_history filter length strip_renders]. destruct (run_history wd h2). reflexivity.
    - destruct o as [f|r0]; cbn [app run_history filter is_reg negb length strip_renders].
      + apply IH.
      + specialize (IH r h2 wd). destruct (run_history wd (t ++ HRender r :: h2)) as [w' outs].
        cbn [snd nth_error length]. cbn [snd] in IH. rewrite IH. reflexivity.
  Qed.
End History.
