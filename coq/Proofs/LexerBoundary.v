(* Every offset at which the lexer cuts its input (Model/LexerSlices.v)
   is a character boundary of the source, for every delimiter set accepted by validate whose six
   strings are valid UTF-8 (they are Rust `str`s) and every valid UTF-8 source.

   The argument is the self-synchronisation of UTF-8 (Spec/Utf8Chars.v): in a valid string a byte
   that announces a k-byte character (lead_len b = Some k) really is the first byte of one, so the
   position k bytes later is a boundary (ReportProofs.boundary_after_lead); a continuation byte announces
   nothing.  Hence an occurrence of a valid 2-byte needle - two ASCII bytes or one 2-byte character -
   anywhere in a valid haystack starts and ends on boundaries (delim_at), and so does
   any run that ends in an ASCII byte.  Each cut is justified by the bytes next to it; only the
   raw-block loop carries "the body start and the current offset are boundaries" along
   (raw_slices_boundary). *)
From Coq Require Import Arith Lia List.
From TeraV Require Import Model.Value Model.Utf8Lex Model.Lexer Model.LexerSlices Spec.Doc
  Proofs.ListFacts Proofs.Utf8Proofs Proofs.WsFilterProofs Proofs.LexerProofs Proofs.LexerSpans.
From TeraV Require Spec.Utf8Chars Model.Report Proofs.ReportProofs.
Local Open Scope nat_scope.

(* stated over Spec/Utf8Chars.v and Model/Report.v; is_cont of Model/Utf8Lex.v, which
   Model/Lexer.v uses, is the same up to conversion (is_char_boundary of Model/Utf8Lex.v is not:
   it equals Report's by cases on the index, and nothing uses it) *)
Notation valid := Utf8Chars.valid_utf8.
Definition bnd (s : bytes) (n : nat) : Prop := Report.is_char_boundary s n = true.
Definition ascii (b : byte) : Prop := (b < 128)%N.


Lemma noncont_boundary : forall s i b,
  nth_error s i = Some b -> Utf8Chars.is_cont b = false -> bnd s i.
Proof. intros s i b H C. apply ReportProofs.is_char_boundary_spec. right. right. now exists b. Qed.

Lemma valid2_cases : forall d, valid d -> length d = 2 ->
  exists a1 a2, d = [a1; a2] /\
    ((Utf8Chars.lead_len a1 = Some 1 /\ Utf8Chars.lead_len a2 = Some 1)
     \/ Utf8Chars.lead_len a1 = Some 2).
Proof.
  intros d H L. inversion H as [E|c rest Hc Hr E]; subst; [discriminate|].
  apply ReportProofs.wf_char_inv in Hc. destruct Hc as (b0 & cs & -> & Hl & _ & _).
  rewrite app_length in L. cbn [length] in L.
  destruct cs as [|c1 [|c2 cs]]; cbn [length] in *.
  - inversion Hr as [E|c' rest' Hc' Hr' E]; subst; [discriminate|].
    apply ReportProofs.wf_char_inv in Hc'. destruct Hc' as (b1 & cs' & -> & Hl' & _ & _).
    rewrite app_length in L. cbn [length] in L.
    destruct cs' as [|x cs']; [|cbn [length] in L; lia].
    destruct rest' as [|y rest']; [|cbn [length] in L; lia].
    exists b0, b1. split; [reflexivity|]. left. split; assumption.
  - destruct rest as [|y rest]; [|cbn [length] in L; lia].
    exists b0, c1. split; [reflexivity|]. right. exact Hl.
  - lia.
Qed.


Lemma starts2_nth : forall d s, starts2 d s = true ->
  exists a1 a2, d = [a1; a2] /\ nth_error s 0 = Some a1 /\ nth_error s 1 = Some a2.
Proof.
  intros d [|b1 [|b2 t]] H; try discriminate. cbn [starts2] in H. apply bytes_eqb_eq in H.
  exists b1, b2. split; [symmetry; exact H|split; reflexivity].
Qed.

Section Cuts.
Variable src : bytes.
Hypothesis Vs : valid src.

Definition at_off (o : nat) (rest : bytes) : Prop :=
  forall i, nth_error rest i = nth_error src (o + i).

Lemma at_off_skipn : forall o rest k, at_off o rest -> at_off (o + k) (skipn k rest).
Proof.
  intros o rest k H i. rewrite nth_error_skipn, H. f_equal. lia.
Qed.

Lemma at_off_refl : at_off 0 src.
Proof. intros i. reflexivity. Qed.

Lemma ascii_cut : forall o rest i b, at_off o rest ->
  nth_error rest i = Some b -> ascii b -> bnd src (o + S i).
Proof.
  intros o rest i b A N Ab. rewrite A in N. replace (o + S i) with (o + i + 1) by lia.
  exact (ReportProofs.boundary_after_lead src Vs _ b 1 N (ReportProofs.lead_len_ascii b Ab)).
Qed.

Lemma at_off_end : forall o rest, at_off o rest -> rest <> [] -> o + length rest = length src.
Proof.
  intros o rest H NE.
  assert (L1 : length src <= o + length rest).
  { apply nth_error_None. rewrite <- H. apply nth_error_None. lia. }
  assert (L2 : o + (length rest - 1) < length src).
  { apply nth_error_Some. rewrite <- H. apply nth_error_Some.
    destruct rest; [contradiction|cbn [length]; lia]. }
  destruct rest; [contradiction|cbn [length] in *; lia].
Qed.

Lemma delim_at : forall o rest d m, valid d -> length d = 2 ->
  at_off o rest -> window rest m = d -> bnd src (o + m) /\ bnd src (o + m + 2).
Proof.
  intros o rest d m Vd Ld A W. destruct (valid2_cases d Vd Ld) as (a1 & a2 & -> & C).
  apply window_nth in W as [N1 N2]. rewrite A in N1, N2. rewrite Nat.add_assoc in N2. split.
  - apply (noncont_boundary src _ a1 N1).
    destruct C as [[C _]|C]; eapply ReportProofs.lead_len_not_cont; exact C.
  - destruct C as [[_ C]|C].
    + replace (o + m + 2) with (o + m + 1 + 1) by lia. eapply ReportProofs.boundary_after_lead; eauto.
    + eapply ReportProofs.boundary_after_lead; eauto.
Qed.

Lemma starts2_at : forall o rest d, valid d -> length d = 2 ->
  at_off o rest -> starts2 d rest = true -> bnd src o /\ bnd src (o + 2).
Proof.
  intros o rest d Vd Ld A S. apply starts2_window in S; [|exact Ld].
  destruct (delim_at o rest d 0 Vd Ld A S) as [H1 H2].
  rewrite Nat.add_0_r in H1, H2. split; assumption.
Qed.


Lemma high_eqb : forall b, (128 <= b)%N -> forall c, (c < 128)%N -> (b =? c)%N = false.
Proof. intros b Hb c Hc. apply N.eqb_neq. lia. Qed.

Lemma high_leb : forall b, (128 <= b)%N -> forall c, (c < 128)%N -> (b <=? c)%N = false.
Proof. intros b Hb c Hc. apply N.leb_gt. lia. Qed.

(* H says that b is in one of the lexer's byte classes, which test b against ASCII codes only:
   for b >= 128 every such test fails *)
Ltac ascii_class H :=
  match goal with |- ascii ?b =>
    destruct (N.lt_ge_cases b 128) as [A|A]; [exact A|exfalso];
    cbv [is_ascii_ws is_ascii_digit is_ascii_alpha is_ascii_alnum is_quote op1_of op2_of] in H;
    rewrite ?(high_eqb b A), ?(high_leb b A), ?andb_false_r in H by reflexivity;
    discriminate H
  end.

Lemma ascii_ws_ascii : forall b, is_ascii_ws b = true -> ascii b.
Proof. intros b H. ascii_class H. Qed.

Lemma ascii_digit_ascii : forall b, is_ascii_digit b = true -> ascii b.
Proof. intros b H. ascii_class H. Qed.

Lemma ascii_alnum_ascii : forall b, is_ascii_alnum b = true -> ascii b.
Proof. intros b H. ascii_class H. Qed.

Lemma ascii_alpha_ascii : forall b, is_ascii_alpha b = true -> ascii b.
Proof. intros b H. ascii_class H. Qed.

Lemma quote_ascii : forall b, is_quote b = true -> ascii b.
Proof. intros b H. ascii_class H. Qed.

Lemma op1_ascii : forall b o, op1_of b = Some o -> ascii b.
Proof. intros b o H. ascii_class H. Qed.

Lemma op2_ascii : forall b1 b2 o, op2_of b1 b2 = Some o -> ascii b2.
Proof. intros b1 b2 o H. ascii_class H. Qed.


Lemma ident_scan_last : forall s f n, ident_scan s f = S n ->
  exists b, nth_error s n = Some b /\ ascii b.
Proof.
  induction s as [|c t IH]; intros f n H; [discriminate|]. cbn [ident_scan] in H.
  destruct ((c =? 95)%N || (if f then is_ascii_alpha c else is_ascii_alnum c)) eqn:C; [|discriminate].
  injection H as H1. destruct n as [|n].
  - exists c. split; [reflexivity|]. apply orb_true_iff in C. destruct C as [C|C].
    + apply N.eqb_eq in C. subst c. unfold ascii. lia.
    + destruct f; [apply ascii_alpha_ascii|apply ascii_alnum_ascii]; exact C.
  - cbn [nth_error]. apply (IH false). exact H1.
Qed.

Lemma num_scan_last : forall s f n, fst (num_scan s f) = S n ->
  exists b, nth_error s n = Some b /\ ascii b.
Proof.
  induction s as [|c t IH]; intros f n H; [discriminate|]. cbn [num_scan] in H.
  destruct (negb f && (c =? 46)%N) eqn:D.
  - destruct (num_scan t true) as [k g] eqn:E. cbn [fst] in H. injection H as H1.
    destruct n as [|n].
    + exists c. split; [reflexivity|]. apply andb_true_iff in D. destruct D as [_ D].
      apply N.eqb_eq in D. subst c. unfold ascii. lia.
    + cbn [nth_error]. apply (IH true). rewrite E. exact H1.
  - destruct (is_ascii_digit c) eqn:G; [|discriminate].
    destruct (num_scan t f) as [k g] eqn:E. cbn [fst] in H. injection H as H1.
    destruct n as [|n].
    + exists c. split; [reflexivity|]. apply ascii_digit_ascii. exact G.
    + cbn [nth_error]. apply (IH f). rewrite E. exact H1.
Qed.

Lemma ws_pre_boundary : forall rest o, at_off o rest ->
  length rest - length (skip_ascii_ws rest) <> 0 ->
  bnd src (o + (length rest - length (skip_ascii_ws rest))).
Proof.
  induction rest as [|b t IH]; intros o A NZ; [contradiction|]. cbn [skip_ascii_ws] in *.
  destruct (is_ascii_ws b) eqn:W; [|rewrite Nat.sub_diag in NZ; contradiction].
  pose proof (skip_ascii_ws_len t) as L. cbn [length]. rewrite Nat.sub_succ_l by exact L.
  (* the last blank is the one before the cut: b itself, or one further on *)
  destruct (Nat.eq_dec (length t - length (skip_ascii_ws t)) 0) as [Z|Z].
  - rewrite Z. exact (ascii_cut o _ 0 b A eq_refl (ascii_ws_ascii b W)).
  - rewrite <- Nat.add_succ_comm. apply IH; [|exact Z]. rewrite <- Nat.add_1_r. exact (at_off_skipn o _ 1 A).
Qed.


Lemma starts_with3_nth : forall (a b c : byte) (s : bytes), starts_with [a; b; c] s = true ->
  nth_error s 2 = Some c.
Proof.
  intros a b c s H. unfold starts_with in H. cbn [length] in H. apply bytes_eqb_eq in H.
  destruct s as [|x [|y [|z s]]]; try discriminate. cbn [firstn] in H. inversion H. reflexivity.
Qed.

Lemma inner_slices_boundary : forall o rest, at_off o rest ->
  forall n, In n (inner_slices rest) -> bnd src (o + n).
Proof.
  (* by the cases of inner_token: every cut lies just behind an ASCII byte of the token (ascii_cut) *)
  intros o rest A n H. unfold inner_slices in H.
  destruct rest as [|b1 t1]; [contradiction|]. remember (b1 :: t1) as rest eqn:ER in *.
  assert (N0 : nth_error rest 0 = Some b1) by (rewrite ER; reflexivity).
  destruct (starts_with _ rest) eqn:SW.
  { destruct H as [<-|[]]. apply starts_with3_nth in SW.
    apply (ascii_cut _ _ _ _ A SW). unfold ascii. lia. }
  destruct (match t1 with b2 :: _ => op2_of b1 b2 | [] => None end) as [op|] eqn:O2.
  { destruct H as [<-|[]]. destruct t1 as [|b2 t2]; [discriminate|].
    apply op2_ascii in O2. rewrite ER in A. exact (ascii_cut _ _ 1 _ A eq_refl O2). }
  destruct (op1_of b1) as [op|] eqn:O1.
  { destruct H as [<-|[]]. apply op1_ascii in O1. exact (ascii_cut _ _ _ _ A N0 O1). }
  destruct (is_quote b1) eqn:Q.
  { apply quote_ascii in Q.
    destruct (str_scan (tl rest) b1 false) as [k h].
    destruct (byte_at_is rest (k + 1) b1) eqn:BA; cbn [negb] in H; [|contradiction].
    unfold byte_at_is in BA. destruct (nth_error rest (k + 1)) as [x|] eqn:NK; [|discriminate].
    apply N.eqb_eq in BA. subst x.
    destruct H as [<-|[<-|[<-|[]]]].
    - replace (k + 2) with (S (k + 1)) by lia. exact (ascii_cut _ _ _ _ A NK Q).
    - exact (ascii_cut _ _ _ _ A N0 Q).
    - (* the cut in front of the closing quote: the quote itself starts a character *)
      rewrite A in NK. apply (noncont_boundary src _ b1 NK). eapply ReportProofs.lead_len_not_cont.
      apply ReportProofs.lead_len_ascii. exact Q. }
  destruct (is_ascii_digit b1) eqn:D.
  { destruct H as [<-|[]]. destruct (fst (num_scan rest false)) as [|m] eqn:NS.
    - exfalso. rewrite ER in NS. cbn [num_scan negb andb] in NS.
      destruct (b1 =? 46)%N; [destruct (num_scan t1 true); discriminate|].
      rewrite D in NS. destruct (num_scan t1 false); discriminate.
    - destruct (num_scan_last _ _ _ NS) as (b & N & Ab). exact (ascii_cut _ _ _ _ A N Ab). }
  destruct (ident_scan rest true) as [|m] eqn:IS; [contradiction|].
  destruct H as [<-|[]]. destruct (ident_scan_last _ _ _ IS) as (b & N & Ab).
  exact (ascii_cut _ _ _ _ A N Ab).
Qed.


Lemma inside_slices_boundary : forall e, valid e -> length e = 2 ->
  forall fuel rest o, at_off o rest ->
  forall n, In n (inside_slices fuel e rest o) -> bnd src n.
Proof.
  intros e Ve Le. induction fuel as [|f IH]; intros rest o A n H; [contradiction|].
  cbn [inside_slices] in H. apply in_app_or in H. destruct H as [H|H].
  { destruct (Nat.eqb (length rest - length (skip_ascii_ws rest)) 0) eqn:Z; [contradiction|].
    destruct H as [<-|[]]. apply Nat.eqb_neq in Z. apply ws_pre_boundary; assumption. }
  set (pre := length rest - length (skip_ascii_ws rest)) in *.
  assert (A1 : at_off (o + pre) (skip_ascii_ws rest)).
  { rewrite (skip_ascii_ws_skipn rest). apply at_off_skipn. exact A. }
  destruct (skip_ascii_ws rest) as [|b0 t0] eqn:E1; [contradiction|]. rewrite <- E1 in *.
  destruct ((b0 =? dash)%N && starts2 e t0) eqn:D.
  { destruct H as [<-|[]]. apply andb_true_iff in D. destruct D as [_ D].
    assert (A2 : at_off (o + pre + 1) t0).
    { replace t0 with (skipn 1 (skip_ascii_ws rest)) by (rewrite E1; reflexivity).
      apply at_off_skipn. exact A1. }
    destruct (starts2_at _ t0 e Ve Le A2 D) as [_ B2].
    replace (o + pre + 3) with (o + pre + 1 + 2) by lia. exact B2. }
  destruct (starts2 e (skip_ascii_ws rest)) eqn:D2.
  { destruct H as [<-|[]]. destruct (starts2_at _ _ e Ve Le A1 D2) as [_ B2]. exact B2. }
  apply in_app_or in H. destruct H as [H|H].
  { apply in_map_iff in H. destruct H as (m & <- & Hm).
    eapply inner_slices_boundary; eauto. }
  destruct (inner_token (skip_ascii_ws rest)) as [[t len]|]; [|contradiction].
  eapply IH; [|exact H]. apply at_off_skipn. exact A1.
Qed.


Lemma skip_tag_boundary : forall o s name e n w, valid e -> length e = 2 ->
  at_off o s -> skip_tag s name e = Some (n, w) -> bnd src (o + n).
Proof.
  intros o s name e n w Ve Le A H.
  destruct (skip_tag_inv _ _ _ _ _ H) as (m1 & w1 & w2 & rest & ES & _ & _ & L).
  set (x := mk m1 ++ w1 ++ name ++ w2 ++ mk w).
  assert (ES' : s = x ++ e ++ rest) by (rewrite ES; unfold x; now rewrite <- !app_assoc).
  assert (W : window s (length x) = e) by (rewrite ES', window_app_r0; now apply window_len2).
  destruct (delim_at o s e (length x) Ve Le A W) as [_ B2].
  rewrite ES', !app_length in L. replace (o + n) with (o + length x + 2) by lia. exact B2.
Qed.

Lemma raw_slices_boundary : forall dl, valid (d_bs dl) -> length (d_bs dl) = 2 -> valid (d_be dl) -> length (d_be dl) = 2 ->
  forall fuel rest bstart off o, at_off o rest ->
  bnd src (o + bstart) -> bnd src (o + off) ->
  forall n, In n (raw_slices fuel dl rest bstart off o) -> bnd src n.
Proof.
  intros dl Vb Lb Ve Le. induction fuel as [|f IH]; intros rest bstart off o A Bs Bo n H;
    [contradiction|].
  cbn [raw_slices] in H. destruct H as [<-|H]; [exact Bo|].
  destruct (memstr (skipn off rest) (d_bs dl)) as [block|] eqn:M; [|contradiction].
  apply memstr_sound in M as W; [|exact Lb].
  pose proof (at_off_skipn o rest off A) as A2.
  destruct (delim_at _ _ _ block Vb Lb A2 W) as [B1 B2].
  replace (o + off + block) with (o + (off + block)) in B1 by lia.
  replace (o + off + block + 2) with (o + (off + block + 2)) in B2 by lia.
  destruct H as [<-|H]; [exact B2|].
  destruct (skip_tag (skipn (off + block + 2) rest) name_endraw (d_be dl)) as [[en we]|] eqn:ST.
  - pose proof (at_off_skipn o rest (off + block + 2) A) as A3.
    pose proof (skip_tag_boundary _ _ _ _ _ _ Ve Le A3 ST) as B3.
    destruct H as [<-|[<-|[<-|[]]]]; [exact Bs|exact B1|].
    replace (o + (off + block + 2 + en)) with (o + (off + block + 2) + en) by lia. exact B3.
  - eapply IH; [exact A|exact Bs|exact B2|exact H].
Qed.


Lemma ws_start_boundary : forall o rest d, valid d -> length d = 2 ->
  at_off o rest -> starts2 d rest = true -> bnd src (o + mlen (byte_at_is rest 2 dash)).
Proof.
  intros o rest d Vd Ld A S. destruct (starts2_at o rest d Vd Ld A S) as [_ B2].
  unfold byte_at_is. destruct (nth_error rest 2) as [b|] eqn:N2; [|exact B2].
  destruct (b =? dash)%N eqn:E; [|exact B2]. apply N.eqb_eq in E. subst b.
  apply (ascii_cut _ _ _ _ A N2). unfold ascii, dash. lia.
Qed.


(* `ks` lists the cuts of the rest of the run *)
Lemma inside_arm_boundary : forall e rest1 o1 ks n, valid e -> length e = 2 ->
  at_off o1 rest1 ->
  (forall r o', at_off o' r -> In n (ks r o') -> bnd src n) ->
  In n (inside_slices (S (length rest1)) e rest1 o1 ++
        match scan_inside (S (length rest1)) e rest1 with
        | IEnd _ _ _ rest2 => ks rest2 (o1 + (length rest1 - length rest2))
        | _ => []
        end) -> bnd src n.
Proof.
  intros e rest1 o1 ks n Ve Le A1 K H. apply in_app_or in H. destruct H as [H|H].
  - exact (inside_slices_boundary e Ve Le _ _ _ A1 n H).
  - pose proof (scan_inside_spec (S (length rest1)) e rest1) as SP.
    destruct (scan_inside (S (length rest1)) e rest1) as [toks w pre rest2| |]; try contradiction.
    destruct SP as (_ & L & ->). rewrite skipn_length in H.
    replace (length rest1 - (length rest1 - (consumed toks + pre + mlen w)))
      with (consumed toks + pre + mlen w) in H by lia.
    exact (K _ _ (at_off_skipn _ _ _ A1) H).
Qed.

Lemma loop_slices_boundary : forall dl, validate dl = ROk tt -> delims_utf8 dl ->
  forall fuel rest o, at_off o rest ->
  forall n, In n (loop_slices fuel dl rest o) -> bnd src n.
Proof.
  intros dl V (Vb & Ve & Vv & Vx & Vc & Vz).
  apply validate_spec in V as Hok. pose proof Hok as (Lb & Le & Lv & Lx & Lc & Lz & _).
  induction fuel as [|f IH]; intros rest o A n H; [contradiction|].
  (* loop_slices matches on its input: the cons is shown for that one step of cbn and folded
     back, so that everything after speaks of `rest` *)
  destruct rest as [|b0 rest0] eqn:ER; [contradiction|]. rewrite <- ER in *.
  assert (NE : rest <> []) by (rewrite ER; discriminate).
  cbn [loop_slices] in H. rewrite ER in H at 1. rewrite check_ws_start_eq in H. cbv beta iota zeta in H.
  set (ws := byte_at_is rest 2 dash) in *. set (rest1 := skipn (mlen ws) rest) in *.
  pose proof (at_off_skipn o rest (mlen ws) A) as A1. fold rest1 in A1.
  assert (K : forall r o', at_off o' r -> In n (loop_slices f dl r o') -> bnd src n)
    by (intros r o' Ar; apply IH; exact Ar).
  destruct (starts2 (d_vs dl) rest) eqn:SV.
  { destruct H as [<-|H]; [exact (ws_start_boundary o rest _ Vv Lv A SV)|].
    exact (inside_arm_boundary _ rest1 _ _ n Vx Lx A1 K H). }
  destruct (starts2 (d_bs dl) rest) eqn:SB.
  { destruct H as [<-|H]; [exact (ws_start_boundary o rest _ Vb Lb A SB)|].
    destruct (skip_tag rest1 name_raw (d_be dl)) as [[off w]|] eqn:ST;
      [|exact (inside_arm_boundary _ rest1 _ _ n Ve Le A1 K H)].
    pose proof (skip_tag_boundary _ _ _ _ _ _ Ve Le A1 ST) as B2.
    apply in_app_or in H. destruct H as [H|H].
    - exact (raw_slices_boundary dl Vb Lb Ve Le _ _ _ _ _ A1 B2 B2 n H).
    - destruct (raw_loop (S (length rest1)) dl rest1 off off w) as [[[body we] adv]|]; [|contradiction].
      exact (K _ _ (at_off_skipn _ _ _ A1) H). }
  destruct (starts2 (d_cs dl) rest) eqn:SC.
  { destruct H as [<-|H]; [exact (ws_start_boundary o rest _ Vc Lc A SC)|].
    destruct (memstr rest1 (d_ce dl)) as [ep|] eqn:M; [|contradiction].
    apply memstr_sound in M as W; [|exact Lz].
    destruct (delim_at _ _ _ ep Vz Lz A1 W) as [_ B2].
    destruct H as [<-|H]; [|exact (K _ _ (at_off_skipn _ _ _ A1) H)].
    now rewrite Nat.add_assoc. }
  destruct (find_start_marker dl rest) as [st|] eqn:F.
  - destruct H as [<-|H]; [|exact (K _ _ (at_off_skipn _ _ _ A) H)].
    destruct (find_start_marker_sound dl Hok _ _ F) as [W|[W|W]];
      [exact (proj1 (delim_at o rest _ st Vv Lv A W))|exact (proj1 (delim_at o rest _ st Vb Lb A W))
      |exact (proj1 (delim_at o rest _ st Vc Lc A W))].
  - destruct H as [<-|[]]. rewrite (at_off_end o rest A NE).
    apply ReportProofs.boundary_len.
Qed.

End Cuts.

Theorem slice_offsets_on_boundaries : forall dl src,
  validate dl = ROk tt -> delims_utf8 dl -> valid src ->
  forall n, In n (slice_offsets dl src) -> Report.is_char_boundary src n = true.
Proof.
  intros dl src V U Vs n H. unfold slice_offsets in H.
  exact (loop_slices_boundary src Vs dl V U _ _ _ (at_off_refl src) n H).
Qed.


Theorem advance_at_boundaries : forall src p rest k st, valid src -> src = p ++ rest ->
  Report.is_char_boundary src (length p) = true ->
  Report.is_char_boundary src (length p + k) = true ->
  exists st', Report.advance st rest k = Some (st', firstn k rest, skipn k rest) /\
    valid (firstn k rest) /\ valid (skipn k rest) /\ valid rest.
Proof.
  intros src p rest k st Vs E Bp Bk. subst src.
  assert (Vr : valid rest).
  { destruct (ReportProofs.split_valid _ Vs (length p) Bp) as [_ V2].
    rewrite ReportProofs.skipn_app_exact in V2. exact V2. }
  assert (Br : Report.is_char_boundary rest k = true).
  { destruct (Nat.eq_dec k 0) as [->|NZ]; [reflexivity|].
    rewrite <- (ReportProofs.boundary_app_shift p rest k NZ). exact Bk. }
  assert (Lk : k <= length rest) by (apply ReportProofs.boundary_le; exact Br).
  destruct (ReportProofs.advance_ok st rest k Vr Lk Br) as (st' & H1 & H2 & H3 & _).
  exists st'. repeat split; assumption.
Qed.

(* `rest.get(a..a+2) == Some(delim)` (the checked slice) is the byte comparison of Model/Lexer.v *)
Theorem get2_is_window : forall s d a, valid s -> valid d -> length d = 2 ->
  (get2 s a = Some d <-> window s a = d).
Proof.
  intros s d a Vs Vd Ld. unfold get2, Report.str_slice. split.
  - intro H. destruct (_ && _)%bool; [|discriminate]. inversion H as [H1].
    unfold window. replace (a + 2 - a) with 2 by lia. reflexivity.
  - intro W. destruct (delim_at s Vs 0 s d a Vd Ld (at_off_refl s) W) as [B1 B2].
    cbn [plus] in B1, B2. unfold bnd in B1, B2. rewrite B1, B2.
    pose proof (window_full s a d Ld W) as L.
    replace (a <=? a + 2) with true by (symmetry; apply Nat.leb_le; lia).
    replace (a + 2 <=? length s) with true by (symmetry; apply Nat.leb_le; exact L).
    cbn [andb]. replace (a + 2 - a) with 2 by lia. f_equal. exact W.
Qed.

(* the statement of Props/C06.v: termination and in-bounds ranges (LexerSpans), every cut on a
   boundary, advance! total between two cuts and panicking off a boundary (ReportProofs) *)
Theorem lexer_total_and_boundary_safe :
  (forall dl src, validate dl = ROk tt -> lex_ptoks dl src <> RErr ErrPanic) /\
  (forall dl src pt s e, validate dl = ROk tt -> lex_ptoks dl src = ROk pt ->
     In (s, e) (offsets 0 pt) -> s <= e /\ e <= length src) /\
  (forall dl src, validate dl = ROk tt -> delims_utf8 dl -> valid src ->
     forall n, In n (slice_offsets dl src) -> Report.is_char_boundary src n = true) /\
  (forall src p rest k st, valid src -> src = p ++ rest ->
     Report.is_char_boundary src (length p) = true ->
     Report.is_char_boundary src (length p + k) = true ->
     exists st', Report.advance st rest k = Some (st', firstn k rest, skipn k rest) /\
       valid (firstn k rest) /\ valid (skipn k rest) /\ valid rest) /\
  (forall st rest n, Report.is_char_boundary rest n = false -> Report.advance st rest n = None).
Proof.
  split; [exact lex_ptoks_total|].
  split; [exact token_ranges_in_source|].
  split; [exact slice_offsets_on_boundaries|].
  split; [exact advance_at_boundaries|exact ReportProofs.advance_panics].
Qed.

Theorem boundary_needs_utf8_delimiters :
  exists dl src, validate dl = ROk tt /\ valid src /\
    exists n, In n (slice_offsets dl src) /\ Report.is_char_boundary src n = false.
Proof.
  exists (mkDelims [0x7B; 0x25] [0x25; 0x7D] [0xA9; 0xC3] [0x7D; 0x7D] [0x7B; 0x23] [0x23; 0x7D])%N.
  exists [0xC3; 0xA9; 0xC3; 0xA9]%N.
  split; [reflexivity|]. split.
  - change [0xC3; 0xA9; 0xC3; 0xA9]%N with ([0xC3; 0xA9] ++ [0xC3; 0xA9] ++ [])%N.
    repeat (constructor; [cbn; split; reflexivity|]). constructor.
  - exists 1. split; [vm_compute; left; reflexivity|reflexivity].
Qed.
