(* Lemmas for C13, part 2: numeric equality and ordering of Model/Number.v (the ports of
   cmp_f64_to_i128 / cmp_f64_to_u128 and of the numeric arms of PartialEq / PartialOrd) against
   the exact order `xcmp` of Spec/Arith.v.  Everything is done in Z; no reals, no axioms.
   Model/Order.v ports the same Rust comparison over float classes instead of SpecFloat operations;
   the laws of the order, the guarded floor comparison and the integer arms are taken from its
   proofs (Proofs/OrderProofs.v), the float operations are tied to them here. *)
From TeraV Require Import Model.Value Model.Number Spec.Arith Proofs.NumberProofs.
From TeraV Require Proofs.IntRange Proofs.OrderProofs.

(* Spec/Arith.dy_cmp and Model/Order.dy_cmp have the same body: the laws are those of OrderProofs *)
Lemma dy_cmp_scale : forall m1 e1 m2 e2 k,
  k <= e1 -> k <= e2 ->
  dy_cmp m1 e1 m2 e2 = (m1 * 2 ^ (e1 - k) ?= m2 * 2 ^ (e2 - k)).
Proof. exact OrderProofs.dy_cmp_scale. Qed.

Lemma dy_cmp_refl : forall m e, dy_cmp m e m e = Eq.
Proof. intros. unfold dy_cmp. apply Z.compare_refl. Qed.

Lemma dy_cmp_swap : forall m1 e1 m2 e2,
  dy_cmp m2 e2 m1 e1 = CompOpp (dy_cmp m1 e1 m2 e2).
Proof. exact OrderProofs.dy_cmp_opp. Qed.

Lemma dy_cmp_eq_r : forall a ea b eb c ec,
  dy_cmp b eb c ec = Eq -> dy_cmp a ea b eb = dy_cmp a ea c ec.
Proof. intros a ea b eb c ec. apply OrderProofs.tr_eq_r, OrderProofs.dy_cmp_tr. Qed.

Lemma dy_cmp_ints : forall a b, dy_cmp a 0 b 0 = (a ?= b).
Proof. exact OrderProofs.dy_cmp_ints. Qed.

Lemma dy_cmp_lt_signs : forall m1 e1 m2 e2,
  m1 <= 0 <= m2 -> m1 < m2 -> dy_cmp m1 e1 m2 e2 = Lt.
Proof.
  intros m1 e1 m2 e2 H L. unfold dy_cmp. apply Z.compare_lt_iff.
  pose proof (Z.pow_pos_nonneg 2 (e1 - Z.min e1 e2) ltac:(lia) ltac:(lia)) as P1.
  pose proof (Z.pow_pos_nonneg 2 (e2 - Z.min e1 e2) ltac:(lia) ltac:(lia)) as P2.
  nia.
Qed.

Lemma dy_cmp_gt_signs : forall m1 e1 m2 e2,
  m2 <= 0 <= m1 -> m2 < m1 -> dy_cmp m1 e1 m2 e2 = Gt.
Proof.
  intros. rewrite dy_cmp_swap, (dy_cmp_lt_signs m2 e2 m1 e1) by assumption. reflexivity.
Qed.

Lemma dy_cmp_neg : forall m1 e1 m2 e2,
  dy_cmp (- m1) e1 (- m2) e2 = CompOpp (dy_cmp m1 e1 m2 e2).
Proof.
  intros. unfold dy_cmp. rewrite !Z.mul_opp_l, Z.compare_opp. apply Z.compare_antisym.
Qed.

(* Arith.xreal and Order.fcls are the same extended dyadic numbers, and Arith.xcmp is the order of
   OrderProofs.xcmp on them: its laws are taken from there *)
Definition fcls_x (x : xreal) : Order.fcls :=
  match x with
  | XNegInf => Order.FInf true
  | XPosInf => Order.FInf false
  | XNaN => Order.FNaN
  | XFin m e => Order.FFin m e
  end.

Lemma xcmp_bridge x y : xcmp x y = OrderProofs.xcmp (fcls_x x) (fcls_x y).
Proof. destruct x, y; reflexivity. Qed.

Lemma xcmp_refl : forall a, xcmp a a = Eq.
Proof. destruct a; cbn; auto using dy_cmp_refl. Qed.

Lemma xcmp_swap : forall a b, xcmp b a = CompOpp (xcmp a b).
Proof. intros. rewrite !xcmp_bridge. apply OrderProofs.xcmp_opp. Qed.

Lemma xcmp_tr : forall a b c, OrderProofs.tr (xcmp a b) (xcmp b c) (xcmp a c).
Proof. intros. rewrite !xcmp_bridge. apply OrderProofs.xcmp_tr. Qed.

Lemma xcmp_trans : forall r a b c, xcmp a b = r -> xcmp b c = r -> xcmp a c = r.
Proof. intros r a b c. apply OrderProofs.tr_trans, xcmp_tr. Qed.

Lemma xcmp_eq_l : forall a b c, xcmp a b = Eq -> xcmp a c = xcmp b c.
Proof. intros a b c. apply OrderProofs.tr_eq_l, xcmp_tr. Qed.

Lemma xcmp_eq_r : forall a b c, xcmp b c = Eq -> xcmp a b = xcmp a c.
Proof. intros a b c. apply OrderProofs.tr_eq_r, xcmp_tr. Qed.

Definition valid64 (f : spec_float) : Prop := valid_binary 53 1024 f = true.

(* digits2_pos is Pos.size under another name: the digit count is Z.log2 + 1, and Z.log2 has the
   lemmas *)
Lemma digits2_log2 p : Zpos (digits2_pos p) = Z.log2 (Zpos p) + 1.
Proof.
  assert (E : forall q, digits2_pos q = Pos.size q) by (induction q; cbn; congruence).
  destruct p; cbn [Z.log2]; rewrite E; cbn [Pos.size]; lia.
Qed.

(* binary64: 53-digit mantissas, emax = 1024; least exponent 3 - 1024 - 53 = -1074 (subnormals),
   greatest 1024 - 53 = 971; a mantissa is normalised to 53 digits unless the exponent is least *)
Lemma valid64_finite s m e : valid64 (S754_finite s m e) <->
  Z.log2 (Zpos m) <= 52 /\ -1074 <= e <= 971 /\ (Z.log2 (Zpos m) = 52 \/ e = -1074).
Proof.
  unfold valid64, valid_binary, bounded, canonical_mantissa, fexp, emin.
  rewrite andb_true_iff, digits2_log2, <- Zeq_is_eq_bool, Z.leb_le. lia.
Qed.

Lemma valid64_mantissa s m e : valid64 (S754_finite s m e) ->
  Zpos m < 2 ^ 53 /\ -1074 <= e /\ (-1074 < e -> 2 ^ 52 <= Zpos m).
Proof. intros V%valid64_finite. rewrite Z.log2_lt_pow2, Z.log2_le_pow2 by lia. lia. Qed.

(* between valid floats the exponents decide, unless they are equal: a mantissa below 2^53 at the
   lower exponent is less than a normalised one, 2^52 at least, at a higher exponent *)
Lemma pos_cmp_exact : forall s1 m1 e1 s2 m2 e2,
  valid64 (S754_finite s1 m1 e1) -> valid64 (S754_finite s2 m2 e2) ->
  match e1 ?= e2 with Lt => Lt | Gt => Gt | Eq => Pos.compare_cont Eq m1 m2 end =
  dy_cmp (Zpos m1) e1 (Zpos m2) e2.
Proof.
  assert (L : forall s1 m1 e1 s2 m2 e2, valid64 (S754_finite s1 m1 e1) ->
    valid64 (S754_finite s2 m2 e2) -> e1 < e2 -> dy_cmp (Zpos m1) e1 (Zpos m2) e2 = Lt).
  { intros s1 m1 e1 s2 m2 e2 [U1 [E1 _]]%valid64_mantissa [_ [_ L2]]%valid64_mantissa E.
    rewrite (dy_cmp_scale _ _ _ _ e1), Z.sub_diag, Z.mul_1_r by lia. apply Z.compare_lt_iff.
    pose proof (Z.pow_le_mono_r 2 1 (e2 - e1)). change (2 ^ 53) with (2 * 2 ^ 52) in U1. nia. }
  intros s1 m1 e1 s2 m2 e2 V1 V2. destruct (Z.compare_spec e1 e2) as [E|E|E].
  - subst. rewrite (dy_cmp_scale _ _ _ _ e2), Z.sub_diag by lia. now rewrite !Z.mul_1_r.
  - now rewrite (L s1 m1 e1 s2 m2 e2).
  - now rewrite dy_cmp_swap, (L s2 m2 e2 s1 m1 e1).
Qed.

Definition not_nan (f : spec_float) : Prop := f <> S754_nan.

Lemma SFcompare_exact : forall x y,
  valid64 x -> valid64 y -> not_nan x -> not_nan y ->
  SFcompare x y = Some (xcmp (xval_float x) (xval_float y)).
Proof.
  intros x y Vx Vy Nx Ny. unfold not_nan in *.
  destruct x as [sx|sx| |sx mx ex]; try congruence;
  destruct y as [sy|sy| |sy my ey]; try congruence; cbn [SFcompare xval_float xcmp].
  - rewrite dy_cmp_refl. reflexivity.
  - destruct sy; reflexivity.
  - f_equal. destruct sy; symmetry.
    + apply dy_cmp_gt_signs; lia.
    + apply dy_cmp_lt_signs; lia.
  - destruct sx; reflexivity.
  - destruct sx, sy; reflexivity.
  - destruct sx; reflexivity.
  - f_equal. destruct sx; symmetry.
    + apply dy_cmp_lt_signs; lia.
    + apply dy_cmp_gt_signs; lia.
  - destruct sx, sy; reflexivity.
  - f_equal. destruct sx, sy.
    + (* both negative *)
      change (Zneg mx) with (- Zpos mx). change (Zneg my) with (- Zpos my).
      rewrite dy_cmp_neg, <- (pos_cmp_exact true mx ex true my ey Vx Vy).
      destruct (ex ?= ey); reflexivity.
    + symmetry. apply dy_cmp_lt_signs; lia.
    + symmetry. apply dy_cmp_gt_signs; lia.
    + apply (pos_cmp_exact false mx ex false my ey Vx Vy).
Qed.

(* x is a binary64 value, and its value is the integer k *)
Definition exact_int (x : spec_float) (k : Z) : Prop :=
  valid64 x /\ xcmp (xval_float x) (XFin k 0) = Eq.

(* the float tests of mod.rs 237-271: their right operand is always a float with an integer value *)
Lemma f_tests_exact x y k : valid64 x -> not_nan x -> exact_int y k ->
  let c := xcmp (xval_float x) (XFin k 0) in
  f_lt x y = match c with Lt => true | _ => false end /\
  f_ge x y = match c with Lt => false | _ => true end /\
  f_gt x y = match c with Gt => true | _ => false end.
Proof.
  intros Vx Nx [Vy E] c. assert (Ny : not_nan y) by (intros ->; discriminate E).
  unfold f_lt, f_ge, f_gt, SFltb, SFleb.
  rewrite (SFcompare_exact x y), (SFcompare_exact y x) by assumption.
  rewrite (xcmp_swap (xval_float x) (xval_float y)), (xcmp_eq_r _ _ _ E). fold c.
  destruct c; auto.
Qed.

Definition smant (s : bool) (m : positive) : Z := if s then Zneg m else Zpos m.

(* norm_int shifts p up to exactly 53 digits: j = 52 - log2 p, the mantissa is p * 2^j with
   log2 = 52 and the exponent is -j, so the float is valid and its value is p with the sign s *)
Lemma norm_int_props s p : Zpos p < 2 ^ 53 ->
  exact_int (norm_int s p) (smant s p).
Proof.
  intros Hp%Z.log2_lt_pow2; [|lia]. pose proof (Z.log2_nonneg (Zpos p)) as H0.
  unfold norm_int. rewrite digits2_log2.
  set (j := 53 - (Z.log2 (Zpos p) + 1)). assert (Hj : 0 <= j) by (unfold j; lia).
  pose proof (Z.pow_pos_nonneg 2 j ltac:(lia) Hj) as Pj.
  destruct (Zpos p * 2 ^ j) as [|m'|m'] eqn:Em; try lia.
  replace (Z.log2 (Zpos p) + 1 - 53) with (- j) by (unfold j; lia).
  split.
  - apply valid64_finite. rewrite <- Em, Z.log2_mul_pow2 by lia. unfold j. lia.
  - cbn [xval_float xcmp]. fold (smant s m').
    rewrite (dy_cmp_scale _ _ _ _ (- j)), Z.sub_diag, Z.mul_1_r by lia.
    replace (0 - - j) with j by lia.
    apply Z.compare_eq_iff. unfold smant. destruct s; lia.
Qed.

Lemma floorZ_neg_exp : forall (m : positive) P,
  0 < P ->
  let q := Zpos m / P in
  Zneg m / P = - (if q * P =? Zpos m then q else q + 1).
Proof.
  intros m P HP q.
  pose proof (Z.div_mod (Zpos m) P ltac:(lia)) as Hdm.
  pose proof (Z.mod_pos_bound (Zpos m) P HP) as Hm. fold q in Hdm.
  change (Zneg m) with (- Zpos m).
  destruct (q * P =? Zpos m) eqn:E.
  - apply Z.eqb_eq in E. symmetry. apply Z.div_unique_pos with 0; lia.
  - apply Z.eqb_neq in E. symmetry.
    apply Z.div_unique_pos with (P - Zpos m mod P); lia.
Qed.

(* f_floor of a valid finite float is a valid float whose value is the mathematical floor.  With
   e >= 0 the float is an integer already.  With e < 0 and P = 2^(-e) >= 2, the floor is +-k where
   k = m / P (one more when negative and inexact, floorZ_neg_exp); 2 * (m / P) <= m < 2^53 gives
   k < 2^53, so norm_int represents k exactly (norm_int_props). *)
Lemma f_floor_props s m e : valid64 (S754_finite s m e) ->
  exact_int (f_floor (S754_finite s m e)) (Order.fin_floor (smant s m) e).
Proof.
  intros V. unfold f_floor, Order.fin_floor.
  pose proof (valid64_mantissa _ _ _ V) as [Um _].
  destruct (Z.leb_spec 0 e) as [E0|E0].
  - split; [exact V|]. cbn [xval_float xcmp]. fold (smant s m).
    rewrite (dy_cmp_scale _ _ _ _ 0), !Z.sub_0_r, Z.mul_1_r by lia. apply Z.compare_refl.
  - set (P := 2 ^ (- e)). assert (HP : 2 <= P) by (apply (Z.pow_le_mono_r 2 1); lia).
    rewrite Z.shiftr_div_pow2, Z.shiftl_mul_pow2 by lia. fold P.
    set (q := Zpos m / P).
    pose proof (Z.div_mod (Zpos m) P ltac:(lia)) as Hdm. fold q in Hdm.
    pose proof (Z.mod_pos_bound (Zpos m) P ltac:(lia)) as Hm.
    assert (Hq : 0 <= q /\ 2 * q <= Zpos m) by nia.
    set (k := if s then if q * P =? Zpos m then q else q + 1 else q).
    assert (Hk : 0 <= k < 2 ^ 53).
    { change (2 ^ 53) with 9007199254740992 in *.
      unfold k; destruct s; [destruct (q * P =? Zpos m)|]; lia. }
    replace (smant s m / P) with (if s then - k else k)
      by (unfold smant, k; destruct s; [symmetry; apply floorZ_neg_exp; lia | reflexivity]).
    destruct k as [|p|p]; try lia.
    + split; [reflexivity|]. destruct s; reflexivity.
    + apply (norm_int_props s p), Hk.
Qed.

Lemma f_as_int_exact lo hi x k :
  xcmp (xval_float x) (XFin k 0) = Eq -> lo <= k <= hi -> f_as_int lo hi x = k.
Proof.
  intros E H.
  destruct x as [s|[]| |s m e]; try discriminate E; cbn [xval_float xcmp] in E;
    unfold f_as_int, f_trunc_Z.
  - rewrite dy_cmp_ints in E. apply Z.compare_eq in E. lia.
  - destruct (Z.leb_spec 0 e) as [E0|E0].
    + rewrite (dy_cmp_scale _ _ _ _ 0), Z.sub_0_r, Z.mul_1_r in E by lia.
      apply Z.compare_eq in E. destruct s; lia.
    + rewrite (dy_cmp_scale _ _ _ _ e), Z.sub_diag, Z.mul_1_r, Z.sub_0_l in E by lia.
      apply Z.compare_eq in E.
      pose proof (Z.pow_pos_nonneg 2 (- e) ltac:(lia) ltac:(lia)) as P.
      rewrite Z.shiftr_div_pow2 by lia.
      destruct s.
      * replace (Zpos m) with (- k * 2 ^ (- e)) by lia. rewrite Z.div_mul; lia.
      * rewrite E, Z.div_mul; lia.
Qed.

(* `x > x.floor()` is the has-a-fraction test of Model/Order.v *)
Lemma f_gt_floor : forall s m e, valid64 (S754_finite s m e) ->
  let x := S754_finite s m e in f_gt x (f_floor x) = Order.fin_has_frac (smant s m) e.
Proof.
  intros s m e V x.
  destruct (f_tests_exact x (f_floor x) _ V ltac:(discriminate) (f_floor_props s m e V)) as (_ & _ & ->).
  pose proof (OrderProofs.floor_cmp_exact (smant s m) e (Order.fin_floor (smant s m) e)) as F.
  rewrite Z.compare_refl in F.
  unfold x. cbn [xval_float xcmp]. fold (smant s m). change dy_cmp with Order.dy_cmp. rewrite <- F.
  destruct (Order.fin_has_frac (smant s m) e); reflexivity.
Qed.

(* `i128::MIN as f64` is exact; `i128::MAX as f64` and `u128::MAX as f64` round up to 2^127 and 2^128,
   one above the range: the upper guards of mod.rs 237-271 are exclusive bounds *)
Lemma consts_exact :
  exact_int f64_i128_min i128_min /\ exact_int f64_i128_max two127 /\ exact_int f64_u128_max two128.
Proof. vm_compute. auto. Qed.

(* mod.rs 237-271 for a finite x and any bounds lo <= n < hi whose float images flo, fhi are exact:
   the three float tests are those of Model/Order.v on the dyadic value of x, the saturating cast is
   the identity inside the bounds, and OrderProofs.guarded_floor_cmp does the rest *)
Lemma cmp_finite_generic : forall s m e n lo hi flo fhi,
  let x := S754_finite s m e in
  valid64 x -> exact_int flo lo -> exact_int fhi hi -> lo <= n < hi ->
  (if f_lt x flo then Lt
   else if f_ge x fhi then Gt
   else match f_as_int lo (hi - 1) (f_floor x) ?= n with
        | Eq => if f_gt x (f_floor x) then Gt else Eq
        | o => o
        end) = xcmp (xval_float x) (XFin n 0).
Proof.
  intros s m e n lo hi flo fhi x V Hlo Hhi Hn.
  assert (Nx : not_nan x) by discriminate.
  destruct (f_tests_exact x flo lo V Nx Hlo) as [-> _], (f_tests_exact x fhi hi V Nx Hhi) as (_ & -> & _).
  rewrite (f_gt_floor s m e V : f_gt x (f_floor x) = _).
  apply (OrderProofs.guarded_floor_cmp lo hi (smant s m) e n); [exact Hn|].
  intro Hk. apply f_as_int_exact; [apply (f_floor_props s m e V)|lia].
Qed.

Lemma cmp_f64_to_i128_exact : forall x n,
  valid64 x -> fits_i128 n ->
  cmp_f64_to_i128 x n = xcmp (xval_float x) (XFin n 0).
Proof.
  intros x n V Hn. destruct consts_exact as (Hmin & Hmax & _).
  destruct x as [s|s| |s m e].
  - (* a zero passes both guards, floors and casts to 0 without a fraction: 0 ?= n on both sides *)
    destruct s, n; reflexivity.
  - destruct s; reflexivity.
  - reflexivity.
  - unfold cmp_f64_to_i128. cbn [f_is_nan]. unfold f_as_i128.
    change i128_max with (two127 - 1).
    apply (cmp_finite_generic s m e n i128_min two127 f64_i128_min f64_i128_max V Hmin Hmax).
    range_unfold. lia.
Qed.

Lemma cmp_f64_to_u128_exact : forall x n,
  valid64 x -> 0 <= n <= u128_max ->
  cmp_f64_to_u128 x n = xcmp (xval_float x) (XFin n 0).
Proof.
  intros x n V Hn. destruct consts_exact as (_ & _ & Hmax).
  destruct x as [s|s| |s m e].
  - destruct s, n; reflexivity.
  - destruct s; reflexivity.
  - reflexivity.
  - unfold cmp_f64_to_u128. cbn [f_is_nan]. unfold f_as_u128.
    change u128_max with (two128 - 1).
    apply (cmp_finite_generic s m e n 0 two128 f64_zero f64_u128_max V (conj eq_refl eq_refl) Hmax).
    range_unfold. lia.
Qed.

(* a number as the engine can hold it: the integer is within the range of its tag, the double
   is a binary64 value *)
Definition wf_num (v : value) : Prop :=
  match v with
  | VInt r z => rep_ok r z = true
  | VFloat f => valid64 f
  | _ => False
  end.

(* exact mathematical value of a number *)
Definition xval (v : value) : xreal :=
  match v with
  | VInt _ z => xval_int z
  | VFloat f => xval_float f
  | _ => XNaN
  end.

Lemma cmp_f64_to_number_exact : forall x r z,
  valid64 x -> rep_ok r z = true ->
  cmp_f64_to_number x (VInt r z) = Some (xcmp (xval_float x) (XFin z 0)).
Proof.
  intros x r z V H. unfold cmp_f64_to_number. cbn [as_i128 as_u128].
  destruct (in_i128 z) eqn:Ei.
  - f_equal. apply cmp_f64_to_i128_exact; [assumption|]. apply in_i128_fits. assumption.
  - destruct (IntRange.rep_ok_not_i128 r z H Ei) as [_ [_ Eu]]. rewrite Eu. f_equal.
    apply cmp_f64_to_u128_exact; [assumption|]. apply IntRange.in_u128_iff, Eu.
Qed.

Lemma int_int_cmp_exact : forall ra a rb b,
  rep_ok ra a = true -> rep_ok rb b = true ->
  num_partial_cmp (VInt ra a) (VInt rb b) = Some (a ?= b) /\
  num_eq (VInt ra a) (VInt rb b) = (a =? b).
Proof. exact OrderProofs.int_int_x. Qed.

Lemma is_eq_some : forall c, is_eq (Some c) = true <-> c = Eq.
Proof. destruct c; cbn; split; congruence. Qed.

Definition is_Eq (c : comparison) : bool := match c with Eq => true | _ => false end.

Lemma is_Eq_true : forall c, is_Eq c = true <-> c = Eq.
Proof. destruct c; cbn; split; congruence. Qed.

Lemma num_cmp_eq_exact : forall a b, wf_num a -> wf_num b ->
  num_partial_cmp a b = Some (xcmp (xval a) (xval b)) /\
  num_eq a b = is_Eq (xcmp (xval a) (xval b)).
Proof.
  intros a b Wa Wb.
  destruct a as [| | |ra za|fa| | | |]; try contradiction;
  destruct b as [| | |rb zb|fb| | | |]; try contradiction; cbn [wf_num xval] in *; unfold xval_int.
  - destruct (int_int_cmp_exact ra za rb zb Wa Wb) as [-> ->].
    cbn [xcmp]. rewrite dy_cmp_ints. split; [reflexivity|].
    apply OrderProofs.is_Eq_of_iff. rewrite Z.compare_eq_iff, Z.eqb_eq. reflexivity.
  - (* int, float: the float is compared to the integer, and the result turned round *)
    unfold num_partial_cmp, num_eq.
    rewrite (cmp_f64_to_number_exact fb ra za Wb Wa), (xcmp_swap (xval_float fb) (XFin za 0)).
    split; [reflexivity|]. destruct (xcmp (xval_float fb) (XFin za 0)); reflexivity.
  - unfold num_partial_cmp, num_eq. rewrite (cmp_f64_to_number_exact fa rb zb Wa Wb).
    split; reflexivity.
  - destruct (f_is_nan fa || f_is_nan fb) eqn:N.
    + (* a NaN operand: SFcompare has no answer, the code orders NaN last and equal to itself *)
      destruct fa as [[]|[]| |[] ? ?], fb as [[]|[]| |[] ? ?]; try discriminate N; split; reflexivity.
    + apply orb_false_iff in N as [Na Nb]. unfold num_partial_cmp, num_eq, f_eq, SFeqb.
      rewrite SFcompare_exact, Na, Nb by (trivial; intros ->; discriminate). split; reflexivity.
Qed.

Lemma num_partial_cmp_exact : forall a b, wf_num a -> wf_num b ->
  num_partial_cmp a b = Some (xcmp (xval a) (xval b)).
Proof. intros a b Wa Wb. apply (num_cmp_eq_exact a b Wa Wb). Qed.

Lemma num_eq_exact : forall a b, wf_num a -> wf_num b ->
  num_eq a b = is_Eq (xcmp (xval a) (xval b)).
Proof. intros a b Wa Wb. apply (num_cmp_eq_exact a b Wa Wb). Qed.

Theorem num_cmp_exact : forall a b,
  wf_num a -> wf_num b ->
  num_partial_cmp a b = Some (xcmp (xval a) (xval b)) /\
  (num_eq a b = true <-> xeq (xval a) (xval b)).
Proof.
  intros a b Wa Wb. split; [apply num_partial_cmp_exact; trivial|].
  rewrite num_eq_exact by trivial. apply is_Eq_true.
Qed.

Definition spec_test (op : cmpop) (c : comparison) : bool :=
  match op with
  | OpEq => is_Eq c
  | OpNe => negb (is_Eq c)
  | OpLt => match c with Lt => true | _ => false end
  | OpLe => match c with Gt => false | _ => true end
  | OpGt => match c with Gt => true | _ => false end
  | OpGe => match c with Lt => false | _ => true end
  end.

Lemma vm_cmp_exact : forall op a b, wf_num a -> wf_num b ->
  vm_cmp op a b = ROk (VBool (spec_test op (xcmp (xval a) (xval b)))).
Proof.
  intros op a b Wa Wb. unfold vm_cmp.
  rewrite (num_eq_exact a b Wa Wb), (num_partial_cmp_exact a b Wa Wb).
  destruct op; cbn [spec_test]; try reflexivity;
    destruct (xcmp (xval a) (xval b)); reflexivity.
Qed.

Lemma num_cmp_swap : forall a b, wf_num a -> wf_num b ->
  num_partial_cmp b a = option_map CompOpp (num_partial_cmp a b) /\ num_eq b a = num_eq a b.
Proof.
  intros a b Wa Wb.
  rewrite (num_partial_cmp_exact a b Wa Wb), (num_partial_cmp_exact b a Wb Wa),
    (num_eq_exact a b Wa Wb), (num_eq_exact b a Wb Wa), (xcmp_swap (xval a) (xval b)).
  split; [reflexivity|]. destruct (xcmp (xval a) (xval b)); reflexivity.
Qed.

Lemma num_cmp_trans : forall r a b c, wf_num a -> wf_num b -> wf_num c ->
  num_partial_cmp a b = Some r -> num_partial_cmp b c = Some r -> num_partial_cmp a c = Some r.
Proof.
  intros r a b c Wa Wb Wc.
  rewrite (num_partial_cmp_exact a b Wa Wb), (num_partial_cmp_exact b c Wb Wc),
    (num_partial_cmp_exact a c Wa Wc).
  intros H1 H2. f_equal. apply (xcmp_trans r _ (xval b)); congruence.
Qed.

Lemma num_eq_trans : forall a b c, wf_num a -> wf_num b -> wf_num c ->
  num_eq a b = true -> num_eq b c = true -> num_eq a c = true.
Proof.
  intros a b c Wa Wb Wc.
  rewrite (num_eq_exact a b Wa Wb), (num_eq_exact b c Wb Wc), (num_eq_exact a c Wa Wc).
  rewrite !is_Eq_true. apply xcmp_trans.
Qed.

Lemma num_cmp_rep_independent : forall a a' b, wf_num a -> wf_num a' -> wf_num b ->
  num_eq a a' = true ->
  num_partial_cmp a b = num_partial_cmp a' b /\ num_eq a b = num_eq a' b /\
  num_partial_cmp b a = num_partial_cmp b a' /\ num_eq b a = num_eq b a'.
Proof.
  intros a a' b Wa Wa' Wb.
  rewrite (num_eq_exact a a' Wa Wa'), is_Eq_true. intro E.
  rewrite (num_partial_cmp_exact a b Wa Wb), (num_partial_cmp_exact a' b Wa' Wb),
    (num_partial_cmp_exact b a Wb Wa), (num_partial_cmp_exact b a' Wb Wa'),
    (num_eq_exact a b Wa Wb), (num_eq_exact a' b Wa' Wb), (num_eq_exact b a Wb Wa),
    (num_eq_exact b a' Wb Wa').
  rewrite (xcmp_eq_l _ _ (xval b) E), (xcmp_eq_r (xval b) _ _ E). auto.
Qed.

Lemma same_int_any_rep : forall ra rb z b, rep_ok ra z = true -> rep_ok rb z = true -> wf_num b ->
  num_partial_cmp (VInt ra z) b = num_partial_cmp (VInt rb z) b /\
  num_eq (VInt ra z) b = num_eq (VInt rb z) b.
Proof.
  intros ra rb z b Ha Hb Wb.
  assert (E : num_eq (VInt ra z) (VInt rb z) = true).
  { rewrite (num_eq_exact (VInt ra z) (VInt rb z) Ha Hb). cbn [xval]. rewrite xcmp_refl. reflexivity. }
  destruct (num_cmp_rep_independent (VInt ra z) (VInt rb z) b Ha Hb Wb E) as [H1 [H2 _]].
  auto.
Qed.

Lemma nan_is_greatest : forall b, wf_num b ->
  num_partial_cmp (VFloat S754_nan) b =
    Some (match b with VFloat S754_nan => Eq | _ => Gt end) /\
  num_eq (VFloat S754_nan) (VFloat S754_nan) = true.
Proof.
  intros b Wb. split; [|reflexivity].
  rewrite (num_partial_cmp_exact (VFloat S754_nan) b (eq_refl : wf_num (VFloat S754_nan)) Wb).
  destruct b as [| | |r z|f| | | |]; try contradiction; cbn; [reflexivity|].
  destruct f as [s|s| |s m e]; try reflexivity; destruct s; reflexivity.
Qed.

Lemma xval_nan_iff : forall b, wf_num b -> (xval b = XNaN <-> b = VFloat S754_nan).
Proof.
  intros b W. destruct b as [| | |r z|f| | | |]; try contradiction; cbn.
  - split; discriminate.
  - destruct f as [s|s| |s m e]; try (destruct s); cbn; split; congruence.
Qed.

(* NaN: equal to itself, and after every other number, whichever side it is on *)
Lemma nan_clause : forall b op, wf_num b -> b <> VFloat S754_nan ->
  vm_cmp op (VFloat S754_nan) b = ROk (VBool (spec_test op Gt)) /\
  vm_cmp op b (VFloat S754_nan) = ROk (VBool (spec_test op Lt)) /\
  vm_cmp op (VFloat S754_nan) (VFloat S754_nan) = ROk (VBool (spec_test op Eq)).
Proof.
  intros b op W Hb.
  assert (Wn : wf_num (VFloat S754_nan)) by reflexivity.
  rewrite (vm_cmp_exact op _ _ Wn W), (vm_cmp_exact op _ _ W Wn), (vm_cmp_exact op _ _ Wn Wn).
  assert (Hx : xval b <> XNaN) by (intro E; apply Hb; apply (xval_nan_iff b W); exact E).
  cbn [xval xval_float].
  destruct (xval b) eqn:E; try congruence; cbn; auto.
Qed.
