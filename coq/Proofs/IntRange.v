(* The integer ranges of Model/Value.v as inequalities between the named bounds, and what the
   representation tag of an integer says about its range. *)
From Coq Require Import ZArith Bool Lia.
From TeraV Require Import Model.Value.
Open Scope Z_scope.

Lemma in_i128_iff z : in_i128 z = true <-> i128_min <= z <= i128_max.
Proof. unfold in_i128. rewrite andb_true_iff, !Z.leb_le. reflexivity. Qed.

Lemma in_u128_iff z : in_u128 z = true <-> 0 <= z <= u128_max.
Proof. unfold in_u128. rewrite andb_true_iff, !Z.leb_le. reflexivity. Qed.

Lemma in_i64_iff z : in_i64 z = true <-> - two63 <= z < two63.
Proof. unfold in_i64. rewrite andb_true_iff, Z.leb_le, Z.ltb_lt. reflexivity. Qed.

Lemma in_u64_iff z : in_u64 z = true <-> 0 <= z < two64.
Proof. unfold in_u64. rewrite andb_true_iff, Z.leb_le, Z.ltb_lt. reflexivity. Qed.

Lemma bounds_order :
  i128_min < - two63 /\ 0 < two63 /\ two63 < two64 /\ two64 < i128_max /\ i128_max < u128_max.
Proof. unfold i128_min, i128_max, u128_max, two63, two64, two127, two128. lia. Qed.

Lemma rep_ok_iff r z :
  rep_ok r z = true <->
  match r with
  | U64 => 0 <= z < two64 | I64 => - two63 <= z < two63
  | U128 => 0 <= z <= u128_max | I128 => i128_min <= z <= i128_max
  end.
Proof.
  destruct r; [apply in_u64_iff|apply in_i64_iff|apply in_u128_iff|apply in_i128_iff].
Qed.

Lemma rep_ok_range r z : rep_ok r z = true -> i128_min <= z <= u128_max.
Proof. intros H%rep_ok_iff. pose proof bounds_order. destruct r; lia. Qed.

(* a stored integer fails `as_i128` only by being too large (then it is a u128), and fails
   `as_u128` only by being negative *)
Lemma rep_ok_in_i128 r z : rep_ok r z = true -> in_i128 z = (z <=? i128_max).
Proof.
  intros H. apply rep_ok_range in H. unfold in_i128.
  replace (i128_min <=? z) with true by (symmetry; apply Z.leb_le; lia). reflexivity.
Qed.

Lemma rep_ok_in_u128 r z : rep_ok r z = true -> in_u128 z = (0 <=? z).
Proof.
  intros H. apply rep_ok_range in H. unfold in_u128.
  replace (z <=? u128_max) with true by (symmetry; apply Z.leb_le; lia). apply andb_true_r.
Qed.

Lemma rep_ok_not_i128 r z : rep_ok r z = true -> in_i128 z = false ->
  r = U128 /\ i128_max < z /\ in_u128 z = true.
Proof.
  intros H E. pose proof bounds_order. rewrite (rep_ok_in_i128 r z H) in E. apply Z.leb_gt in E.
  rewrite (rep_ok_in_u128 r z H). split; [|split; [exact E | apply Z.leb_le; lia]].
  apply rep_ok_iff in H. destruct r; trivial; lia.
Qed.
