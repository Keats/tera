(* What the proofs about Model/Compile.v share: induction on expressions and statements through
   their nested lists, the unfolding equations of the compiler's list recursions, and the SFor arm
   of compile_node as one concatenation (compile_for_eq). *)
From TeraV Require Import Model.Value Model.Instr Model.VM Spec.Stmt Model.Compile.
Local Open Scope nat_scope.

Section ExprInd.
  Variable P : expr -> Prop.
  Hypothesis Hc : forall v, P (EConst v).
  Hypothesis Hv : forall n, P (EVar n).
  Hypothesis Hl : forall f, P (ELoop f).
  Hypothesis Ha : forall e a, P e -> P (EAttr e a).
  Hypothesis Hn : forall e, P e -> P (ENot e).
  Hypothesis Hand : forall a b, P a -> P b -> P (EAnd a b).
  Hypothesis Hor : forall a b, P a -> P b -> P (EOr a b).
  Hypothesis Heq : forall a b, P a -> P b -> P (EEq a b).
  Hypothesis Ht : forall e n, P e -> P (ETest e n).
  Hypothesis Hf : forall e n kw, P e -> Forall (fun ke => P (snd ke)) kw -> P (EFilter e n kw).
  Hypothesis Hbin : forall op a b, P a -> P b -> P (EBin op a b).
  Hypothesis Hneg : forall e, P e -> P (ENeg e).
  Hypothesis Htern : forall c a b, P c -> P a -> P b -> P (ETernary c a b).
  Hypothesis Hao : forall e a, P e -> P (EAttrOpt e a).
  Hypothesis Hsub : forall opt a b, P a -> P b -> P (ESub opt a b).
  Hypothesis Hsl : forall opt e sa sb sc, P e ->
    match sa with Some x => P x | None => True end ->
    match sb with Some x => P x | None => True end ->
    match sc with Some x => P x | None => True end -> P (ESlice opt e sa sb sc).
  Hypothesis Hcall : forall n kw, Forall (fun ke => P (snd ke)) kw -> P (ECall n kw).
  Hypothesis Harr : forall items, Forall (fun ie => P (snd ie)) items -> P (EArr items).
  Hypothesis Hmap : forall es, Forall (fun ke => P (snd ke)) es -> P (EMap es).
  Fixpoint expr_ind' (e : expr) : P e :=
    let go := fun K : Type => fix go (l : list (K * expr)) : Forall (fun ke => P (snd ke)) l :=
                match l with
                | [] => Forall_nil _
                | ke :: t => Forall_cons ke (expr_ind' (snd ke)) (go t)
                end in
    let opt := fun o : option expr =>
                 match o return (match o return Prop with Some x => P x | None => True end) with
                 | Some x => expr_ind' x
                 | None => I
                 end in
    match e with
    | EConst v => Hc v
    | EVar n => Hv n
    | ELoop f => Hl f
    | EAttr e a => Ha e a (expr_ind' e)
    | ENot e => Hn e (expr_ind' e)
    | EAnd a b => Hand a b (expr_ind' a) (expr_ind' b)
    | EOr a b => Hor a b (expr_ind' a) (expr_ind' b)
    | EEq a b => Heq a b (expr_ind' a) (expr_ind' b)
    | ETest e n => Ht e n (expr_ind' e)
    | EFilter e n kw => Hf e n kw (expr_ind' e) (go _ kw)
    | EBin op a b => Hbin op a b (expr_ind' a) (expr_ind' b)
    | ENeg e => Hneg e (expr_ind' e)
    | ETernary c a b => Htern c a b (expr_ind' c) (expr_ind' a) (expr_ind' b)
    | EAttrOpt e a => Hao e a (expr_ind' e)
    | ESub o a b => Hsub o a b (expr_ind' a) (expr_ind' b)
    | ESlice o e a b c => Hsl o e a b c (expr_ind' e) (opt a) (opt b) (opt c)
    | ECall n kw => Hcall n kw (go _ kw)
    | EArr items => Harr items (go _ items)
    | EMap es => Hmap es (go _ es)
    end.
End ExprInd.

Section StmtInd.
  Variable P : stmt -> Prop.
  Hypothesis Htext : forall t, P (SText t).
  Hypothesis Hprint : forall e, P (SPrint e).
  Hypothesis Hif : forall c b e, Forall P b -> Forall P e -> P (SIf c b e).
  Hypothesis Hfor : forall k v t b e, Forall P b -> Forall P e -> P (SFor k v t b e).
  Hypothesis Hassign : forall g n e, P (SAssign g n e).
  Hypothesis Hsetb : forall g n b fs, Forall P b -> P (SSetBlock g n b fs).
  Hypothesis Hfilt : forall n kw b, Forall P b -> P (SFilter n kw b).
  Hypothesis Hinc : forall n, P (SInclude n).
  Hypothesis Hbrk : P SBreak.
  Hypothesis Hcont : P SContinue.
  Fixpoint stmt_ind' (s : stmt) : P s :=
    let go := fix go (l : list stmt) : Forall P l :=
                match l with
                | [] => Forall_nil _
                | x :: t => Forall_cons x (stmt_ind' x) (go t)
                end in
    match s with
    | SText t => Htext t
    | SPrint e => Hprint e
    | SIf c b e => Hif c b e (go b) (go e)
    | SFor k v t b e => Hfor k v t b e (go b) (go e)
    | SAssign g n e => Hassign g n e
    | SSetBlock g n b fs => Hsetb g n b fs (go b)
    | SFilter n kw b => Hfilt n kw b (go b)
    | SInclude n => Hinc n
    | SBreak => Hbrk
    | SContinue => Hcont
    end.
End StmtInd.

Lemma compile_kws_cons ce pc k e t :
  compile_kws ce pc ((k, e) :: t)
  = (LoadConst (VStr k false) :: ce (S pc) e) ++ compile_kws ce (pc + S (length (ce (S pc) e))) t.
Proof. reflexivity. Qed.

Lemma compile_items_cons ce pc sp e t :
  compile_items ce pc ((sp, e) :: t) = ce pc e ++ compile_items ce (pc + length (ce pc e)) t.
Proof. reflexivity. Qed.

Lemma compile_entries_some ce pc k e t :
  compile_entries ce pc ((Some k, e) :: t)
  = (LoadConst k :: ce (S pc) e) ++ compile_entries ce (pc + S (length (ce (S pc) e))) t.
Proof. reflexivity. Qed.

Lemma compile_entries_none ce pc e t :
  compile_entries ce pc ((None, e) :: t) = ce pc e ++ compile_entries ce (pc + length (ce pc e)) t.
Proof. reflexivity. Qed.

Lemma compile_seq_cons cn pc lp s t :
  compile_seq cn pc lp (s :: t) = cn pc lp s ++ compile_seq cn (pc + length (cn pc lp s)) lp t.
Proof. reflexivity. Qed.

Lemma compile_kwargs_snoc pc kw i :
  compile_kwargs pc kw ++ [i] = compile_kws compile_expr pc kw ++ [BuildMap (length kw); i].
Proof. unfold compile_kwargs. rewrite <- app_assoc. reflexivity. Qed.

(* a filter section is a set block with one filter *)
Lemma compile_filters_single pc n kw i :
  compile_kwargs pc kw ++ [ApplyFilter n; i] = compile_filters pc [(n, kw)] ++ [i].
Proof. cbn [compile_filters]. rewrite app_nil_r, <- app_assoc. reflexivity. Qed.

(* what follows loop_end *)
Definition for_exit (le : nat) (lp : option nat) (els : list stmt) : list instr :=
  match els with
  | [] => [PopLoop]
  | _ => [StoreDidNotIterate; PopLoop; PopJumpIfFalse (3 + le + length (compile_seq compile_node (3 + le) lp els))]
           ++ compile_seq compile_node (3 + le) lp els
  end.

Lemma compile_for_eq pc lp key val target body els :
  compile_node pc lp (SFor key val target body els)
  = let ct := compile_expr pc target in
    let hdr := [StartIterate (is_some key); StoreLocal val] ++ match key with Some k => [StoreLocal k] | None => [] end in
    let start := pc + length ct + length hdr in
    let cb := compile_seq compile_node (S start) (Some start) body in
    ct ++ hdr ++ [Iterate (S (S start + length cb))] ++ cb ++ [Jump start] ++ for_exit (S (S start + length cb)) lp els.
Proof.
  cbn [compile_node]. cbv zeta. rewrite !Nat.add_1_r, (Nat.add_comm _ 3).
  destruct els as [|s0 r]; cbn [for_exit]; rewrite <- !app_assoc; reflexivity.
Qed.
