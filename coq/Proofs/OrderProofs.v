(* Laws of the comparisons and key lookups of Model/Order.v: the float/integer comparison of mod.rs
   is exact, Key's Eq/Ord/Hash factor through [key_norm], [vcmp] is a total order whose Equal is
   [veq] and which extends [vpcmp], and lookup/insert on association lists behave as on a HashMap. *)
From Coq Require Import List ZArith NArith Bool Lia Permutation Sorted.
From TeraV Require Import Model.Value Gen.OrderTables Model.Order Proofs.ListFacts Proofs.ValueFacts Proofs.IntRange.
Import ListNotations.
Open Scope Z_scope.

(* transitivity in all its forms, stated on the three results x = c a b, y = c b d, z = c a d *)
Definition tr (x y z : comparison) : Prop :=
  match x, y with
  | Eq, r => z = r
  | r, Eq => z = r
  | Lt, Lt => z = Lt
  | Gt, Gt => z = Gt
  | _, _ => True
  end.

Lemma tr_trans r x y z : tr x y z -> x = r -> y = r -> z = r.
Proof. intros T -> ->. destruct r; exact T. Qed.
Lemma tr_eq_l x y z : tr x y z -> x = Eq -> z = y.
Proof. intros T ->. exact T. Qed.
Lemma tr_eq_r x y z : tr x y z -> y = Eq -> x = z.
Proof. intros T ->. destruct x; symmetry; exact T. Qed.
Lemma tr_le x y z : tr x y z -> x <> Gt -> y <> Gt -> z <> Gt.
Proof. destruct x, y; cbn; congruence. Qed.

Lemma CompOpp_eq_iff x : CompOpp x = Eq <-> x = Eq.
Proof. destruct x; cbn; split; congruence. Qed.

Lemma Zcmp_tr a b c : tr (a ?= b) (b ?= c) (a ?= c).
Proof.
  destruct (Z.compare_spec a b), (Z.compare_spec b c); subst; cbn; trivial;
    try (apply Z.compare_eq_iff; lia); try (apply Z.compare_lt_iff; lia);
    try (apply Z.compare_gt_iff; lia).
Qed.

Lemma bool_cmp_opp a b : bool_cmp b a = CompOpp (bool_cmp a b).
Proof. destruct a, b; reflexivity. Qed.
Lemma bool_cmp_tr a b c : tr (bool_cmp a b) (bool_cmp b c) (bool_cmp a c).
Proof. destruct a, b, c; cbn; trivial. Qed.

(* One step of a lexicographic comparison; the comparisons by rank, of lists and of map entries are
   all of this form.  The branches are written out because over a variable `| r => r` elaborates to
   `| _ => k`, which is not convertible with the matches in [list_cmp] and [entry_cmp]. *)
Definition thn (k v : comparison) : comparison := match k with Eq => v | Lt => Lt | Gt => Gt end.

Lemma thn_opp k v : thn (CompOpp k) (CompOpp v) = CompOpp (thn k v).
Proof. destruct k; reflexivity. Qed.

Lemma thn_Eq k v : thn k v = Eq <-> k = Eq /\ v = Eq.
Proof. destruct k; cbn; intuition congruence. Qed.

Lemma thn_tr k1 k2 k3 v1 v2 v3 : tr k1 k2 k3 -> (k1 = Eq -> k2 = Eq -> tr v1 v2 v3) ->
  tr (thn k1 v1) (thn k2 v2) (thn k3 v3).
Proof.
  destruct k1, k2; cbn; intros Hk Hv; rewrite ?Hk; cbn; auto; destruct v1, v2; cbn; trivial.
Qed.

Lemma lex_tr {T} (f : T -> N) (c : T -> T -> comparison) :
  (forall x y, f x <> f y -> c x y = N.compare (f x) (f y)) -> forall a b d,
  (f a = f b -> f b = f d -> tr (c a b) (c b d) (c a d)) ->
  tr (c a b) (c b d) (c a d).
Proof.
  intros H a b d Hsame.
  assert (E : forall x y, c x y = thn (N.compare (f x) (f y)) (c x y)).
  { intros x y. specialize (H x y). destruct (N.compare_spec (f x) (f y)); cbn; trivial; apply H; lia. }
  rewrite (E a b), (E b d), (E a d). apply thn_tr.
  - rewrite <- !N2Z.inj_compare. apply Zcmp_tr.
  - intros e1 e2. apply N.compare_eq_iff in e1, e2. auto.
Qed.

Section ListLaws.
  Context {A : Type}.
  Variable W : A -> Prop.
  Variable c : A -> A -> comparison.

  Lemma list_cmp_opp l :
    Forall (fun x => forall y, W y -> c y x = CompOpp (c x y)) l ->
    forall l', Forall W l' -> list_cmp c l' l = CompOpp (list_cmp c l l').
  Proof.
    induction 1 as [|x t Hx Ht IH]; intros l' Hl'; destruct l' as [|y t']; cbn; trivial.
    inversion Hl'; subst. rewrite (Hx y), IH by assumption. apply thn_opp.
  Qed.

  Lemma list_cmp_tr l :
    Forall (fun x => forall y z, W y -> W z -> tr (c x y) (c y z) (c x z)) l ->
    forall l' l'', Forall W l' -> Forall W l'' ->
    tr (list_cmp c l l') (list_cmp c l' l'') (list_cmp c l l'').
  Proof.
    induction 1 as [|x t Hx Ht IH]; intros l' l'' Hl' Hl'';
      destruct l' as [|y t']; destruct l'' as [|z t'']; cbn; trivial.
    - destruct (c y z); cbn; trivial. destruct (list_cmp c t' t''); cbn; trivial.
    - destruct (c x y); cbn; trivial. destruct (list_cmp c t t'); cbn; trivial.
    - inversion Hl'; inversion Hl''; subst. apply thn_tr; [apply Hx | intros _ _; apply IH]; assumption.
  Qed.

  Variable e : A -> A -> bool.
  Lemma list_cmp_eq_iff l :
    Forall (fun x => forall y, W y -> (c x y = Eq <-> e x y = true)) l ->
    forall l', Forall W l' -> (list_cmp c l l' = Eq <-> list_eq2 e l l' = true).
  Proof.
    induction 1 as [|x t Hx Ht IH]; intros l' Hl'; destruct l' as [|y t']; cbn;
      try (split; congruence).
    inversion Hl'; subst. specialize (Hx y ltac:(assumption)). specialize (IH t' ltac:(assumption)).
    rewrite andb_true_iff, <- Hx, <- IH. apply thn_Eq.
  Qed.
End ListLaws.

Lemma list_eq2_N_eq (a b : list N) : list_eq2 N.eqb a b = true <-> a = b.
Proof.
  revert b; induction a as [|x a IH]; destruct b as [|y b]; cbn; split; try congruence.
  - rewrite andb_true_iff, N.eqb_eq, IH. intros [-> ->]; reflexivity.
  - intros H; inversion H; subst. rewrite N.eqb_refl. apply IH. reflexivity.
Qed.

Lemma Nlist_cmp_opp (a b : list N) : list_cmp N.compare b a = CompOpp (list_cmp N.compare a b).
Proof.
  apply (list_cmp_opp (fun _ => True)).
  - apply Forall_forall; intros x _ y _. apply N.compare_antisym.
  - apply Forall_forall; trivial.
Qed.
Lemma Nlist_cmp_tr (a b d : list N) :
  tr (list_cmp N.compare a b) (list_cmp N.compare b d) (list_cmp N.compare a d).
Proof.
  apply (list_cmp_tr (fun _ => True)); try (apply Forall_forall; trivial).
  intros x _ y z _ _. rewrite <- !N2Z.inj_compare. apply Zcmp_tr.
Qed.
Lemma Nlist_cmp_eq (a b : list N) : list_cmp N.compare a b = Eq <-> a = b.
Proof.
  rewrite <- list_eq2_N_eq.
  apply (list_cmp_eq_iff (fun _ => True)); try (apply Forall_forall; trivial).
  intros x _ y _. rewrite N.compare_eq_iff, N.eqb_eq. tauto.
Qed.

Lemma is_Eq_of_iff (c : comparison) (b : bool) : (c = Eq <-> b = true) ->
  b = match c with Eq => true | _ => false end.
Proof. destruct c, b; intros [H1 H2]; trivial; try exact (H1 eq_refl); discriminate (H2 eq_refl). Qed.

Lemma list_cmp_Eq_Forall2 {A B} (c : A -> B -> comparison) l l' :
  list_cmp c l l' = Eq <-> Forall2 (fun x y => c x y = Eq) l l'.
Proof.
  revert l'; induction l as [|x t IH]; destruct l' as [|y t']; cbn; split; intros H;
    try discriminate; try constructor; try (inversion H; fail).
  - destruct (c x y); congruence.
  - apply IH. destruct (c x y); congruence.
  - inversion H; subst. rewrite H3. apply IH; trivial.
Qed.

Lemma list_cmp_ext {A B} (c c' : A -> B -> comparison) l l' :
  (forall x y, In x l -> In y l' -> c x y = c' x y) -> list_cmp c l l' = list_cmp c' l l'.
Proof.
  revert l'; induction l as [|x t IH]; destruct l' as [|y t']; cbn; trivial. intros H.
  rewrite H, IH; auto.
Qed.

Lemma list_cmp_map_l {A A' B} (g : A -> A') (c : A' -> B -> comparison) l l' :
  list_cmp c (map g l) l' = list_cmp (fun x y => c (g x) y) l l'.
Proof.
  revert l'; induction l as [|x t IH]; destruct l' as [|y t']; cbn; trivial.
  rewrite IH. reflexivity.
Qed.

(* [kinsert]/[ksort] of Model/Order.v and [insert_by]/[sort_by] of Model/CollFilters.v are instances
   of [ginsert]/[gsort], by conversion. *)
Section InsertionSort.
  Context {A : Type} (c : A -> A -> comparison).

  Fixpoint ginsert (x : A) (l : list A) : list A :=
    match l with
    | [] => [x]
    | y :: t => match c x y with Gt => y :: ginsert x t | _ => x :: l end
    end.
  Definition gsort (l : list A) : list A := fold_right ginsert [] l.

  Lemma ginsert_perm x l : Permutation (ginsert x l) (x :: l).
  Proof.
    induction l as [|y t IH]; cbn; trivial.
    destruct (c x y); trivial. rewrite IH. apply perm_swap.
  Qed.

  Lemma gsort_perm l : Permutation (gsort l) l.
  Proof. induction l as [|x t IH]; cbn; trivial. rewrite ginsert_perm. constructor. exact IH. Qed.

  Lemma gsort_In x l : In x (gsort l) <-> In x l.
  Proof. split; apply Permutation_in; [|symmetry]; apply gsort_perm. Qed.

  Lemma gsort_id l : Sorted (fun a b => c a b <> Gt) l -> gsort l = l.
  Proof.
    induction 1 as [|x t _ IH Hhd]; trivial. cbn. fold (gsort t). rewrite IH.
    destruct Hhd as [|y s Hxy]; cbn; trivial. destruct (c x y); trivial. congruence.
  Qed.

  Variable W : A -> Prop.
  Hypothesis c_opp : forall x y, W x -> W y -> c y x = CompOpp (c x y).
  Hypothesis c_tr : forall x y z, W x -> W y -> W z -> tr (c x y) (c y z) (c x z).

  Lemma ginsert_sorted x l : W x -> Forall W l ->
    StronglySorted (fun a b => c a b <> Gt) l -> StronglySorted (fun a b => c a b <> Gt) (ginsert x l).
  Proof.
    intros Wx. induction l as [|y t IH]; cbn; intros Wl Hs.
    - repeat constructor.
    - inversion Wl as [|? ? Wy Wt]; subst. inversion Hs as [|? ? Hs' Hall]; subst.
      rewrite Forall_forall in Wt, Hall.
      assert (T : forall z, In z t -> tr (c x y) (c y z) (c x z)) by (intros z Hz; apply c_tr; auto).
      destruct (c x y) eqn:E.
      3: { constructor; [apply IH; trivial; apply Forall_forall; trivial|].
        apply Forall_forall. intros z Hz.
        apply (Permutation_in _ (ginsert_perm x t)) in Hz. destruct Hz as [<-|Hz]; auto.
        rewrite (c_opp x y), E; trivial. discriminate. }
      (* x <= y: x goes in front, and is below whatever y is below *)
      all: constructor; trivial; constructor; [congruence|].
      all: apply Forall_forall; intros z Hz; specialize (T z Hz); specialize (Hall z Hz).
      all: destruct (c y z); cbn in T; congruence.
  Qed.

  Lemma gsort_sorted l : Forall W l -> StronglySorted (fun a b => c a b <> Gt) (gsort l).
  Proof.
    induction 1 as [|x t Wx Wt IH]; cbn; [constructor|].
    apply ginsert_sorted; trivial. rewrite Forall_forall in *. intros y Hy. apply Wt, gsort_In, Hy.
  Qed.

  Variable p : A -> bool.
  Hypothesis p_le : forall x y, W x -> W y -> p x = true -> p y = true -> c x y <> Gt.

  Lemma ginsert_stable x l : W x -> Forall W l -> filter p (ginsert x l) = filter p (x :: l).
  Proof.
    intros Wx. induction 1 as [|y t Wy Wt IH]; trivial. cbn [ginsert].
    destruct (c x y) eqn:E; trivial. cbn [filter]. rewrite IH. cbn [filter].
    destruct (p x) eqn:Px, (p y) eqn:Py; trivial. elim (p_le x y Wx Wy Px Py E).
  Qed.

  Lemma gsort_stable l : Forall W l -> filter p (gsort l) = filter p l.
  Proof.
    induction 1 as [|x t Wx Wt IH]; trivial. cbn [gsort fold_right]. fold (gsort t).
    rewrite ginsert_stable; trivial.
    - cbn [filter]. rewrite IH. reflexivity.
    - rewrite Forall_forall in *. intros y Hy. apply Wt, gsort_In, Hy.
  Qed.
End InsertionSort.

Lemma gsort_map {A B} (c : A -> A -> comparison) (c' : B -> B -> comparison) (f : A -> B) :
  (forall x y, c' (f x) (f y) = c x y) -> forall l, gsort c' (map f l) = map f (gsort c l).
Proof.
  intros H. unfold gsort. induction l as [|x t IH]; cbn [map fold_right]; trivial.
  rewrite IH. generalize (fold_right (ginsert c) [] t) as s.
  induction s as [|y s IHs]; cbn; trivial. rewrite H. destruct (c x y); cbn; trivial.
  rewrite IHs. reflexivity.
Qed.

(* dy_cmp m1 e1 m2 e2 orders the dyadics m1 * 2^e1 and m2 * 2^e2: Model/Order.v scales both by the
   smaller exponent, and any k below both does *)
Lemma dy_cmp_scale m1 e1 m2 e2 k : k <= e1 -> k <= e2 ->
  dy_cmp m1 e1 m2 e2 = (m1 * 2 ^ (e1 - k) ?= m2 * 2 ^ (e2 - k)).
Proof.
  intros H1 H2. unfold dy_cmp.
  set (k0 := Z.min e1 e2).
  assert (Hk : k <= k0) by (unfold k0; lia).
  assert (k0 <= e1 /\ k0 <= e2) as [Ha Hb] by (unfold k0; lia).
  replace (e1 - k) with ((e1 - k0) + (k0 - k)) by lia.
  replace (e2 - k) with ((e2 - k0) + (k0 - k)) by lia.
  rewrite !Z.pow_add_r by lia. rewrite !Z.mul_assoc.
  apply Zmult_compare_compat_r. apply Z.lt_gt. apply Z.pow_pos_nonneg; lia.
Qed.

Lemma dy_cmp_opp m1 e1 m2 e2 : dy_cmp m2 e2 m1 e1 = CompOpp (dy_cmp m1 e1 m2 e2).
Proof. unfold dy_cmp. rewrite (Z.min_comm e2 e1). apply Z.compare_antisym. Qed.

Lemma dy_cmp_tr m1 e1 m2 e2 m3 e3 :
  tr (dy_cmp m1 e1 m2 e2) (dy_cmp m2 e2 m3 e3) (dy_cmp m1 e1 m3 e3).
Proof.
  set (k := Z.min e1 (Z.min e2 e3)).
  rewrite (dy_cmp_scale m1 e1 m2 e2 k), (dy_cmp_scale m2 e2 m3 e3 k), (dy_cmp_scale m1 e1 m3 e3 k)
    by (unfold k; lia).
  apply Zcmp_tr.
Qed.

Lemma dy_cmp_int m e n : dy_cmp m e n 0 =
  if 0 <=? e then (m * 2 ^ e ?= n) else (m ?= n * 2 ^ (- e)).
Proof.
  destruct (0 <=? e) eqn:He.
  - apply Z.leb_le in He. rewrite (dy_cmp_scale m e n 0 0) by lia.
    rewrite !Z.sub_0_r. cbn. rewrite Z.mul_1_r. reflexivity.
  - apply Z.leb_gt in He. rewrite (dy_cmp_scale m e n 0 e) by lia.
    rewrite Z.sub_diag, Z.sub_0_l. cbn. rewrite Z.mul_1_r. reflexivity.
Qed.

Lemma dy_cmp_ints a b : dy_cmp a 0 b 0 = (a ?= b).
Proof. rewrite dy_cmp_int. cbn. rewrite Z.mul_1_r. reflexivity. Qed.

(* the floor-based comparison of mod.rs is the exact one *)
Lemma floor_cmp_exact m e n :
  match fin_floor m e ?= n with
  | Eq => if fin_has_frac m e then Gt else Eq
  | o => o
  end = dy_cmp m e n 0.
Proof.
  rewrite dy_cmp_int. unfold fin_floor, fin_has_frac.
  destruct (0 <=? e) eqn:He.
  - destruct (m * 2 ^ e ?= n); reflexivity.
  - apply Z.leb_gt in He.
    assert (Hd : 0 < 2 ^ (- e)) by (apply Z.pow_pos_nonneg; lia).
    set (d := 2 ^ (- e)) in *.
    pose proof (Z.div_mod m d ltac:(lia)) as Hdm.
    pose proof (Z.mod_pos_bound m d Hd) as Hb.
    destruct (Z.compare_spec (m / d) n) as [E|L|G].
    + destruct (m mod d =? 0) eqn:Hz; cbn.
      * apply Z.eqb_eq in Hz. symmetry. apply Z.compare_eq_iff. subst n. nia.
      * apply Z.eqb_neq in Hz. symmetry. apply Z.compare_gt_iff. subst n. nia.
    + symmetry. apply Z.compare_lt_iff. nia.
    + symmetry. apply Z.compare_gt_iff. nia.
Qed.

Lemma floor_lt m e n : dy_cmp m e n 0 = Lt <-> fin_floor m e < n.
Proof.
  rewrite <- floor_cmp_exact. unfold Z.lt.
  destruct (fin_floor m e ?= n), (fin_has_frac m e); split; congruence.
Qed.

(* total order on float classes / numbers: NaN greatest and equal to itself.  (Spec/Arith.v has an
   `xcmp` of its own, on `xreal`; NumCmpProofs.xcmp_bridge relates the two.)  A lemma named `.._x`
   says what a function of Model/Order.v computes in terms of this order (of Z.compare, where both
   sides are integers). *)
Definition xcmp (a b : fcls) : comparison :=
  match a, b with
  | FNaN, FNaN => Eq
  | FNaN, _ => Gt
  | _, FNaN => Lt
  | FInf s1, FInf s2 => bool_cmp s2 s1
  | FInf s, FFin _ _ => if s then Lt else Gt
  | FFin _ _, FInf s => if s then Gt else Lt
  | FFin m1 e1, FFin m2 e2 => dy_cmp m1 e1 m2 e2
  end.

Lemma xcmp_opp a b : xcmp b a = CompOpp (xcmp a b).
Proof.
  destruct a as [|[]|m1 e1], b as [|[]|m2 e2]; cbn; trivial. apply dy_cmp_opp.
Qed.

Lemma xcmp_tr a b d : tr (xcmp a b) (xcmp b d) (xcmp a d).
Proof.
  destruct a as [|[]|m1 e1], b as [|[]|m2 e2], d as [|[]|m3 e3]; cbn; trivial;
    try (destruct (dy_cmp m1 e1 m3 e3); cbn; trivial; fail);
    try (destruct (dy_cmp m1 e1 m2 e2); cbn; trivial; fail);
    try (destruct (dy_cmp m2 e2 m3 e3); cbn; trivial; fail).
  apply dy_cmp_tr.
Qed.

(* mod.rs 237-271: two range guards, then the floor comparison.  For any bounds lo <= n < hi the
   guards only decide cases that the exact comparison decides the same way, and where neither
   fires the floor lies within the bounds: [k] is the floor as the code has it there (after a
   saturating cast, in Model/Number.v). *)
Lemma guarded_floor_cmp lo hi m e n k : lo <= n < hi -> (lo <= fin_floor m e < hi -> k = fin_floor m e) ->
  (if match dy_cmp m e lo 0 with Lt => true | _ => false end then Lt
   else if match dy_cmp m e hi 0 with Lt => false | _ => true end then Gt
   else match k ?= n with Eq => if fin_has_frac m e then Gt else Eq | o => o end) = dy_cmp m e n 0.
Proof.
  intros [Hlo Hhi] Hk. apply Z.lt_gt in Hhi. unfold Z.le, Z.gt in Hlo, Hhi.
  pose proof (dy_cmp_tr m e lo 0 n 0) as T1. pose proof (dy_cmp_tr m e hi 0 n 0) as T2.
  rewrite dy_cmp_ints in T1, T2. rewrite Hhi in T2.
  pose proof (floor_lt m e lo) as F1. pose proof (floor_lt m e hi) as F2.
  destruct (dy_cmp m e lo 0).
  2: destruct (lo ?= n); [symmetry; exact T1 | symmetry; exact T1 | now elim Hlo].
  all: destruct (dy_cmp m e hi 0); [symmetry; exact T2 | | symmetry; exact T2].
  all: rewrite Hk; [apply floor_cmp_exact|].
  all: split; [apply Z.le_ngt; intros L; apply F1 in L; discriminate L | apply F2; reflexivity].
Qed.

Lemma cmp_f64_to_i128_x x n : in_i128 n = true ->
  cmp_f64_to_i128 x n = xcmp (fcls_of x) (FFin n 0).
Proof.
  intros Hn. apply in_i128_iff in Hn. unfold i128_min, i128_max in Hn.
  unfold cmp_f64_to_i128. destruct (fcls_of x); trivial. apply guarded_floor_cmp; trivial. lia.
Qed.

Lemma cmp_f64_to_u128_x x n : in_u128 n = true ->
  cmp_f64_to_u128 x n = xcmp (fcls_of x) (FFin n 0).
Proof.
  intros Hn. apply in_u128_iff in Hn. unfold u128_max in Hn.
  unfold cmp_f64_to_u128. destruct (fcls_of x); trivial. apply guarded_floor_cmp; trivial. lia.
Qed.

(* Gen.key_type_order gives one rank to the four integer kinds and one to the two string kinds *)
Definition nrank (k : nkey) : N :=
  key_type_order match k with NKBool _ => KkBool | NKNum _ => KkI128 | NKStr _ => KkStr end.
Definition nkey_cmp (a b : nkey) : comparison :=
  match a, b with
  | NKBool x, NKBool y => bool_cmp x y
  | NKNum x, NKNum y => x ?= y
  | NKStr x, NKStr y => list_cmp N.compare x y
  | _, _ => N.compare (nrank a) (nrank b)
  end.

Lemma nkey_cmp_opp a b : nkey_cmp b a = CompOpp (nkey_cmp a b).
Proof.
  destruct a, b; cbn; trivial.
  - apply bool_cmp_opp. - apply Z.compare_antisym. - apply Nlist_cmp_opp.
Qed.

Lemma nkey_cmp_rank a b : nrank a <> nrank b -> nkey_cmp a b = N.compare (nrank a) (nrank b).
Proof. destruct a, b; cbn; trivial; intros H; now elim H. Qed.

Lemma nkey_cmp_tr a b d : tr (nkey_cmp a b) (nkey_cmp b d) (nkey_cmp a d).
Proof.
  apply (lex_tr nrank nkey_cmp nkey_cmp_rank). intros e1 e2.
  destruct a, b; try discriminate e1; destruct d; try discriminate e2; cbn [nkey_cmp].
  - apply bool_cmp_tr. - apply Zcmp_tr. - apply Nlist_cmp_tr.
Qed.

Lemma nkey_cmp_eq a b : nkey_cmp a b = Eq <-> a = b.
Proof.
  destruct a as [x|x|x], b as [y|y|y]; cbn; try (split; congruence).
  - destruct x, y; cbn; split; congruence.
  - rewrite Z.compare_eq_iff. split; congruence.
  - rewrite Nlist_cmp_eq. split; congruence.
Qed.

Lemma nkey_cmp_refl a : nkey_cmp a a = Eq.
Proof. apply nkey_cmp_eq. reflexivity. Qed.

Lemma nkey_lt_trans a b d : nkey_cmp a b = Lt -> nkey_cmp b d = Lt -> nkey_cmp a d = Lt.
Proof. apply tr_trans, nkey_cmp_tr. Qed.

Lemma key_as_number_int r z : rep_ok r z = true ->
  key_as_number (KInt r z) = Some (Signed z) \/ key_as_number (KInt r z) = Some (Unsigned z) /\ 0 <= z.
Proof.
  intros H. destruct r; cbn; auto; right; (split; [reflexivity|]).
  - apply in_u64_iff in H. lia.
  - apply in_u128_iff in H. lia.
Qed.

Lemma key_int_int r z r' z' : rep_ok r z = true -> rep_ok r' z' = true ->
  key_cmp (KInt r z) (KInt r' z') = (z ?= z') /\ key_eq (KInt r z) (KInt r' z') = (z =? z').
Proof.
  intros H H'. unfold key_cmp, key_eq. cbn [key_as_str].
  destruct (key_as_number_int r z H) as [->|[-> P]], (key_as_number_int r' z' H') as [->|[-> P']]; cbn; auto.
  - destruct (Z.ltb_spec z 0); auto. split; symmetry; [apply Z.compare_lt_iff | apply Z.eqb_neq]; lia.
  - destruct (Z.ltb_spec z' 0); auto. split; symmetry; [apply Z.compare_gt_iff | apply Z.eqb_neq]; lia.
Qed.

Lemma key_cmp_norm a b : key_wf a = true -> key_wf b = true ->
  key_cmp a b = nkey_cmp (key_norm a) (key_norm b).
Proof.
  intros Ha Hb. destruct a as [x|r z|s o], b as [y|r' z'|s' o'].
  5: apply key_int_int; assumption.
  all: cbn; trivial; try destruct r; try destruct r'; try destruct o; try destruct o'; reflexivity.
Qed.

Lemma key_eq_norm a b : key_wf a = true -> key_wf b = true ->
  (key_eq a b = true <-> key_norm a = key_norm b).
Proof.
  intros Ha Hb. destruct a as [x|r z|s o], b as [y|r' z'|s' o'].
  5: { rewrite (proj2 (key_int_int r z r' z' Ha Hb)), Z.eqb_eq. cbn. split; congruence. }
  all: cbn; try destruct r; try (split; congruence).
  - rewrite Bool.eqb_true_iff. split; congruence.
  - rewrite str_eqb_eq. split; congruence.
Qed.

Lemma key_hash_norm k : key_wf k = true -> key_hash k = nkey_hash (key_norm k).
Proof.
  intros H. destruct k as [x|r z|s o]; trivial.
  unfold key_hash. cbn [key_as_str]. destruct (key_as_number_int r z H) as [->|[-> P]]; trivial.
  cbn. destruct (Z.ltb_spec z 0); trivial; lia.
Qed.

Theorem key_norm_sound :
  (forall a b, key_wf a = true -> key_wf b = true -> (key_eq a b = true <-> key_norm a = key_norm b)) /\
  (forall a b, key_wf a = true -> key_wf b = true -> key_cmp b a = CompOpp (key_cmp a b)) /\
  (forall a b c, key_wf a = true -> key_wf b = true -> key_wf c = true ->
     tr (key_cmp a b) (key_cmp b c) (key_cmp a c)) /\
  (forall a b, key_wf a = true -> key_wf b = true -> (key_cmp a b = Eq <-> key_eq a b = true)) /\
  (forall a, key_wf a = true -> key_hash a = nkey_hash (key_norm a)) /\
  (forall a b, key_wf a = true -> key_wf b = true -> key_eq a b = true -> key_hash a = key_hash b).
Proof.
  split; [|split; [|split; [|split; [|split]]]].
  - apply key_eq_norm.
  - intros a b Ha Hb. rewrite !key_cmp_norm by assumption. apply nkey_cmp_opp.
  - intros a b c Ha Hb Hc. rewrite !key_cmp_norm by assumption. apply nkey_cmp_tr.
  - intros a b Ha Hb. rewrite key_cmp_norm, nkey_cmp_eq, key_eq_norm by assumption. tauto.
  - apply key_hash_norm.
  - intros a b Ha Hb H. rewrite !key_hash_norm by assumption. apply key_eq_norm in H; trivial. congruence.
Qed.

(* association lists keyed by [key]; [K] is what lookups and the order actually see *)
Definition K {V} (x : key * V) : nkey := key_norm (fst x).
Definition kwf {V} (m : list (key * V)) : Prop := Forall (fun x => key_wf (fst x) = true) m.
Definition kdist {V} (m : list (key * V)) : Prop := NoDup (map K m).

Lemma kwf_in {V} (m : list (key * V)) k v : kwf m -> In (k, v) m -> key_wf k = true.
Proof. intros H I. unfold kwf in H. rewrite Forall_forall in H. exact (H _ I). Qed.

Lemma key_eq_spec a b : key_wf a = true -> key_wf b = true ->
  reflect (key_norm a = key_norm b) (key_eq a b).
Proof. intros Ha Hb. apply iff_reflect. symmetry. apply key_eq_norm; trivial. Qed.

Lemma key_eq_cong a a' b b' : key_wf a = true -> key_wf a' = true -> key_wf b = true -> key_wf b' = true ->
  key_norm a = key_norm a' -> key_norm b = key_norm b' -> key_eq a b = key_eq a' b'.
Proof.
  intros Ha Ha' Hb Hb' E E'. apply eq_true_iff_eq. rewrite !key_eq_norm, E, E' by assumption. reflexivity.
Qed.

Lemma key_eq_refl k : key_wf k = true -> key_eq k k = true.
Proof. intros H. apply key_eq_norm; trivial. Qed.

Lemma key_eq_sym a b : key_wf a = true -> key_wf b = true -> key_eq a b = key_eq b a.
Proof. intros Ha Hb. apply eq_true_iff_eq. rewrite !key_eq_norm by assumption. split; congruence. Qed.

Lemma existsb_key_eq {V} (t : list (key * V)) k : kwf t -> key_wf k = true ->
  (existsb (key_eq k) (map fst t) = true <-> In (key_norm k) (map K t)).
Proof.
  intros Kt Hk. induction Kt as [|[k1 v1] t Hk1 _ IH]; cbn; [split; [discriminate | tauto]|].
  rewrite orb_true_iff, IH. change (K (k1, v1)) with (key_norm k1).
  destruct (key_eq_spec k k1 Hk Hk1); intuition congruence.
Qed.

Lemma keys_distinct_NoDup {V} (m : list (key * V)) : kwf m ->
  (keys_distinct (map fst m) = true <-> kdist m).
Proof.
  unfold kdist. induction 1 as [|[k v] t Hk Ht IH]; cbn.
  - split; trivial. constructor.
  - rewrite andb_true_iff, negb_true_iff, IH, <- not_true_iff_false, (existsb_key_eq t k Ht Hk).
    symmetry. apply NoDup_cons_iff.
Qed.

Lemma map_get_some {V} (m : list (key * V)) k v : map_get m k = Some v ->
  exists k', In (k', v) m /\ key_eq k' k = true.
Proof.
  induction m as [|[k0 v0] t IH]; cbn; try discriminate.
  destruct (key_eq k0 k) eqn:E.
  - intros H; inversion H; subst. exists k0; auto.
  - intros H. destruct (IH H) as [k' [Hin Hk]]. exists k'; auto.
Qed.

Lemma map_get_norm {V} (m : list (key * V)) k k' : kwf m -> key_wf k = true -> key_wf k' = true ->
  key_norm k = key_norm k' -> map_get m k = map_get m k'.
Proof.
  intros Hw Hk Hk' Hn. induction Hw as [|[k0 v0] t Hk0 _ IH]; cbn; trivial.
  rewrite (key_eq_cong k0 k0 k k'), IH by trivial. reflexivity.
Qed.

Definition klt {V W} (x : key * V) (y : key * W) : Prop := nkey_cmp (K x) (K y) = Lt.
Definition ssorted {V} (l : list (key * V)) : Prop := StronglySorted klt l.

Lemma ksort_perm {V} (l : list (key * V)) : Permutation (ksort l) l.
Proof. exact (gsort_perm _ l). Qed.

Lemma ksort_In {V} (x : key * V) l : In x (ksort l) <-> In x l.
Proof. exact (gsort_In _ x l). Qed.

Lemma ksort_Forall {V} (P : key * V -> Prop) l : Forall P l -> Forall P (ksort l).
Proof. apply Permutation_Forall. symmetry. apply ksort_perm. Qed.

Lemma ksort_sorted {V} (l : list (key * V)) : kwf l -> kdist l -> ssorted (ksort l).
Proof.
  intros Hw Hd.
  assert (S : StronglySorted (fun a b : key * V => key_cmp (fst a) (fst b) <> Gt) (ksort l)).
  { apply (gsort_sorted _ (fun x => key_wf (fst x) = true)); trivial.
    - intros x y Hx Hy. rewrite !key_cmp_norm by assumption. apply nkey_cmp_opp.
    - intros x y z Hx Hy Hz. rewrite !key_cmp_norm by assumption. apply nkey_cmp_tr. }
  assert (D : NoDup (map K (ksort l))).
  { eapply Permutation_NoDup; [|exact Hd]. apply Permutation_map. symmetry. apply ksort_perm. }
  apply ksort_Forall in Hw. revert S D Hw. generalize (ksort l) as s.
  induction 1 as [|x t St IH Hall]; cbn; intros D Hw; constructor.
  - inversion D; inversion Hw; subst. apply IH; assumption.
  - inversion D as [|? ? Hnin _]; inversion Hw as [|? ? Hx Ht]; subst.
    rewrite Forall_forall in *. intros z Hz. specialize (Hall z Hz).
    rewrite key_cmp_norm in Hall by auto. unfold klt. fold (K x) (K z) in Hall.
    destruct (nkey_cmp (K x) (K z)) eqn:E; trivial; [|congruence].
    apply nkey_cmp_eq in E. elim Hnin. rewrite E. apply in_map. exact Hz.
Qed.

Lemma ksort_map {V W} (g : V -> W) (l : list (key * V)) :
  ksort (map (fun y => (fst y, g (snd y))) l) = map (fun y => (fst y, g (snd y))) (ksort l).
Proof.
  exact (gsort_map (fun a b => key_cmp (fst a) (fst b)) (fun a b => key_cmp (fst a) (fst b))
           (fun y => (fst y, g (snd y))) (fun _ _ => eq_refl) l).
Qed.

Lemma sorted_match {V W} (E : V -> W -> Prop) (s : list (key * V)) : forall (s' : list (key * W)),
  ssorted s -> ssorted s' ->
  (forall x, In x s -> exists y, In y s' /\ K x = K y /\ E (snd x) (snd y)) ->
  (forall y, In y s' -> exists x, In x s /\ K x = K y) ->
  Forall2 (fun x y => K x = K y /\ E (snd x) (snd y)) s s'.
Proof.
  (* the heads have the same key: if not, each has its partner in the other tail, strictly above the
     other head, and klt would close a cycle.  For the same reason no other entry has its partner
     at the head, so the tails match by IH *)
  induction s as [|x t IH]; intros s' Hs Hs' H1 H2.
  - destruct s' as [|y t']; [constructor|].
    destruct (H2 y (or_introl eq_refl)) as [x [[] _]].
  - destruct s' as [|y t'].
    { destruct (H1 x (or_introl eq_refl)) as [y [[] _]]. }
    inversion Hs as [|? ? Hst Hxt]; subst. inversion Hs' as [|? ? Hst' Hyt]; subst.
    rewrite Forall_forall in Hxt, Hyt.
    assert (irr : forall k, nkey_cmp k k = Lt -> False) by (intros k Q; rewrite nkey_cmp_refl in Q; discriminate).
    assert (Kxy : K x = K y).
    { destruct (H1 x (or_introl eq_refl)) as [y0 [[<-|Hy0] [Heq _]]]; trivial.
      destruct (H2 y (or_introl eq_refl)) as [x0 [[<-|Hx0] Heq']]; trivial.
      exfalso. pose proof (Hxt _ Hx0) as L1. pose proof (Hyt _ Hy0) as L2. unfold klt in *.
      rewrite Heq' in L1. rewrite <- Heq in L2. apply (irr (K x)). eapply nkey_lt_trans; eauto. }
    constructor.
    + split; trivial.
      destruct (H1 x (or_introl eq_refl)) as [y0 [[<-|Hy0] [Heq HE]]]; trivial.
      exfalso. pose proof (Hyt _ Hy0) as L. unfold klt in L. rewrite <- Heq, Kxy in L. eauto.
    + apply IH; trivial.
      * intros x1 Hx1. destruct (H1 x1 (or_intror Hx1)) as [y1 [[<-|Hy1] [Heq HE]]]; eauto.
        exfalso. pose proof (Hxt _ Hx1) as L. unfold klt in L. rewrite Heq, Kxy in L. eauto.
      * intros y1 Hy1. destruct (H2 y1 (or_intror Hy1)) as [x1 [[<-|Hx1] Heq]]; eauto.
        exfalso. pose proof (Hyt _ Hy1) as L. unfold klt in L. rewrite <- Heq, Kxy in L. eauto.
Qed.

Lemma map_get_spec {V} (m : list (key * V)) k v : kwf m -> kdist m -> key_wf k = true ->
  (map_get m k = Some v <-> exists k', In (k', v) m /\ key_norm k' = key_norm k).
Proof.
  unfold kdist. intros Kw. induction Kw as [|[k0 v0] t Hk0 _ IH]; cbn; intros Kd Hk.
  - split; [discriminate | intros [k' [[] _]]].
  - apply NoDup_cons_iff in Kd as [N Kd]. destruct (key_eq_spec k0 k Hk0 Hk) as [E|E].
    + (* the head answers, and no later entry has its normal form *)
      split; [intros [= ->]; eauto | intros [k' [[[= -> ->]|I] Q]]; trivial].
      elim N. change (K (k0, v0)) with (key_norm k0). rewrite E, <- Q. apply (in_map K _ _ I).
    + rewrite IH by trivial. split; intros [k' [I Q]]; eauto.
      destruct I as [[= -> ->]|I]; [contradiction | eauto].
Qed.

Lemma ksort_match {V W} (E : V -> W -> Prop) (m : list (key * V)) (m' : list (key * W)) :
  kwf m -> kwf m' -> kdist m -> kdist m' ->
  (Forall2 (fun x y => K x = K y /\ E (snd x) (snd y)) (ksort m) (ksort m') <->
   length m = length m' /\ forall x, In x m -> exists y, In y m' /\ K x = K y /\ E (snd x) (snd y)).
Proof.
  intros Kw Kw' Kd Kd'. split.
  - intros F. split.
    + rewrite <- (Permutation_length (ksort_perm m)), <- (Permutation_length (ksort_perm m')).
      eapply Forall2_length; eauto.
    + intros x Hx. rewrite <- ksort_In in Hx. destruct (Forall2_in_l _ _ _ _ F Hx) as [y [Hy Q]].
      rewrite ksort_In in Hy. eauto.
  - intros [Len H1].
    assert (H2 : forall y, In y m' -> exists x, In x m /\ K x = K y).
    { assert (I : incl (map K m') (map K m)).
      { apply NoDup_length_incl; trivial.
        - rewrite !map_length. lia.
        - intros k Hk. apply in_map_iff in Hk as [x [<- Hx]].
          destruct (H1 x Hx) as [y [Hy [Q _]]]. rewrite Q. apply in_map; trivial. }
      intros y Hy. specialize (I (K y) (in_map K _ _ Hy)).
      apply in_map_iff in I as [x [Q Hx]]. eauto. }
    apply sorted_match; try (apply ksort_sorted; trivial); setoid_rewrite ksort_In; assumption.
Qed.

Lemma map_get_found_iff {V} (m : list (key * V)) k : kwf m -> kdist m -> key_wf k = true ->
  (map_get m k <> None <-> exists k' v, In (k', v) m /\ key_norm k' = key_norm k).
Proof.
  intros Kw Kd Hk. split.
  - destruct (map_get m k) as [v|] eqn:G; [intros _ | congruence].
    apply map_get_spec in G as [k' G]; eauto.
  - intros [k' [v G]]. rewrite (proj2 (map_get_spec m k v Kw Kd Hk)); [discriminate | eauto].
Qed.

(* the iteration order of the HashMap is irrelevant *)
Lemma map_get_perm {V} (m m' : list (key * V)) k : kwf m -> kdist m -> key_wf k = true ->
  Permutation m m' -> map_get m k = map_get m' k.
Proof.
  intros Kw Kd Hk P.
  assert (Kw' : kwf m') by (unfold kwf in *; eapply Permutation_Forall; eauto).
  assert (Kd' : kdist m') by (unfold kdist in *; eapply Permutation_NoDup; [apply Permutation_map; eauto|trivial]).
  assert (E : forall v, map_get m k = Some v <-> map_get m' k = Some v).
  { intros v. rewrite !map_get_spec by trivial. setoid_rewrite P. reflexivity. }
  destruct (map_get m k) as [v|]; [symmetry; apply E; trivial|].
  destruct (map_get m' k) as [v'|]; trivial. apply E. trivial.
Qed.

(* HashMap::insert *)
Lemma map_insert_get {V} (m : list (key * V)) k v k0 : kwf m -> key_wf k = true -> key_wf k0 = true ->
  map_get (map_insert m k v) k0 =
    if key_eq k k0 then Some v else map_get m k0.
Proof.
  intros Kw Hk Hk0. induction Kw as [|[k1 v1] t Hk1 _ IH]; cbn; trivial.
  destruct (key_eq_spec k1 k Hk1 Hk) as [E1|E1]; cbn.
  - rewrite (key_eq_cong k1 k k0 k0) by trivial. destruct (key_eq k k0); trivial.
  - destruct (key_eq_spec k1 k0 Hk1 Hk0) as [A|A]; trivial.
    destruct (key_eq_spec k k0 Hk Hk0) as [B|B]; trivial. congruence.
Qed.

Lemma map_insert_keys {V} (m : list (key * V)) k v n :
  In n (map K (map_insert m k v)) -> n = key_norm k \/ In n (map K m).
Proof.
  unfold K. induction m as [|[k1 v1] t IH]; cbn; [intuition congruence|].
  destruct (key_eq k1 k); cbn; tauto.
Qed.

Lemma map_insert_inv {V} (m : list (key * V)) k v : kwf m -> kdist m -> key_wf k = true ->
  kwf (map_insert m k v) /\ kdist (map_insert m k v).
Proof.
  unfold kdist. intros Kw Kd Hk. induction Kw as [|[k1 v1] t Hk1 Kt IH]; cbn.
  - split; repeat constructor; trivial. intros [].
  - apply NoDup_cons_iff in Kd as [Hnin Kd].
    destruct (key_eq_spec k1 k Hk1 Hk) as [E1|E1].
    + split; cbn; constructor; trivial.
    + destruct (IH Kd) as [I1 I2]. split; cbn; constructor; trivial.
      intros Q. apply map_insert_keys in Q as [Q|Q]; [exact (E1 Q) | contradiction].
Qed.

Definition assoc_last {V} (l : list (key * V)) (k : key) : option V :=
  fold_left (fun acc kv => if key_eq (fst kv) k then Some (snd kv) else acc) l None.

Lemma map_from_list_gen {V} (l : list (key * V)) : forall m k, kwf m -> kdist m -> kwf l -> key_wf k = true ->
  let m' := fold_left (fun m kv => map_insert m (fst kv) (snd kv)) l m in
  kwf m' /\ kdist m' /\
  map_get m' k = fold_left (fun acc kv => if key_eq (fst kv) k then Some (snd kv) else acc) l (map_get m k).
Proof.
  induction l as [|[k1 v1] t IH]; intros m k Kw Kd Kl Hk; cbn.
  - auto.
  - inversion Kl as [|? ? Hk1 Kt]; subst. cbn in Hk1.
    destruct (map_insert_inv m k1 v1 Kw Kd Hk1) as [I1 I2].
    destruct (IH (map_insert m k1 v1) k I1 I2 Kt Hk) as [J1 [J2 J3]].
    repeat split; trivial. cbn in J3. rewrite J3. rewrite map_insert_get; trivial.
Qed.

Lemma map_from_list_spec {V} (l : list (key * V)) k : kwf l -> key_wf k = true ->
  kwf (map_from_list l) /\ kdist (map_from_list l) /\
  map_get (map_from_list l) k = assoc_last l k.
Proof.
  intros Kl Hk. apply (map_from_list_gen l [] k); trivial.
  - constructor. - constructor.
Qed.

Lemma assoc_last_found {V} (l : list (key * V)) k : kwf l -> key_wf k = true ->
  (assoc_last l k <> None <-> In (key_norm k) (map K l)).
Proof.
  intros Kl Hk. unfold assoc_last.
  assert (G : forall acc, fold_left (fun acc kv => if key_eq (fst kv) k then Some (snd kv) else acc) l acc <> None
                <-> (acc <> None \/ In (key_norm k) (map K l))).
  { induction Kl as [|[k1 v1] t Hk1 _ IH]; intros acc; cbn; [tauto|].
    rewrite IH. change (K (k1, v1)) with (key_norm k1).
    destruct (key_eq_spec k1 k Hk1 Hk); intuition congruence. }
  rewrite G. tauto.
Qed.

Lemma all_b_Forall {A} (p : A -> bool) l : all_b p l = true <-> Forall (fun x => p x = true) l.
Proof. rewrite Forall_forall. apply forallb_forall. Qed.

Lemma wf_arr l : wf (VArr l) <-> Forall wf l.
Proof. unfold wf; cbn. apply all_b_Forall. Qed.

Lemma wf_map m : wf (VMap m) <-> kwf m /\ kdist m /\ Forall (fun x => wf (snd x)) m.
Proof.
  unfold wf; cbn. rewrite !andb_true_iff, !all_b_Forall, Forall_map. fold (kwf m).
  pose proof (keys_distinct_NoDup m). tauto.
Qed.

Lemma as_u128_int r z : as_u128 (VInt r z) = if in_u128 z then Some z else None.
Proof. reflexivity. Qed.
Lemma as_i128_int r z : as_i128 (VInt r z) = if in_i128 z then Some z else None.
Proof. reflexivity. Qed.

(* the scalar kinds with what a comparison sees of them: numbers by value, strings without the
   safe mark *)
Inductive skey := SUndef | SNone | SBool (b : bool) | SNum (x : fcls) | SStr (s : str) | SBytes (b : list N).

Definition sk (v : value) : option skey :=
  match v with
  | VUndef => Some SUndef
  | VNone => Some SNone
  | VBool b => Some (SBool b)
  | VInt _ z => Some (SNum (FFin z 0))
  | VFloat f => Some (SNum (fcls_of f))
  | VStr s _ => Some (SStr s)
  | VBytes b => Some (SBytes b)
  | _ => None
  end.

Definition srank (k : skey) : N :=
  match k with
  | SUndef => value_type_order KUndefined
  | SNone => value_type_order KNone
  | SBool _ => value_type_order KBoolK
  | SNum _ => value_type_order KF64
  | SStr _ => value_type_order KString
  | SBytes _ => value_type_order KBytes
  end.

Definition scmp (a b : skey) : comparison :=
  match a, b with
  | SUndef, SUndef => Eq
  | SNone, SNone => Eq
  | SBool x, SBool y => bool_cmp x y
  | SNum x, SNum y => xcmp x y
  | SStr x, SStr y => list_cmp N.compare x y
  | SBytes x, SBytes y => list_cmp N.compare x y
  | _, _ => N.compare (srank a) (srank b)
  end.

Lemma scmp_opp a b : scmp b a = CompOpp (scmp a b).
Proof.
  destruct a, b; cbn; trivial.
  - apply bool_cmp_opp. - apply xcmp_opp. - apply Nlist_cmp_opp. - apply Nlist_cmp_opp.
Qed.

Lemma scmp_rank a b : srank a <> srank b -> scmp a b = N.compare (srank a) (srank b).
Proof. destruct a, b; cbn; trivial; intros H; exfalso; apply H; reflexivity. Qed.

Lemma scmp_same_rank a b : srank a = srank b ->
  match a, b with
  | SUndef, SUndef | SNone, SNone | SBool _, SBool _ | SNum _, SNum _ | SStr _, SStr _
  | SBytes _, SBytes _ => True
  | _, _ => False
  end.
Proof. destruct a, b; cbn; trivial; discriminate. Qed.

Lemma scmp_tr a b d : tr (scmp a b) (scmp b d) (scmp a d).
Proof.
  apply (lex_tr srank scmp scmp_rank). intros e1 e2.
  apply scmp_same_rank in e1, e2.
  destruct a, b; try contradiction; destruct d; try contradiction; cbn; trivial.
  - apply bool_cmp_tr. - apply xcmp_tr. - apply Nlist_cmp_tr. - apply Nlist_cmp_tr.
Qed.

Lemma rank_int r z : rank (VInt r z) = value_type_order KF64.
Proof. destruct r; reflexivity. Qed.

Lemma rank_sk a x : sk a = Some x -> rank a = srank x.
Proof.
  destruct a as [| |b|r z|f|s sf|l|m|bs]; cbn [sk]; intros H; inversion H; subst; trivial.
  apply rank_int.
Qed.

Lemma xcmp_int z z' : xcmp (FFin z 0) (FFin z' 0) = (z ?= z').
Proof. apply dy_cmp_ints. Qed.

Lemma f64_x x y : f64_total_cmp x y = xcmp (fcls_of x) (fcls_of y) /\
  f64_eq x y = match xcmp (fcls_of x) (fcls_of y) with Eq => true | _ => false end.
Proof.
  unfold f64_total_cmp, f64_eq, f64_pcmp.
  destruct x as [[]|[]| |[] mx ex], y as [[]|[]| |[] my ey]; cbn; auto;
    match goal with |- context [dy_cmp ?a ?b ?c ?d] => destruct (dy_cmp a b c d); auto end.
Qed.

Lemma cmp_f64_to_number_x f r z : rep_ok r z = true ->
  cmp_f64_to_number f (VInt r z) = Some (xcmp (fcls_of f) (FFin z 0)).
Proof.
  intros H. unfold cmp_f64_to_number. rewrite as_i128_int, as_u128_int.
  destruct (in_i128 z) eqn:E.
  - rewrite cmp_f64_to_i128_x; trivial.
  - destruct (rep_ok_not_i128 r z H E) as [_ [_ U]]. rewrite U. cbn.
    rewrite cmp_f64_to_u128_x; trivial.
Qed.

(* integers of any two tags: `as_u128` succeeds exactly on the non-negative ones, `as_i128` on all
   the negative ones, so the arms of mod.rs 329-341 compare the values *)
Lemma int_int_x r z r' z' : rep_ok r z = true -> rep_ok r' z' = true ->
  int_pcmp (VInt r z) (VInt r' z') = Some (z ?= z') /\ int_eq (VInt r z) (VInt r' z') = (z =? z').
Proof.
  intros H H'. unfold int_pcmp, int_eq. rewrite !as_u128_int, !as_i128_int.
  rewrite (rep_ok_in_u128 _ _ H), (rep_ok_in_u128 _ _ H'), (rep_ok_in_i128 _ _ H), (rep_ok_in_i128 _ _ H').
  pose proof bounds_order as B.
  destruct (Z.leb_spec 0 z), (Z.leb_spec 0 z'); cbn [opt_z_eqb].
  - split; reflexivity.
  - split; [f_equal|]; symmetry; [apply Z.compare_gt_iff | apply Z.eqb_neq]; lia.
  - split; [f_equal|]; symmetry; [apply Z.compare_lt_iff | apply Z.eqb_neq]; lia.
  - replace (z <=? i128_max) with true by (symmetry; apply Z.leb_le; lia).
    replace (z' <=? i128_max) with true by (symmetry; apply Z.leb_le; lia). split; reflexivity.
Qed.

Lemma int_pcmp_x r z r' z' : rep_ok r z = true -> rep_ok r' z' = true ->
  int_pcmp (VInt r z) (VInt r' z') = Some (z ?= z').
Proof. intros H H'. apply (int_int_x r z r' z' H H'). Qed.

Lemma int_eq_x r z r' z' : rep_ok r z = true -> rep_ok r' z' = true ->
  int_eq (VInt r z) (VInt r' z') = (z =? z').
Proof. intros H H'. apply (int_int_x r z r' z' H H'). Qed.

Lemma cmp_sk a b x y : wf a -> wf b -> sk a = Some x -> sk b = Some y ->
  vpcmp a b = (if N.eqb (srank x) (srank y) then Some (scmp x y) else None) /\
  veq a b = match scmp x y with Eq => true | _ => false end.
Proof.
  intros Wa Wb Ha Hb.
  destruct a as [| |ba|ra za|fa|sa sfa|la|ma|bsa], b as [| |bb|rb zb|fb|sb sfb|lb|mb|bsb];
    cbn in Ha, Hb; try discriminate; inversion Ha; inversion Hb; subst; try (split; reflexivity);
    cbn [vpcmp veq scmp].
  6-7: split; [reflexivity | apply is_Eq_of_iff; rewrite Nlist_cmp_eq, list_eq2_N_eq; reflexivity].
  - split; [reflexivity | destruct ba, bb; reflexivity].
  - destruct (int_int_x ra za rb zb Wa Wb) as [-> ->]. rewrite xcmp_int, Z.eqb_compare. split; reflexivity.
  - rewrite cmp_f64_to_number_x, (xcmp_opp (FFin za 0)) by exact Wa.
    destruct (xcmp (FFin za 0) (fcls_of fb)); split; reflexivity.
  - rewrite cmp_f64_to_number_x by exact Wb. split; reflexivity.
  - destruct (f64_x fa fb) as [-> ->]. split; reflexivity.
Qed.

Lemma vpcmp_sk a b x y : wf a -> wf b -> sk a = Some x -> sk b = Some y ->
  vpcmp a b = if N.eqb (srank x) (srank y) then Some (scmp x y) else None.
Proof. intros Wa Wb Ha Hb. apply (cmp_sk a b x y Wa Wb Ha Hb). Qed.

Lemma veq_sk a b x y : wf a -> wf b -> sk a = Some x -> sk b = Some y ->
  veq a b = match scmp x y with Eq => true | _ => false end.
Proof. intros Wa Wb Ha Hb. apply (cmp_sk a b x y Wa Wb Ha Hb). Qed.

Lemma vcmp_flat a b x : sk a = Some x ->
  vcmp a b = match vpcmp a b with Some r => r | None => N.compare (rank a) (rank b) end.
Proof. destruct a; try discriminate; reflexivity. Qed.

Lemma vcmp_sk a b x y : wf a -> wf b -> sk a = Some x -> sk b = Some y -> vcmp a b = scmp x y.
Proof.
  intros Wa Wb Ha Hb.
  rewrite (vcmp_flat a b x Ha), (vpcmp_sk a b x y) by assumption.
  rewrite (rank_sk _ _ Ha), (rank_sk _ _ Hb).
  destruct (N.eqb (srank x) (srank y)) eqn:E; trivial.
  apply N.eqb_neq in E. symmetry. apply scmp_rank; trivial.
Qed.

Lemma rank_arr_inv l a : rank (VArr l) = rank a -> exists l', a = VArr l'.
Proof.
  destruct a as [| |b|r z|f|s sf|l'|m|bs]; rewrite ?rank_int; cbn; try discriminate; eauto.
Qed.
Lemma rank_map_inv m a : rank (VMap m) = rank a -> exists m', a = VMap m'.
Proof.
  destruct a as [| |b|r z|f|s sf|l'|m'|bs]; rewrite ?rank_int; cbn; try discriminate; eauto.
Qed.

Lemma diff_rank a b : rank a <> rank b ->
  vcmp a b = N.compare (rank a) (rank b) /\ veq a b = false /\ vpcmp a b = None.
Proof.
  intros H. destruct a, b; cbn [vcmp veq vpcmp]; rewrite ?rank_int in *; auto; elim H; reflexivity.
Qed.

(* [entry_cmp vcmp] on entries with well-formed keys ([key_cmp_norm]): the form in which the laws of
   entries are proved, so that [key_wf] is spent once, in [vcmp_map] *)
Definition ecmp (x y : key * value) : comparison := thn (nkey_cmp (K x) (K y)) (vcmp (snd x) (snd y)).

Lemma vcmp_map m m' : kwf m -> kwf m' -> vcmp (VMap m) (VMap m') = list_cmp ecmp (ksort m) (ksort m').
Proof.
  intros Kw Kw'. cbn [vcmp].
  rewrite (ksort_map vcmp m), list_cmp_map_l. apply list_cmp_ext.
  intros [k v] [k' v'] Hx Hy. rewrite ksort_In in Hx, Hy. unfold entry_cmp, ecmp, K. cbn.
  rewrite key_cmp_norm; [reflexivity | exact (kwf_in _ _ _ Kw Hx) | exact (kwf_in _ _ _ Kw' Hy)].
Qed.

Lemma vcmp_arr l l' : vcmp (VArr l) (VArr l') = list_cmp vcmp l l'.
Proof. reflexivity. Qed.

Lemma veq_map_iff m m' : kwf m -> kwf m' -> kdist m' ->
  (veq (VMap m) (VMap m') = true <->
   length m = length m' /\
   forall x, In x m -> exists y, In y m' /\ K x = K y /\ veq (snd x) (snd y) = true).
Proof.
  intros Kw Kw' Kd'. cbn [veq]. rewrite andb_true_iff, Nat.eqb_eq, all_b_Forall, Forall_forall.
  apply and_iff_compat_l. split; intros H [k v] Hin; specialize (H (k, v) Hin); cbn [fst snd] in *.
  - destruct (map_get m' k) as [v'|] eqn:G; try discriminate.
    destruct (proj1 (map_get_spec m' k v' Kw' Kd' (kwf_in _ _ _ Kw Hin)) G) as [k' [Hin' Q]]. exists (k', v'). repeat split; trivial. symmetry. exact Q.
  - destruct H as [[k' v'] [Hin' [Q E]]]. unfold K in Q; cbn [fst snd] in Q, E.
    rewrite (proj2 (map_get_spec m' k v' Kw' Kd' (kwf_in _ _ _ Kw Hin))); eauto.
Qed.

Definition laws_at (a b : value) : Prop :=
  vcmp b a = CompOpp (vcmp a b) /\
  (vcmp a b = Eq <-> veq a b = true) /\
  (forall d, wf d -> tr (vcmp a b) (vcmp b d) (vcmp a d)).
Definition laws (a : value) : Prop := wf a -> forall b, wf b -> laws_at a b.

(* against a value of another rank everything is decided by [diff_rank]; what is left to show for
   each kind is the laws among values of its own rank *)
Lemma laws_by_rank a :
  (forall b, wf b -> rank a = rank b ->
     vcmp b a = CompOpp (vcmp a b) /\ (vcmp a b = Eq <-> veq a b = true)) ->
  (forall b d, wf b -> wf d -> rank a = rank b -> rank b = rank d ->
     tr (vcmp a b) (vcmp b d) (vcmp a d)) ->
  forall b, wf b -> laws_at a b.
Proof.
  intros Hoe Htr b Wb.
  assert (OE : vcmp b a = CompOpp (vcmp a b) /\ (vcmp a b = Eq <-> veq a b = true)).
  { destruct (N.eq_dec (rank a) (rank b)) as [e|n]; [auto|].
    destruct (diff_rank a b n) as [E1 [E2 _]]. destruct (diff_rank b a (not_eq_sym n)) as [E3 _].
    rewrite E1, E2, E3. split; [apply N.compare_antisym|].
    split; try discriminate. intros Q. apply N.compare_eq_iff in Q. contradiction. }
  destruct OE as [O E]. repeat split; try apply E; trivial.
  intros d Wd. apply (lex_tr rank vcmp (fun x y n => proj1 (diff_rank x y n))). auto.
Qed.

Lemma sk_same_rank a b x : sk a = Some x -> rank a = rank b -> exists y, sk b = Some y.
Proof.
  intros Ha Hr. destruct (sk b) as [y|] eqn:Hb; eauto. exfalso.
  destruct b as [| |bb|rb zb|fb|sb sfb|lb|mb|bsb]; cbn in Hb; try discriminate.
  - destruct (rank_arr_inv _ _ (eq_sym Hr)) as [l' ->]. discriminate.
  - destruct (rank_map_inv _ _ (eq_sym Hr)) as [m' ->]. discriminate.
Qed.

Lemma laws_scalar a x : sk a = Some x -> laws a.
Proof.
  intros Ha Wa. apply laws_by_rank.
  - intros b Wb e. destruct (sk_same_rank _ _ _ Ha e) as [y Hb].
    rewrite (vcmp_sk a b x y), (vcmp_sk b a y x), (veq_sk a b x y) by assumption.
    split; [apply scmp_opp|]. destruct (scmp x y); split; congruence.
  - intros b d Wb Wd e1 e2.
    destruct (sk_same_rank _ _ _ Ha e1) as [y Hb]. destruct (sk_same_rank _ _ _ Hb e2) as [z Hd].
    rewrite (vcmp_sk a b x y), (vcmp_sk b d y z), (vcmp_sk a d x z) by assumption.
    apply scmp_tr.
Qed.

Lemma laws_arr l : Forall laws l -> laws (VArr l).
Proof.
  intros IH Wa. apply wf_arr in Wa.
  assert (L : forall x, In x l -> forall y, wf y -> laws_at x y).
  { intros x Hx. rewrite Forall_forall in IH, Wa. apply (IH x Hx), Wa, Hx. }
  apply laws_by_rank.
  - intros b Wb e. destruct (rank_arr_inv _ _ e) as [l' ->]. apply wf_arr in Wb.
    rewrite !vcmp_arr. cbn [veq].
    split; [apply (list_cmp_opp wf) | apply (list_cmp_eq_iff wf)]; trivial.
    all: apply Forall_forall; intros x Hx y Wy; apply (L x Hx y Wy).
  - intros b d Wb Wd e1 e2.
    destruct (rank_arr_inv _ _ e1) as [l' ->]. destruct (rank_arr_inv _ _ e2) as [l'' ->].
    apply wf_arr in Wb, Wd. rewrite !vcmp_arr. apply (list_cmp_tr wf); trivial.
    apply Forall_forall. intros x Hx y z Wy Wz. apply (L x Hx y Wy); trivial.
Qed.

Lemma laws_map m : Forall (fun kv => laws (snd kv)) m -> laws (VMap m).
Proof.
  intros IH Wa. apply wf_map in Wa as [Kw [Kd Vw]].
  assert (L : forall x, In x (ksort m) -> forall y, wf y -> laws_at (snd x) y).
  { intros x Hx. rewrite ksort_In in Hx. rewrite Forall_forall in IH, Vw. apply (IH x Hx), Vw, Hx. }
  apply laws_by_rank.
  - intros b Wb e. destruct (rank_map_inv _ _ e) as [m' ->].
    apply wf_map in Wb as [Kw' [Kd' Vw']].
    rewrite !vcmp_map by trivial. split.
    + apply (list_cmp_opp (fun x => wf (snd x))); [|apply ksort_Forall, Vw'].
      apply Forall_forall. intros x Hx y Wy. unfold ecmp.
      rewrite (nkey_cmp_opp (K x)), (proj1 (L x Hx (snd y) Wy)). apply thn_opp.
    + (* Equal sorted entry lists <-> pointwise matching entries <-> == of the maps *)
      rewrite list_cmp_Eq_Forall2, (veq_map_iff m m'),
        <- (ksort_match (fun v v' : value => veq v v' = true)) by assumption.
      apply ksort_Forall in Vw'. rewrite Forall_forall in Vw'.
      split; apply Forall2_impl_in; intros x y Hx Hy; unfold ecmp;
        rewrite thn_Eq, nkey_cmp_eq, (proj1 (proj2 (L x Hx (snd y) (Vw' y Hy)))); trivial.
  - intros b d Wb Wd e1 e2.
    destruct (rank_map_inv _ _ e1) as [m' ->]. destruct (rank_map_inv _ _ e2) as [m'' ->].
    apply wf_map in Wb as [Kw' [_ Vw']], Wd as [Kw'' [_ Vw'']].
    rewrite !vcmp_map by trivial. apply (list_cmp_tr (fun x => wf (snd x))).
    2, 3: apply ksort_Forall; assumption.
    apply Forall_forall. intros x Hx y z Wy Wz.
    apply thn_tr; [apply nkey_cmp_tr | intros _ _; apply (L x Hx (snd y) Wy); trivial].
Qed.

Theorem vcmp_laws : forall a, laws a.
Proof.
  apply value_ind'; intros.
  1-6, 9: eapply laws_scalar; reflexivity.
  - apply laws_arr; trivial.
  - apply laws_map; trivial.
Qed.

Lemma vcmp_opp a b : wf a -> wf b -> vcmp b a = CompOpp (vcmp a b).
Proof. intros Wa Wb. apply (vcmp_laws a Wa b Wb). Qed.

Lemma vcmp_eq_iff a b : wf a -> wf b -> (vcmp a b = Eq <-> veq a b = true).
Proof. intros Wa Wb. apply (vcmp_laws a Wa b Wb). Qed.

Lemma vcmp_tr a b d : wf a -> wf b -> wf d -> tr (vcmp a b) (vcmp b d) (vcmp a d).
Proof. intros Wa Wb Wd. apply (vcmp_laws a Wa b Wb); trivial. Qed.

Lemma vcmp_refl a : wf a -> vcmp a a = Eq.
Proof. intros Wa. pose proof (vcmp_opp a a Wa Wa) as H. destruct (vcmp a a); trivial; discriminate. Qed.

Definition vle (a b : value) : Prop := vcmp a b <> Gt.

Theorem veq_equivalence :
  (forall a, wf a -> veq a a = true) /\
  (forall a b, wf a -> wf b -> veq a b = true -> veq b a = true) /\
  (forall a b c, wf a -> wf b -> wf c -> veq a b = true -> veq b c = true -> veq a c = true).
Proof.
  split; [|split].
  - intros a Wa. apply vcmp_eq_iff; trivial. apply vcmp_refl; trivial.
  - intros a b Wa Wb H. apply vcmp_eq_iff in H; trivial. apply vcmp_eq_iff; trivial.
    rewrite vcmp_opp, H; trivial.
  - intros a b c Wa Wb Wc. rewrite <- !vcmp_eq_iff by trivial. apply tr_trans, vcmp_tr; trivial.
Qed.

Theorem vcmp_total_order :
  (* total: the two directions are mirror images, so exactly one of <, =, > holds *)
  (forall a b, wf a -> wf b -> vcmp b a = CompOpp (vcmp a b)) /\
  (forall a b, wf a -> wf b -> vle a b \/ vle b a) /\
  (forall a b c, wf a -> wf b -> wf c -> vcmp a b = Lt -> vcmp b c = Lt -> vcmp a c = Lt) /\
  (forall a b c, wf a -> wf b -> wf c -> vle a b -> vle b c -> vle a c) /\
  (forall a b c, wf a -> wf b -> wf c -> vcmp a b = Eq -> vcmp a c = vcmp b c) /\
  (forall a b, wf a -> wf b -> vle a b -> vle b a -> veq a b = true) /\
  (forall a b, wf a -> wf b -> (vcmp a b = Eq <-> veq a b = true)).
Proof.
  split; [|split; [|split; [|split; [|split; [|split]]]]].
  - apply vcmp_opp.
  - intros a b Wa Wb. unfold vle. rewrite (vcmp_opp a b Wa Wb).
    destruct (vcmp a b); cbn; [left|left|right]; discriminate.
  - intros a b c Wa Wb Wc. apply tr_trans, vcmp_tr; trivial.
  - intros a b c Wa Wb Wc. apply tr_le, vcmp_tr; trivial.
  - intros a b c Wa Wb Wc. apply tr_eq_l, vcmp_tr; trivial.
  - intros a b Wa Wb. unfold vle. rewrite (vcmp_opp a b Wa Wb). intros H1 H2.
    apply vcmp_eq_iff; trivial. destruct (vcmp a b); cbn in *; congruence.
  - intros a b Wa Wb. apply vcmp_eq_iff; trivial.
Qed.

(* the unrepaired Ord impl (before fixes/D2-total-order.patch) is not a lawful order *)
Definition d2_m1 := VMap [(KStr [97%N] true, VInt U64 1)].
Definition d2_m2 := VMap [(KStr [97%N] true, VInt U64 2)].
Definition d2_a1 := VArr [VInt U64 1; VStr [97%N] false].
Definition d2_a2 := VArr [VInt U64 1; VBool true].
Definition d2_a3 := VArr [VInt U64 1; VStr [98%N] false].

Lemma vcmp_unfixed_refuted :
  (exists a b, wf a /\ wf b /\ vcmp_unfixed a b = Eq /\ veq a b = false) /\
  (exists a b c, wf a /\ wf b /\ wf c /\
     vcmp_unfixed a b = Eq /\ vcmp_unfixed b c = Eq /\ vcmp_unfixed a c = Lt).
Proof.
  split.
  - exists d2_m1, d2_m2. repeat split; vm_compute; reflexivity.
  - exists d2_a1, d2_a2, d2_a3. repeat split; vm_compute; reflexivity.
Qed.

Lemma vpcmp_some_vcmp : forall a, wf a -> forall b, wf b -> forall r, vpcmp a b = Some r -> vcmp a b = r.
Proof.
  apply (value_ind' (fun a => wf a -> forall b, wf b -> forall r, vpcmp a b = Some r -> vcmp a b = r)).
  1-6, 9: intros; erewrite vcmp_flat by reflexivity;
    match goal with H : vpcmp _ _ = Some _ |- _ => rewrite H end; reflexivity.
  - intros l IH Wa b Wb r H. destruct b as [| |bb|rb zb|fb|sb sfb|l'|mb|bsb]; try (cbn in H; discriminate H).
    rewrite vcmp_arr. cbn [vpcmp] in H. apply wf_arr in Wa, Wb.
    revert l' Wb r H. induction l as [|x t IHt]; intros l' Wl' r H; destruct l' as [|y t']; cbn in *;
      try (inversion H; reflexivity).
    inversion IH as [|? ? Hx Ht]; subst. inversion Wa; subst. inversion Wl'; subst.
    destruct (vpcmp x y) as [o|] eqn:E; try discriminate.
    rewrite (Hx ltac:(assumption) y ltac:(assumption) o E).
    destruct o; [apply IHt; trivial | inversion H; reflexivity ..].
  - intros m IH Wa b Wb r H. destruct b; cbn in H; discriminate.
Qed.

Lemma veq_structural :
  (forall s f f', veq (VStr s f) (VStr s f') = true) /\
  (forall l l', veq (VArr l) (VArr l') = true <-> Forall2 (fun x y => veq x y = true) l l') /\
  (forall m m', wf (VMap m) -> wf (VMap m') ->
     (veq (VMap m) (VMap m') = true <->
      length m = length m' /\
      forall k v, In (k, v) m -> exists k' v', In (k', v') m' /\ key_norm k' = key_norm k /\ veq v v' = true)).
Proof.
  split; [|split].
  - intros s f f'. cbn. apply list_eq2_N_eq. reflexivity.
  - intros l. cbn [veq]. induction l as [|x t IH]; destruct l' as [|y t']; cbn; split; intros H;
      try discriminate; try constructor; try (inversion H; fail).
    + apply andb_true_iff in H. tauto.
    + apply IH. apply andb_true_iff in H. tauto.
    + inversion H; subst. apply andb_true_iff. split; trivial. apply IH; trivial.
  - intros m m' Wm Wm'. apply wf_map in Wm as [Kw _]. apply wf_map in Wm' as [Kw' [Kd' _]].
    rewrite veq_map_iff by assumption. apply and_iff_compat_l. split.
    + intros H k v Hin. destruct (H (k, v) Hin) as [[k' v'] [Hin' [Q E]]]. exists k', v'. auto.
    + intros H [k v] Hin. destruct (H k v Hin) as [k' [v' [Hin' [Q E]]]]. exists (k', v'). auto.
Qed.

Lemma attr_scan_eq_hash m attr : attr_scan m attr = attr_hash m attr.
Proof.
  unfold attr_hash. induction m as [|[k v] t IH]; cbn; trivial.
  destruct k as [b|r z|s o]; cbn.
  - exact IH.
  - destruct r; exact IH.
  - unfold str_eqb in *. destruct (list_eqb N.eqb s attr); trivial.
Qed.

Lemma get_attr_spec v attr :
  get_attr v attr = match v with VMap m => map_get m (KStr attr false) | _ => None end.
Proof.
  destruct v; trivial. unfold get_attr.
  destruct (Nat.leb (length m) attr_scan_cutoff); trivial. apply attr_scan_eq_hash.
Qed.

Lemma as_key_wf item k : wf item -> as_key item = Some k -> key_wf k = true.
Proof. destruct item; cbn; intros W H; inversion H; subst; cbn; trivial. Qed.

Definition is_some {A} (o : option A) : bool := match o with Some _ => true | None => false end.

Theorem lookup_spec m item k : wf (VMap m) -> wf item -> as_key item = Some k ->
  (forall v, map_get m k = Some v <-> exists k', In (k', v) m /\ key_norm k' = key_norm k) /\
  (map_get m k <> None <-> In (key_norm k) (map K m)) /\
  (* m[k], `k in m`, `m is containing(pat=k)` *)
  get_item_map m item = ROk (match map_get m k with Some v => v | None => VUndef end) /\
  contains (VMap m) item = ROk (is_some (map_get m k)) /\
  test_containing (VMap m) item = ROk (is_some (map_get m k)) /\
  (* m.k and m | get(key=k) for string keys, whatever the size of the map *)
  (forall s f, item = VStr s f ->
     get_attr (VMap m) s = map_get m k /\
     forall d, filter_get m item d =
       match map_get m k with
       | Some v => ROk v
       | None => match d with Some x => ROk x | None => RErr ErrMsg end
       end).
Proof.
  intros Wm Wi Hk. apply wf_map in Wm as [Kw [Kd _]].
  pose proof (as_key_wf _ _ Wi Hk) as Kk.
  split; [|split; [|split; [|split; [|split]]]].
  4-5: cbn; rewrite Hk; destruct (map_get m k); reflexivity.
  - intros v. apply map_get_spec; trivial.
  - rewrite map_get_found_iff, in_map_iff by trivial. split.
    + intros [k' [v [Hin Q]]]. exists (k', v). auto.
    + intros [[k' v] [Q Hin]]. eauto.
  - unfold get_item_map. rewrite Hk. reflexivity.
  - intros s f ->. cbn in Hk. inversion Hk; subst.
    assert (E : map_get m (KStr s false) = map_get m (KStr s true)) by (apply map_get_norm; trivial).
    split.
    + rewrite get_attr_spec. exact E.
    + intros d. cbn. rewrite E. reflexivity.
Qed.

(* not-a-key operands: m[x] is an error, `x in m` / containing are false *)
Lemma lookup_non_key m item : as_key item = None ->
  get_item_map m item = RErr ErrMsg /\ contains (VMap m) item = ROk false /\
  test_containing (VMap m) item = ROk false.
Proof. intros H. unfold get_item_map. cbn. rewrite H. auto. Qed.

(* `k in m` / containing decide by key presence alone: whatever value is stored under the key
   (an undefined or none value included) *)
Theorem in_map_iff_key_present m item k : wf (VMap m) -> wf item -> as_key item = Some k ->
  (contains (VMap m) item = ROk true <-> exists k' v, In (k', v) m /\ key_norm k' = key_norm k) /\
  (vm_in item (VMap m) = ROk (VBool true) <-> exists k' v, In (k', v) m /\ key_norm k' = key_norm k) /\
  (test_containing (VMap m) item = ROk true <-> exists k' v, In (k', v) m /\ key_norm k' = key_norm k) /\
  (forall k' v, In (k', v) m -> key_norm k' = key_norm k ->
     contains (VMap m) item = ROk true /\ get_item_map m item = ROk v).
Proof.
  intros Wm Wi Hk. destruct (lookup_spec m item k Wm Wi Hk) as [S [_ [G [C [T _]]]]].
  apply wf_map in Wm as [Kw [Kd _]].
  pose proof (map_get_found_iff m k Kw Kd (as_key_wf _ _ Wi Hk)) as P.
  unfold vm_in. rewrite G, C, T, <- P. split; [|split; [|split]].
  1-3: destruct (map_get m k); cbn; split; congruence.
  intros k' v Hin Q. rewrite (proj2 (S v)); eauto.
Qed.
