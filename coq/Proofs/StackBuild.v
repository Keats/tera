(* The six instructions that rebuild the top of the stack (RunStep.stackop) and the helpers of Model/VM.v
   they call, each walked once for three analyses: the stack validator (StackCheckProofs: a failure is
   a panic on underflow only, and the kind of what is pushed), the capability check (AutoescapeProofs:
   what is left is `skipn` of the stack) and the taint invariant (AutoescapeProofs: what is pushed is
   made of the stack's values). *)
From TeraV Require Import Model.Value Model.Instr Model.Slice Model.VM Model.StackCheck Model.Taint
  Proofs.StackCheckSlice Proofs.VMFrames Proofs.RunStep.
Local Open Scope nat_scope.

Section Values.
  Variable ok : N -> bool.
  Notation vok := (vok ok).
  Notation kw_ok := (kw_ok ok).

  Lemma forallb_incl {A} (f : A -> bool) (r s : list A) :
    incl r s -> forallb f s = true -> forallb f r = true.
  Proof.
    intros Hi Hs. apply forallb_forall. intros x Hx.
    rewrite forallb_forall in Hs. apply Hs, Hi, Hx.
  Qed.

  Lemma vok_arr l : vok (VArr l) = forallb vok l.
  Proof. induction l as [|x t IH]; [reflexivity|]. cbn in *. rewrite IH. reflexivity. Qed.

  Lemma vok_map m : vok (VMap m) = kw_ok m.
  Proof.
    induction m as [|[k x] t IH]; [reflexivity|]. cbn in *. unfold kw_ok in IH. rewrite IH. reflexivity.
  Qed.

  Lemma fold_left_inv {A B} (I : B -> Prop) (P : A -> bool) (g : B -> A -> B) :
    (forall b x, I b -> P x = true -> I (g b x)) ->
    forall l acc, forallb P l = true -> I acc -> I (fold_left g l acc).
  Proof.
    intros Hg. induction l as [|x t IH]; intros acc Hl Ha; [exact Ha|].
    cbn in Hl. apply andb_prop in Hl. apply IH; [apply Hl|apply Hg; [exact Ha|apply Hl]].
  Qed.

  Lemma index_usize_in {A} (l : list A) i x : index_usize l i = Some x -> In x l.
  Proof. unfold index_usize. destruct (i <? 0)%Z; [discriminate|]. apply nth_error_In. Qed.

  Lemma collect_incl {A} (items : list A) idx r : collect items idx = Some r -> incl r items.
  Proof.
    revert r. induction idx as [|i t IH]; cbn; intros r H.
    - inversion H. intros x [].
    - destruct (index_usize items i) eqn:E; [|discriminate].
      destruct (collect items t) eqn:E2; [|discriminate]. inversion H; subst.
      intros x [<-|Hx]; [eapply index_usize_in, E|eapply IH; [reflexivity|exact Hx]].
  Qed.

  Lemma value_slice_ok v a b c r : vok v = true -> value_slice v a b c = ROk r -> vok r = true.
  Proof.
    intros Hv. unfold value_slice. destruct (_ =? 0)%Z; [discriminate|].
    destruct v; try discriminate.
    - destruct (slice_items s a b _) eqn:E; [|discriminate]. intros X; inversion X; subst.
      destruct safe; [|reflexivity]. cbn in *. eapply forallb_incl; [eapply collect_incl, E|exact Hv].
    - destruct (slice_items l a b _) eqn:E; [|discriminate]. intros X; inversion X; subst.
      rewrite vok_arr in *. eapply forallb_incl; [eapply collect_incl, E|exact Hv].
  Qed.

  Lemma vm_slice_ok opt v a b c r : vok v = true -> vm_slice opt v a b c = ROk r -> vok r = true.
  Proof.
    intros Hv. unfold vm_slice.
    destruct (opt && _); [intros X; inversion X; reflexivity|].
    destruct (is_undefined v); [discriminate|].
    destruct (slice_operand a); [|discriminate]. destruct (slice_operand b); [|discriminate].
    destruct (slice_operand c); [|discriminate]. cbn [res_bind].
    destruct (value_slice v _ _ _) eqn:E; [|destruct e; discriminate].
    intros X; inversion X; subst. eapply value_slice_ok; eassumption.
  Qed.

  Lemma map_insert_ok wd m k v : kw_ok m = true -> vok v = true -> kw_ok (map_insert wd m k v) = true.
  Proof.
    intros Hm Hv. induction m as [|[k' v'] t IH]; cbn; [rewrite Hv; reflexivity|].
    cbn in Hm. apply andb_prop in Hm. destruct Hm as [Hv' Ht].
    destruct (key_eqb_w wd k' k); cbn; [rewrite Hv; exact Ht|rewrite Hv'; exact (IH Ht)].
  Qed.

  Lemma map_of_pairs_ok wd l : kw_ok l = true -> kw_ok (map_of_pairs wd l) = true.
  Proof.
    intros Hl. apply (fold_left_inv (fun m => kw_ok m = true) (fun kv => vok (snd kv)));
      [intros; apply map_insert_ok; assumption|exact Hl|reflexivity].
  Qed.

  Lemma map_or_insert_ok wd m k v : kw_ok m = true -> vok v = true -> kw_ok (map_or_insert wd m k v) = true.
  Proof.
    intros Hm Hv. unfold map_or_insert. destruct (w_map_get wd m k); [exact Hm|].
    unfold Taint.kw_ok. rewrite forallb_app. fold (kw_ok m). rewrite Hm. cbn. rewrite Hv. reflexivity.
  Qed.
End Values.

Lemma pop_n_spec : forall n st acc,
  match pop_n n st acc with
  | Some (items, rest) =>
      rest = skipn n st /\ length items = n + length acc /\
      forall ok, forallb (vok ok) st = true -> forallb (vok ok) acc = true -> forallb (vok ok) items = true
  | None => length st < n
  end.
Proof.
  induction n as [|n IH]; intros st acc; cbn [pop_n]; [auto|].
  destruct st as [|v t]; [cbn; lia|]. specialize (IH t (v :: acc)).
  destruct (pop_n n t (v :: acc)) as [[items rest]|]; [|cbn; lia].
  destruct IH as (-> & L & H). split; [reflexivity|split; [cbn in L; lia|]].
  intros ok Hst Hacc. cbn in Hst. apply andb_prop in Hst. destruct Hst as [Hv Ht].
  apply H; [exact Ht|]. cbn. rewrite Hv, Hacc. reflexivity.
Qed.

(* build_map_pairs recurses on `k :: v :: t`, two elements at a time *)
Lemma build_map_pairs_spec wd : forall l,
  match build_map_pairs wd l with
  | ROk pairs => forall ok, forallb (vok ok) l = true -> kw_ok ok pairs = true
  | RErr e => Nat.even (length l) = true -> e = ErrMsg
  end.
Proof.
  fix IH 1. intros [|k [|v t]]; cbn [build_map_pairs]; [intros ok _; reflexivity|discriminate|].
  destruct (w_as_key wd k); [|reflexivity]. specialize (IH t).
  destruct (build_map_pairs wd t) as [r|e]; cbn [res_bind]; [|exact IH].
  intros ok Hl. cbn in Hl. apply andb_prop in Hl. destruct Hl as [_ Hl]. apply andb_prop in Hl. destruct Hl as [Hv Ht].
  cbn. rewrite Hv. exact (IH ok Ht).
Qed.

Lemma build_map_spreads_spec wd : forall fl st acc,
  match build_map_spreads wd fl st acc with
  | ROk (m, rest) =>
      rest = skipn (need_map fl) st /\ forall ok, forallb (vok ok) st = true -> kw_ok ok acc = true -> kw_ok ok m = true
  | RErr e => e <> ErrOther /\ (e = ErrPanic -> length st < need_map fl)
  end.
Proof.
  induction fl as [|b fl IH]; intros st acc; cbn [build_map_spreads]; [auto|].
  change (need_map (b :: fl)) with ((if b then 1 else 2) + need_map fl). destruct b.
  - destruct st as [|v t]; [split; [discriminate|cbn; lia]|].
    destruct v; try (split; discriminate). specialize (IH t (fold_left (fun a kv => map_or_insert wd a (fst kv) (snd kv)) m acc)).
    destruct (build_map_spreads wd fl t _) as [[m' rest]|e]; [|split; [apply IH|cbn; intros E; apply IH in E; lia]].
    destruct IH as [-> H]. split; [reflexivity|]. intros ok Hst Hacc. cbn [forallb] in Hst. apply andb_prop in Hst. destruct Hst as [Hv Ht].
    apply H; [exact Ht|]. rewrite vok_map in Hv.
    apply (fold_left_inv (fun m => kw_ok ok m = true) (fun kv => vok ok (snd kv)));
      [intros; apply map_or_insert_ok; assumption|exact Hv|exact Hacc].
  - destruct st as [|v [|k t]]; try (split; [discriminate|cbn; lia]).
    destruct (w_as_key wd k) as [key|]; [|split; discriminate]. specialize (IH t (map_or_insert wd acc key v)).
    destruct (build_map_spreads wd fl t _) as [[m' rest]|e]; [|split; [apply IH|cbn; intros E; apply IH in E; lia]].
    destruct IH as [-> H]. split; [reflexivity|]. intros ok Hst Hacc. cbn [forallb] in Hst.
    rewrite !andb_true_iff in Hst. destruct Hst as (Hv & _ & Ht). apply H; [exact Ht|]. apply map_or_insert_ok; assumption.
Qed.

Lemma build_list_spreads_spec : forall fl st acc,
  match build_list_spreads fl st acc with
  | ROk (l, rest) =>
      rest = skipn (length fl) st /\
      forall ok, forallb (vok ok) st = true -> forallb (vok ok) acc = true -> forallb (vok ok) l = true
  | RErr e => e <> ErrOther /\ (e = ErrPanic -> length st < length fl)
  end.
Proof.
  induction fl as [|b fl IH]; intros st acc; cbn [build_list_spreads]; [auto|].
  destruct st as [|v t]; [destruct b; (split; [discriminate|cbn; lia])|].
  destruct b; [destruct v; try (split; discriminate)|];
    match goal with |- context [build_list_spreads fl t ?a] =>
      specialize (IH t a); destruct (build_list_spreads fl t a) as [[l' rest]|e] end;
    try (split; [apply IH|cbn; intros E; apply IH in E; lia]);
    destruct IH as [-> H]; (split; [reflexivity|]); intros ok Hst Hacc;
    cbn [forallb] in Hst; apply andb_prop in Hst; destruct Hst as [Hv Ht]; (apply H; [exact Ht|]).
  - rewrite forallb_app. rewrite vok_arr in Hv. rewrite Hv, Hacc. reflexivity.
  - cbn. rewrite Hv, Hacc. reflexivity.
Qed.

(* as Model/StackCheck.astep has them (StackCheckProofs.astep_stackop); Model/CapCheck.castep pops the
   same (AutoescapeProofs.castep_stackop) *)
Definition stackop_pops (i : instr) : nat :=
  match i with
  | Slice | SliceOpt => 4
  | BuildMap n => 2 * n
  | BuildList n => n
  | BuildMapWithSpreads fl => need_map fl
  | BuildListWithSpreads fl => need_list fl
  | _ => 0
  end.
Definition stackop_ty (i : instr) : aty :=
  match i with
  | BuildMap _ | BuildMapWithSpreads _ => TMap
  | BuildList _ | BuildListWithSpreads _ => TArr
  | _ => TAny
  end.

(* the kind clause is StackCheckProofs.has_ty v (stackop_ty i) written out: that file imports this one *)
Lemma stackop_spec wd i st : is_stackop i = true ->
  match stackop wd i st with
  | ROk st' =>
      exists v, st' = v :: skipn (stackop_pops i) st /\
        match stackop_ty i with TAny => True | TMap => is_map v = true | TArr => is_array v = true end /\
        forall ok, forallb (vok ok) st = true -> vok ok v = true
  | RErr e => e <> ErrOther /\ (e = ErrPanic -> length st < stackop_pops i)
  end.
Proof.
  destruct i; try discriminate; intros _; cbn [stackop stackop_pops stackop_ty].
  1, 2: destruct st as [|step [|stop [|start [|val t]]]]; try (split; [discriminate|cbn; lia]);
        match goal with |- context [vm_slice ?o val start stop step] => destruct (vm_slice o val start stop step) eqn:Es end;
        [eexists; (split; [reflexivity|split; [exact I|]]); intros ok Hst; cbn [forallb] in Hst; rewrite !andb_true_iff in Hst;
         eapply vm_slice_ok; [apply Hst|exact Es]
        |rewrite (vm_slice_err _ _ _ _ _ _ Es); split; discriminate].
  - pose proof (pop_n_spec (2 * k) st []) as P. destruct (pop_n _ st []) as [[items rest]|]; [|split; [discriminate|intros _; exact P]].
    destruct P as (-> & L & H). pose proof (build_map_pairs_spec wd items) as Q.
    destruct (build_map_pairs wd items) as [pairs|e].
    + eexists. split; [reflexivity|split; [reflexivity|]]. intros ok Hst. rewrite vok_map. apply map_of_pairs_ok. exact (Q ok (H ok Hst eq_refl)).
    + (* 2 * k values were popped: the odd-length failure of build_map_pairs is out *)
      rewrite Q; [split; discriminate|]. rewrite L, Nat.add_0_r, Nat.even_mul. reflexivity.
  - pose proof (pop_n_spec k st []) as P. destruct (pop_n k st []) as [[items rest]|]; [|split; [discriminate|intros _; exact P]].
    destruct P as (-> & _ & H). eexists. split; [reflexivity|split; [reflexivity|]]. intros ok Hst. rewrite vok_arr. exact (H ok Hst eq_refl).
  - pose proof (build_map_spreads_spec wd (rev f) st []) as P. rewrite need_map_rev in P.
    destruct (build_map_spreads wd (rev f) st []) as [[m rest]|e]; [|exact P]. destruct P as [-> H].
    eexists. split; [reflexivity|split; [reflexivity|]]. intros ok Hst. rewrite vok_map. exact (H ok Hst eq_refl).
  - pose proof (build_list_spreads_spec (rev f) st []) as P. rewrite rev_length in P.
    destruct (build_list_spreads (rev f) st []) as [[l rest]|e]; [|exact P]. destruct P as [-> H].
    eexists. split; [reflexivity|split; [reflexivity|]]. intros ok Hst. rewrite vok_arr. exact (H ok Hst eq_refl).
Qed.
