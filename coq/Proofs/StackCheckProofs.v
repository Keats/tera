(* Soundness of the chunk validator of Model/StackCheck.v with respect to the concrete VM model
   (Model/VM.v `run`), for a whole validated world: induction on fuel, invariant
   "at ip the three stacks have the shape table[ip], relative to what was there on entry".
   A step is RunStep.run_step. What the effect of an instruction has to satisfy is said without run,
   fuel or sink (eff_ok) and shown instruction by instruction (pure_step_sound; instr_effect_sound for
   the eight that write or nest); that `perform` of such an effect ends as Post asks is perform_sound. *)
From TeraV Require Import Model.Value Model.Instr Model.Slice Model.VM Model.StackCheck
  Proofs.StackCheckSlice Proofs.VMFrames Proofs.RunStep Proofs.StackBuild.
Local Open Scope nat_scope.

Definition has_ty (v : value) (t : aty) : Prop :=
  match t with TAny => True | TMap => is_map v = true | TArr => is_array v = true end.
Definition loop_ok (f : loop_frame) (a : option nat) : Prop :=
  match a with None => True | Some t => lf_end_ip f = t end.

Definition SI (bv : list value) (tys : list aty) (st : list value) : Prop :=
  exists vs, st = vs ++ bv /\ Forall2 has_ty vs tys.
(* `bl`: the end_ips of the frames found on entry, not only their number: a block chunk and super()
   run on the loop stack of their caller, whose table may record the end_ip of such a frame
   (loop_ok, the target of Break) and needs it unchanged after the call (LI_sim) *)
Definition LI (bl : list nat) (lo : list (option nat)) (ls : list loop_frame) : Prop :=
  exists fs rest, ls = fs ++ rest /\ Forall2 loop_ok fs lo /\ map lf_end_ip rest = bl.
Definition CI (bc ca : nat) (cs : list str) : Prop := length cs = ca + bc.

Definition Inv (bv : list value) (bl : list nat) (bc : nat) (a : astate) (s : state) : Prop :=
  SI bv (a_stack a) (stack s) /\ LI bl (a_loops a) (loops s) /\ CI bc (a_caps a) (caps s).

Lemma ty_sub_ok v a b : ty_sub a b = true -> has_ty v a -> has_ty v b.
Proof. destruct a, b; cbn; intros; try discriminate; auto. Qed.

Lemma lp_sub_ok f a b : lp_sub a b = true -> loop_ok f a -> loop_ok f b.
Proof. intros H. destruct (lp_sub_spec _ _ H) as [-> | ->]; [exact (fun _ => I)|exact id]. Qed.

Lemma Inv_sub bv bl bc a b s : astate_sub a b = true -> Inv bv bl bc a s -> Inv bv bl bc b s.
Proof.
  intros H (HS & HL & HC). destruct (astate_sub_spec _ _ H) as (H1 & H2 & H3). split; [|split].
  - destruct HS as (vs & E & F). exists vs. split; [exact E|]. exact (all2_Forall2 _ _ ty_sub_ok _ _ _ F H1).
  - destruct HL as (fs & rest & E & F & M). exists fs, rest. split; [exact E|split; [|exact M]].
    exact (all2_Forall2 _ _ lp_sub_ok _ _ _ F H2).
  - unfold CI in *. rewrite <- H3. exact HC.
Qed.

Lemma SI_nil bv : SI bv [] bv.
Proof. exists []. split; [reflexivity|constructor]. Qed.

Lemma SI_nil_inv bv st : SI bv [] st -> st = bv.
Proof. intros (vs & E & F). inversion F. subst. reflexivity. Qed.

Lemma SI_push bv ts st v t : SI bv ts st -> has_ty v t -> SI bv (t :: ts) (v :: st).
Proof. intros (vs & E & F) H. exists (v :: vs). split; [subst; reflexivity|constructor; assumption]. Qed.

Lemma SI_pop bv t ts st : SI bv (t :: ts) st -> exists v st', st = v :: st' /\ has_ty v t /\ SI bv ts st'.
Proof.
  intros (vs & E & F). inversion F as [|v t' vs' ts' Hv F']. subst.
  exists v, (vs' ++ bv). split; [reflexivity|split; [exact Hv|]]. exists vs'. split; [reflexivity|exact F'].
Qed.

Lemma SI_drop bv : forall n tys st r, SI bv tys st -> drop n tys = Some r -> n <= length st /\ SI bv r (skipn n st).
Proof.
  induction n as [|n IH]; intros tys st r H D.
  - cbn in D. injection D as <-. split; [lia|exact H].
  - cbn in D. destruct tys as [|t tys]; [discriminate|].
    destruct (SI_pop _ _ _ _ H) as (v & st' & -> & _ & H'). destruct (IH _ _ _ H' D) as (L & H''). split; [cbn; lia|exact H''].
Qed.

Lemma LI_push bl lo ls f a : LI bl lo ls -> loop_ok f a -> LI bl (a :: lo) (f :: ls).
Proof.
  intros (fs & rest & E & F & M) H. exists (f :: fs), rest.
  split; [rewrite E; reflexivity|split; [constructor; assumption|exact M]].
Qed.

Lemma LI_pop bl a lo ls : LI bl (a :: lo) ls -> exists f ls', ls = f :: ls' /\ loop_ok f a /\ LI bl lo ls'.
Proof.
  intros (fs & rest & E & F & M). inversion F as [|f a' fs' lo' Hf F' E1 E2]. rewrite E, <- E1.
  exists f, (fs' ++ rest). split; [reflexivity|split; [exact Hf|]]. exists fs', rest. auto.
Qed.

Lemma LI_base ls : LI (map lf_end_ip ls) [] ls.
Proof. exists [], ls. split; [reflexivity|split; [constructor|reflexivity]]. Qed.

Lemma LI_nil_inv bl ls : LI bl [] ls -> map lf_end_ip ls = bl.
Proof. intros (fs & rest & E & F & M). inversion F as [Hfs|]. rewrite E, <- Hfs. exact M. Qed.

Lemma LI_sim bl lo ls ls' : LI bl lo ls -> map lf_end_ip ls' = map lf_end_ip ls -> LI bl lo ls'.
Proof.
  intros (fs & rest & -> & F & M). revert ls'. induction F as [|f a fs lo Hf _ IH]; intros ls' H.
  - exists [], ls'. split; [reflexivity|split; [constructor|]]. rewrite H. exact M.
  - destruct ls' as [|f' ls']; [discriminate|]. cbn in H. injection H as H1 H2.
    destruct (IH _ H2) as (fs' & rest' & -> & F' & M'). exists (f' :: fs'), rest'.
    split; [reflexivity|split; [constructor; [|exact F']|exact M']]. destruct a; cbn in *; congruence.
Qed.

(* an error outside the panic class, in a form that computes (`exact I`); the theorems at the end
   state `no_panic`, the same predicate as two disequalities (ok_err_no_panic) *)
Definition ok_err (e : errc) : Prop := match e with ErrPanic | ErrOther => False | _ => True end.

Lemma subscript_ok wd opt val sub :
  match subscript wd opt val sub with ROk _ => True | RErr e => ok_err e end.
Proof.
  unfold subscript. destruct (opt && (is_undefined val || is_none val)); [exact I|].
  destruct (is_undefined val); [exact I|]. destruct (is_undefined sub); [exact I|].
  destruct (get_item wd val sub) as [v|e'] eqn:E; [exact I|]. destruct e'; try exact I.
  unfold get_item in E. destruct val; try (exact (get_item_seq_no_panic _ _ E)).
  destruct (w_as_key wd sub); discriminate.
Qed.

Lemma path_walk_ok wd : forall attrs cur e, path_walk_v wd cur attrs = RErr e -> ok_err e.
Proof.
  induction attrs as [|a r IH]; intros cur e H; [discriminate|]. cbn [path_walk_v] in H.
  destruct (is_undefined cur); [injection H as <-; exact I|].
  destruct (w_get_attr wd cur a) as [nx|]; [exact (IH _ _ H)|].
  destruct r; [discriminate|injection H as <-; exact I].
Qed.

Lemma load_path_ok wd s p e : p <> [] -> load_path_v wd s p = RErr e -> ok_err e.
Proof.
  intros Hp. destruct p as [|n attrs]; [congruence|]. cbn [load_path_v].
  destruct attrs as [|a r]; [discriminate|].
  destruct (is_undefined (get_value s n)); [intros H; injection H as <-; exact I|].
  apply path_walk_ok.
Qed.

Lemma write_walk_ok wd : forall attrs cur e, write_walk_v wd cur attrs = RErr e -> ok_err e.
Proof.
  induction attrs as [|a r IH]; intros cur e H; [discriminate|]. cbn [write_walk_v] in H.
  destruct (w_get_attr wd cur a) as [nx|]; [exact (IH _ _ H)|injection H as <-; exact I].
Qed.

Lemma write_path_ok wd s p e : p <> [] -> write_path_v wd s p = RErr e -> ok_err e.
Proof.
  intros Hp. destruct p as [|n attrs]; [congruence|]. cbn [write_path_v].
  match goal with |- context[is_undefined ?r] => destruct (is_undefined r) end; [intros H; injection H as <-; exact I|].
  match goal with |- context[write_walk_v wd ?r attrs] => destruct (write_walk_v wd r attrs) as [v|e'] eqn:E end.
  - destruct (is_undefined v); [intros H; injection H as <-; exact I|discriminate].
  - intros H. injection H as <-. exact (write_walk_ok _ _ _ _ E).
Qed.

Lemma is_map_kwargs v : is_map v = true -> exists m, v = VMap m.
Proof. destruct v; try discriminate. eauto. Qed.

Lemma is_array_inv v : is_array v = true -> exists l, v = VArr l.
Proof. destruct v; try discriminate. eauto. Qed.

(* the registries really hold what the registry record lists *)
Definition world_respects (wd : world) (reg : registry) : Prop :=
  (forall n, mem_str n (r_filters reg) = true -> forall v k sc, w_filter wd n v k sc <> None) /\
  (forall n, mem_str n (r_tests reg) = true -> forall v k, w_test wd n v k <> None) /\
  (forall n, mem_str n (r_functions reg) = true -> forall k sc, w_function wd n k sc <> None).

Lemma refs_of_chunk_In i r : ref_of i = Some r -> forall c, In i c -> In r (refs_of_chunk c).
Proof.
  intros R. induction c as [|x c IH]; intros H; [destruct H|]. cbn [refs_of_chunk]. destruct H as [<-|H].
  - rewrite R. left. reflexivity.
  - destruct (ref_of x); [right|]; exact (IH H).
Qed.

Definition same_shape (s s1 : state) : Prop :=
  stack s1 = stack s /\ map lf_end_ip (loops s1) = map lf_end_ip (loops s) /\
  length (caps s1) = length (caps s) /\ blocks s1 = blocks s /\ cur_block s1 = cur_block s.

Lemma store_local_spec s n v : same_shape s (store_local s n v).
Proof.
  unfold same_shape, store_local. destruct (loops s) as [|fr t] eqn:E; cbn; rewrite ?E; repeat split; reflexivity.
Qed.

Lemma Inv_sim bv bl bc a s s2 :
  stack s2 = stack s -> map lf_end_ip (loops s2) = map lf_end_ip (loops s) ->
  length (caps s2) = length (caps s) -> Inv bv bl bc a s -> Inv bv bl bc a s2.
Proof.
  intros E1 E2 E3 (HS & HL & HC). split; [rewrite E1; exact HS|split; [exact (LI_sim _ _ _ _ HL E2)|]].
  unfold CI in *. rewrite E3. exact HC.
Qed.

(* popS: from HS : SI bv (t :: ts) st get the top value v : t (Hty) and HS for the rest. When st is the
   stack of a state the equation is kept, as Hstk; when st is a variable (a second pop) it is
   substituted. popL: the same for LI. *)
Ltac popS HS Hstk v Hty :=
  let st' := fresh "st" in let Hst := fresh "Hst" in let HS' := fresh "HS" in
  destruct (SI_pop _ _ _ _ HS) as (v & st' & Hst & Hty & HS'); clear HS; rename HS' into HS;
  match type of Hst with
  | stack _ = _ => rename Hst into Hstk
  | ?x = _ => subst x
  end.

Ltac popL HL Hlps fr Hfr :=
  let ls' := fresh "ls" in let Hls := fresh "Hls" in let HL' := fresh "HL" in
  destruct (LI_pop _ _ _ _ HL) as (fr & ls' & Hls & Hfr & HL'); clear HL; rename HL' into HL;
  match type of Hls with
  | loops _ = _ => rename Hls into Hlps
  | ?x = _ => subst x
  end.

(* what refs_collected says of one instruction *)
Definition refs_ok (wd : world) (i : instr) : Prop :=
  match i with
  | ApplyFilter n => forall v k sc, w_filter wd n v k sc <> None
  | RunTest n => forall v k, w_test wd n v k <> None
  | CallFunction n => n = s_super \/ forall k sc, w_function wd n k sc <> None
  | RenderInlineComponent n | RenderBodyComponent n => assoc_get (w_components wd) n <> None
  | Include n => assoc_get (w_templates wd) n <> None
  | _ => True
  end.

Lemma refs_collected (wd : world) (reg : registry) : world_respects wd reg ->
  forall c, refs_resolved reg wd c = true ->
  forall ip i, nth_error c ip = Some i ->
  match i with
  | ApplyFilter n => forall v k sc, w_filter wd n v k sc <> None
  | RunTest n => forall v k, w_test wd n v k <> None
  | CallFunction n => n = s_super \/ forall k sc, w_function wd n k sc <> None
  | RenderInlineComponent n | RenderBodyComponent n => assoc_get (w_components wd) n <> None
  | Include n => assoc_get (w_templates wd) n <> None
  | _ => True
  end.
Proof.
  intros (HF & HT & HFn) c HR ip i N.
  pose proof (fun r R => proj1 (forallb_forall _ _) HR r (refs_of_chunk_In i r R c (nth_error_In _ _ N))) as REF.
  destruct i; try exact I; specialize (REF _ eq_refl); cbn [ref_resolved] in REF.
  (* Include and the two component calls: the name is a key of its table *)
  1,3,4: (unfold has_key in REF; destruct (assoc_get _ n); [discriminate|discriminate REF]).
  - apply orb_prop in REF. destruct REF as [REF|REF].
    + left. apply str_eqb_eq. exact REF.
    + right. exact (HFn n REF).
  - exact (HF n REF).
  - exact (HT n REF).
Qed.

Definition edge_inv bv bl bc (edges : list (nat * astate)) (t : nat) (s' : state) : Prop :=
  exists a', In (t, a') edges /\ Inv bv bl bc a' s'.

Lemma edge_intro bv bl bc t ts lo ca pre rest s' :
  SI bv ts (stack s') -> LI bl lo (loops s') -> CI bc ca (caps s') ->
  edge_inv bv bl bc (pre ++ (t, mkA ts lo ca) :: rest) t s'.
Proof. intros HS HL HC. exists (mkA ts lo ca). split; [apply in_elt|exact (conj HS (conj HL HC))]. Qed.
(* `pre` says which edge of astep is taken: `[]` its first or only one (to S ip, except for Jump and
   Break), `[_]` the second, the jump of a two-way instruction.
   s' is read off the goal before the three arguments are checked *)
Arguments edge_intro bv bl bc t ts lo ca pre rest s' & _ _ _.

Lemma edge_sim bv bl bc edges t s0 s1 : edge_inv bv bl bc edges t s0 -> same_shape s0 s1 -> edge_inv bv bl bc edges t s1.
Proof. intros (a' & Hin & HI) (E1 & E2 & E3 & _). exists a'. split; [exact Hin|exact (Inv_sim _ _ _ _ _ _ E1 E2 E3 HI)]. Qed.

Section Pure.
  Variable wd : world.

  Lemma unop_sound i ip st lo ca edges : is_unop i = true -> astep i ip (mkA st lo ca) = Some edges -> refs_ok wd i ->
    exists t r, st = t :: r /\ edges = [(S ip, mkA (TAny :: r) lo ca)] /\
      forall sc v e, has_ty v t -> unop wd i sc v = RErr e -> ok_err e.
  Proof.
    intros U A REF. destruct i; try discriminate U; cbn in A, REF; crack A; injection A as <-;
      eexists _, _; (split; [reflexivity|split; [reflexivity|]]); intros sc v e Hv; cbn [unop andb].
    (* LoadAttr and LoadAttrOpt: the optional form answers VUndef first *)
    1-2: (try (destruct (is_undefined v || is_none v); [discriminate|]);
          destruct (is_undefined v); [intros [= <-]; exact I|discriminate]).
    - (* CallFunction *) destruct REF as [->|Hfn]; [discriminate U|].
      destruct (is_map_kwargs _ Hv) as (m & ->). cbn [kwargs_of]. specialize (Hfn m sc).
      destruct (w_function wd n m sc) as [[[r|x] safe]|]; [discriminate|intros [= <-]; exact I|congruence].
    - (* Not *) discriminate.
    - (* Negative *) destruct (w_negate wd v); [discriminate|intros [= <-]; exact I].
  Qed.

  Lemma binop_sound i ip st lo ca edges : is_binop i = true -> astep i ip (mkA st lo ca) = Some edges -> refs_ok wd i ->
    exists tb ta r t', st = tb :: ta :: r /\ edges = [(S ip, mkA (t' :: r) lo ca)] /\
      forall sc a b, has_ty b tb -> has_ty a ta ->
        match binop wd i sc a b with ROk x => has_ty x t' | RErr e => ok_err e end.
  Proof.
    intros B A REF. destruct i; try discriminate B; cbn in A, REF; crack A; injection A as <-;
      eexists _, _, _, _; (split; [reflexivity|split; [reflexivity|]]); intros sc x y Hy Hx; cbn [binop has_ty].
    (* arithmetic, comparison, concatenation, `in`: a value or a render error, whatever the operands *)
    all: try solve [repeat match goal with
                           | |- match (if ?c then _ else _) with _ => _ end => destruct c
                           | |- match (match ?x with _ => _ end) with _ => _ end => destruct x
                           end; exact I].
    1-2: apply subscript_ok.
    - (* ApplyFilter *) destruct (is_map_kwargs _ Hy) as (m & ->). cbn [kwargs_of]. specialize (REF x m sc).
      destruct (w_filter wd n x m sc) as [[[z|e] safe]|]; [exact I|exact I|congruence].
    - (* RunTest *) destruct (is_map_kwargs _ Hy) as (m & ->). cbn [kwargs_of]. specialize (REF x m).
      destruct (w_test wd n x m) as [[z|e]|]; [exact I|exact I|congruence].
    - (* AppendToList *) destruct (is_array_inv _ Hx) as (l & ->). reflexivity.
  Qed.

  Lemma astep_stackop i ip a : is_stackop i = true ->
    astep i ip a = match drop (stackop_pops i) (a_stack a) with
                   | Some r => Some [(S ip, mkA (stackop_ty i :: r) (a_loops a) (a_caps a))]
                   | None => None
                   end.
  Proof. destruct i; try discriminate; reflexivity. Qed.

  Lemma pure_step_sound i ip a edges s r bv bl bc :
    astep i ip a = Some edges -> Inv bv bl bc a s -> refs_ok wd i -> pure_step wd i s = Some r ->
    match r with
    | PNext s' => edge_inv bv bl bc edges (S ip) s'
    | PGoto t s' => edge_inv bv bl bc edges t s'
    | PFail e => ok_err e
    end.
  Proof.
    intros A Hinv REF Hp. destruct a as [st lo ca]. destruct Hinv as (HS & HL & HC).
    cbn [a_stack a_loops a_caps] in HS, HL, HC.
    destruct (is_unop i) eqn:U; [|destruct (is_binop i) eqn:B; [|destruct (is_stackop i) eqn:K]].
    - rewrite (pure_step_unop _ _ _ U) in Hp. injection Hp as <-.
      destruct (unop_sound i ip st lo ca edges U A REF) as (t & r0 & -> & -> & Hu).
      popS HS Hstk v Hv. unfold pop1. rewrite Hstk. cbv beta iota.
      destruct (unop wd i _ v) as [x|e] eqn:E; cbn [on_res]; [|exact (Hu _ _ _ Hv E)].
      exact (edge_intro _ _ _ _ _ _ _ [] _ _ (SI_push _ _ _ x TAny HS I) HL HC).
    - rewrite (pure_step_binop _ _ _ U B) in Hp. injection Hp as <-.
      destruct (binop_sound i ip st lo ca edges B A REF) as (tb & ta & r0 & t' & -> & -> & Hb2).
      popS HS Hstk b Hb. popS HS Hstk a Ha. unfold pop2. rewrite Hstk. cbv beta iota.
      match goal with |- context [binop wd i ?sc a b] =>
        specialize (Hb2 sc a b Hb Ha); destruct (binop wd i sc a b) as [x|e] end; cbn [on_res]; [|exact Hb2].
      exact (edge_intro _ _ _ _ _ _ _ [] _ _ (SI_push _ _ _ x t' HS Hb2) HL HC).
    - (* a stackop panics on underflow only, which drop rules out *)
      rewrite (pure_step_stackop _ _ _ U B K) in Hp. injection Hp as <-.
      rewrite (astep_stackop _ _ _ K) in A. cbn [a_stack a_loops a_caps] in A.
      destruct (drop (stackop_pops i) st) as [r0|] eqn:D; [injection A as <-|discriminate]. destruct (SI_drop _ _ _ _ _ HS D) as (L & HS').
      pose proof (stackop_spec wd i (stack s) K) as P. destruct (stackop wd i (stack s)) as [stk|e]; cbn [on_res].
      + destruct P as (v & -> & Hty & _). exact (edge_intro _ _ _ _ _ _ _ [] _ _ (SI_push _ _ _ _ _ HS' Hty) HL HC).
      + destruct P as (P1 & P2). destruct e; try exact I; [exact (P1 eq_refl)|specialize (P2 eq_refl); lia].
    - (* the cases are split before pure_step is unfolded, so that each sees its own arm only; the
         goals left stand in the constructor order of `instr` *)
      destruct i; try discriminate U; try discriminate B; try discriminate K;
        cbv beta iota delta [pure_step is_unop is_binop is_stackop] in Hp; cbn [is_unop] in U;
        try (match type of U with negb _ = false => rewrite U in Hp end); try discriminate Hp;
        injection Hp as <-; cbn in A; crack A; injection A as <-.
      (* StartIterate and StartIterateComprehension differ in a flag of the new frame *)
      11-12: (popS HS Hstk v Hv; unfold pop1; rewrite Hstk; cbv beta iota;
              destruct (iter_items v); [|exact I]; destruct (kv && negb (is_map v)); [exact I|];
              exact (edge_intro _ _ _ _ _ _ _ [] _ _ HS (LI_push _ _ _ _ None HL I) HC)).
      (* JumpIfFalseOrPop and JumpIfTrueOrPop: one edge pops, the other keeps the stack *)
      7-8: (popS HS Hstk v Hv; unfold pop1; rewrite Hstk; cbv beta iota;
            destruct (is_truthy v); try exact (edge_intro _ _ _ _ _ _ _ [] _ _ HS HL HC);
            apply (edge_intro _ _ _ _ _ _ _ [_]); [rewrite Hstk; exact (SI_push _ _ _ _ _ HS Hv)|exact HL|exact HC]).
      + (* LoadConst *) refine (edge_intro _ _ _ _ _ _ _ [] _ _ (SI_push _ _ _ v _ HS _) HL HC).
        destruct v; cbn; auto.
      + (* LoadName *) exact (edge_intro _ _ _ _ _ _ _ [] _ _ (SI_push _ _ _ _ TAny HS I) HL HC).
      + (* SetI *) popS HS Hstk v Hv. unfold pop1. rewrite Hstk. cbv beta iota.
        exact (edge_sim _ _ _ _ _ _ _ (edge_intro _ _ _ _ _ _ _ [] _ (upd_stack s st0) HS HL HC) (store_local_spec _ _ _)).
      + (* SetGlobal *) popS HS Hstk v Hv. unfold pop1. rewrite Hstk. cbv beta iota.
        exact (edge_intro _ _ _ _ _ _ _ [] _ _ HS HL HC).
      + (* Jump *) exact (edge_intro _ _ _ _ _ _ _ [] _ _ HS HL HC).
      + (* PopJumpIfFalse *) popS HS Hstk v Hv. unfold pop1. rewrite Hstk. cbv beta iota.
        destruct (is_truthy v); [exact (edge_intro _ _ _ _ _ _ _ [] _ _ HS HL HC)|exact (edge_intro _ _ _ _ _ _ _ [_] _ _ HS HL HC)].
      + (* Capture *) apply (edge_intro _ _ _ _ _ _ _ []); [exact HS|exact HL|].
        unfold CI in *. cbn [caps upd_caps length]. rewrite HC. reflexivity.
      + (* EndCapture *)
        destruct (caps s) as [|c t] eqn:Ec; [unfold CI in HC; cbn in HC; lia|].
        apply (edge_intro _ _ _ _ _ _ _ []); [exact (SI_push _ _ _ _ TAny HS I)|exact HL|].
        unfold CI in *. cbn [length] in HC. cbn. lia.
      + (* Iterate *) popL HL Hlps fr Hfr. rewrite Hlps. destruct (lf_rest fr) eqn:Er.
        * apply (edge_intro _ _ _ _ _ _ _ [_]); [exact HS|rewrite Hlps; exact (LI_push _ _ _ _ _ HL Hfr)|exact HC].
        * exact (edge_intro _ _ _ _ _ _ _ [] _ _ HS (LI_push _ _ _ _ (Some _) HL (end_advance _ _)) HC).
      + (* StoreLocal *) popL HL Hlps fr Hfr. rewrite Hlps.
        apply (edge_intro _ _ _ _ _ _ _ []); [exact HS| |exact HC]. apply LI_push; [exact HL|].
        destruct o; cbn [loop_ok] in *; [rewrite end_store_local; exact Hfr|exact I].
      + (* StoreDidNotIterate *) popL HL Hlps fr Hfr. rewrite Hlps.
        apply (edge_intro _ _ _ _ _ _ _ []); [exact (SI_push _ _ _ _ TAny HS I)| |exact HC].
        cbn [loops push upd_stack]. rewrite Hlps. exact (LI_push _ _ _ _ _ HL Hfr).
      + (* Break *) popL HL Hlps fr Hfr. rewrite Hlps. cbn [loop_ok] in Hfr. rewrite Hfr.
        apply (edge_intro _ _ _ _ _ _ _ []); [exact HS|rewrite Hlps; exact (LI_push _ _ _ _ (Some n) HL Hfr)|exact HC].
      + (* PopLoop *) popL HL Hlps fr Hfr. rewrite Hlps. exact (edge_intro _ _ _ _ _ _ _ [] _ _ HS HL HC).
      + (* LoadPath *)
        match goal with |- context [load_path_v wd s ?pp] => destruct (load_path_v wd s pp) as [v|e] eqn:El end; cbn [on_res].
        * exact (edge_intro _ _ _ _ _ _ _ [] _ _ (SI_push _ _ _ _ TAny HS I) HL HC).
        * refine (load_path_ok _ _ _ _ _ El). discriminate.
  Qed.
End Pure.

Section Sound.
  Variable W : Type.
  Variable wr : W -> str -> option W.
  Variable wd : world.
  Variable reg : registry.
  Hypothesis Hreg : world_respects wd reg.
  Hypothesis Hwd : world_checked reg wd = true.

  Definition good (c : list instr) : Prop := chunk_good reg wd c = true.
  Definition tpl_good (t : template) : Prop := template_good reg wd t = true.

  Definition block_name (e : str * list (list instr) * nat) : str := fst (fst e).
  Definition block_lin (e : str * list (list instr) * nat) : list (list instr) := snd (fst e).

  Definition blocks_good (s : state) : Prop :=
    Forall (fun e => Forall good (block_lin e)) (blocks s) /\
    match cur_block s with Some cb => In cb (map block_name (blocks s)) | None => True end.

  (* a run ends on the kind of sink it started on: `perform` answers ErrPanic when a callee started
     on a buffer hands back a SinkTop *)
  Definition same_kind (o o' : sink W) : Prop :=
    match o, o' with SinkTop _, SinkTop _ | SinkBuf _, SinkBuf _ => True | _, _ => False end.

  (* what a run may end in: never the panic class, never TemplateNotFound; on normal
     termination the three stacks are as on entry and the block bookkeeping is restored *)
  Definition Post (bv : list value) (bl : list nat) (bc : nat) (s : state) (o : sink W) (r : rres W) : Prop :=
    match r with
    | RFail e => ok_err e
    | ROutOfFuel => True
    | RDone s' o' =>
        Inv bv bl bc a_empty s' /\ blocks s' = blocks s /\ cur_block s' = cur_block s /\ same_kind o o'
    end.

  (* what check_table establishes (VMFrames.check_table_spec) apart from the entry state *)
  Definition table_ok (c : list instr) (tbl : table) : Prop :=
    length tbl = S (length c) /\
    (forall ip i, nth_error c ip = Some i -> instr_ok tbl ip i = true) /\
    (forall a, nth_error tbl (length c) = Some (Some a) -> astate_sub a a_empty = true).

  Lemma same_kind_refl o : same_kind o o.
  Proof. destruct o; exact I. Qed.

  Lemma same_kind_trans o1 o2 o3 : same_kind o1 o2 -> same_kind o2 o3 -> same_kind o1 o3.
  Proof. destruct o1, o2, o3; cbn; auto. Qed.

  Lemma post_trans bv bl bc s o s1 o1 r :
    Post bv bl bc s1 o1 r -> blocks s1 = blocks s -> cur_block s1 = cur_block s -> same_kind o o1 ->
    Post bv bl bc s o r.
  Proof.
    destruct r as [s' o'|e|]; cbn; auto. intros (HI & HB & HC & HK) E1 E2 K.
    split; [exact HI|split; [congruence|split; [congruence|exact (same_kind_trans _ _ _ K HK)]]].
  Qed.

  Lemma sink_write_kind o t o' : sink_write W wr o t = Some o' -> same_kind o o'.
  Proof.
    destruct o; cbn.
    - destruct (wr w t); [|discriminate]. intros H. injection H as <-. exact I.
    - intros H. injection H as <-. exact I.
  Qed.

  Lemma emit_spec s o t s1 o1 : emit W wr s o t = Some (s1, o1) -> same_shape s s1 /\ same_kind o o1.
  Proof.
    unfold emit. destruct (caps s) as [|c ct] eqn:E.
    - destruct (sink_write W wr o t) as [o'|] eqn:Es; [|discriminate]. intros H. injection H as <- <-.
      split; [repeat split; reflexivity|exact (sink_write_kind _ _ _ Es)].
    - intros H. injection H as <- <-. split; [|apply same_kind_refl].
      unfold same_shape. cbn. rewrite E. repeat split; reflexivity.
  Qed.

  Lemma world_tpl n t : assoc_get (w_templates wd) n = Some t -> tpl_good t.
  Proof.
    intros H. apply assoc_get_in in H. unfold world_checked in Hwd.
    apply andb_prop in Hwd. destruct Hwd as [H1 _]. rewrite forallb_forall in H1. exact (H1 _ H).
  Qed.

  Lemma world_comp n d c : assoc_get (w_components wd) n = Some (d, c) -> good c.
  Proof.
    intros H. apply assoc_get_in in H. unfold world_checked in Hwd.
    apply andb_prop in Hwd. destruct Hwd as [_ H2]. rewrite forallb_forall in H2. exact (H2 _ H).
  Qed.

  Lemma tpl_parts t : tpl_good t ->
    good (t_chunk t) /\ good (t_root_chunk t) /\
    forall b lin, assoc_get (t_lineage t) b = Some lin -> Forall good lin.
  Proof.
    unfold tpl_good, template_good. intros H. apply andb_prop in H. destruct H as [H H3].
    apply andb_prop in H. destruct H as [H1 H2]. split; [exact H1|split; [exact H2|]].
    intros b lin Hb. apply assoc_get_in in Hb. rewrite forallb_forall in H3.
    specialize (H3 _ Hb). cbn in H3. apply Forall_forall. rewrite forallb_forall in H3. exact H3.
  Qed.

  Lemma Post_own s o r : Post (stack s) (map lf_end_ip (loops s)) (length (caps s)) s o r ->
    match r with RDone s' o' => same_shape s s' /\ same_kind o o' | RFail e => ok_err e | ROutOfFuel => True end.
  Proof.
    destruct r as [s' o'|e|]; [|exact id|exact id]. intros ((PS & PL & PC) & PB & PCb & PK).
    split; [|exact PK].
    split; [exact (SI_nil_inv _ _ PS)|split; [exact (LI_nil_inv _ _ PL)|split; [exact PC|split; [exact PB|exact PCb]]]].
  Qed.

  Definition cont_ok bv bl bc (edges : list (nat * astate)) (s : state) (t : nat) (s1 : state) : Prop :=
    edge_inv bv bl bc edges t s1 /\ blocks s1 = blocks s /\ cur_block s1 = cur_block s.

  (* s matches the table at ip and `edges` are astep's there. A nested run starts on a good chunk; whatever
     state of the shape of s0 it ends in, k gives a state of the caller that may go on at S ip *)
  Definition eff_ok bv bl bc (edges : list (nat * astate)) (ip : nat) (s : state) (e : effect) : Prop :=
    match e with
    | EffPure (PNext s1) | EffEmit s1 _ => cont_ok bv bl bc edges s (S ip) s1
    | EffPure (PGoto t s1) => cont_ok bv bl bc edges s t s1
    | EffPure (PFail e) => ok_err e
    | EffCall t2 d2 c2 s0 b k =>
        tpl_good t2 /\ good c2 /\ blocks_good s0 /\
        forall s2 text, same_shape s0 s2 -> cont_ok bv bl bc edges s (S ip) (k s2 text)
    end.

  Lemma cont_next bv bl bc ip a' rest s s1 :
    Inv bv bl bc a' s1 -> blocks s1 = blocks s -> cur_block s1 = cur_block s ->
    cont_ok bv bl bc ((S ip, a') :: rest) s (S ip) s1.
  Proof.
    intros (HS & HL & HC) Eb Ec. destruct a'. split; [exact (edge_intro _ _ _ _ _ _ _ [] _ _ HS HL HC)|split; [exact Eb|exact Ec]].
  Qed.

  Lemma cont_sim bv bl bc edges s t s1 s2 : cont_ok bv bl bc edges s t s1 -> same_shape s1 s2 -> cont_ok bv bl bc edges s t s2.
  Proof.
    intros (HE & Eb & Ec) E. split; [exact (edge_sim _ _ _ _ _ _ _ HE E)|destruct E as (_ & _ & _ & E4 & E5); split; congruence].
  Qed.

  Lemma instr_effect_sound tpl ae depth ip i a edges s bv bl bc :
    tpl_good tpl -> refs_ok wd i -> astep i ip a = Some edges -> Inv bv bl bc a s -> blocks_good s ->
    eff_ok bv bl bc edges ip s (instr_effect wd tpl ae depth i s).
  Proof.
    intros HT REF A Hinv HB. unfold instr_effect. destruct (pure_step wd i s) as [r|] eqn:Hp.
    - pose proof (pure_step_sound wd i ip a edges s r bv bl bc A Hinv REF Hp) as PS.
      pose proof (pure_step_frame _ _ _ _ Hp) as F.
      destruct r as [s'|t s'|e]; [| |exact PS]; (split; [exact PS|split; apply F]).
    - destruct a as [st lo ca]. pose proof Hinv as (HS & HL & HC). cbn [a_stack a_loops a_caps] in HS, HL, HC.
      apply pure_step_none in Hp. unfold EffFail.
      destruct i; cbn [is_effect] in Hp; try discriminate Hp; cbn in A, REF; crack A; injection A as <-.
      (* RenderInlineComponent and RenderBodyComponent *)
      5-6: (popS HS Hstk kw Hkw; try popS HS Hstk body Hbody; unfold pop1; rewrite Hstk; cbv beta iota;
            destruct (is_map_kwargs _ Hkw) as (m & ->); cbn [kwargs_of];
            destruct (assoc_get (w_components wd) n) as [[def cchunk]|] eqn:Ecmp; [|congruence];
            cbn [stack upd_stack]; cbv beta iota;
            match goal with |- context [w_build_ctx wd ?d ?kk ?b] => destruct (w_build_ctx wd d kk b) as [cctx|] end;
            [|exact I]; destruct (w_max_depth wd <? S depth); [exact I|];
            split; [exact HT|split; [exact (world_comp _ _ _ Ecmp)|split; [split; [constructor|exact I]|]]];
            intros s2 text _; apply cont_next; [|reflexivity|reflexivity];
            exact (conj (SI_push _ _ _ _ TAny HS I) (conj HL HC))).
      + (* WriteText *) apply cont_next; [exact Hinv|reflexivity|reflexivity].
      + (* WriteTop *) popS HS Hstk v Hv.
        unfold pop1. rewrite Hstk. cbv beta iota. destruct (is_undefined v); [exact I|].
        apply cont_next; [exact (conj HS (conj HL HC))|reflexivity|reflexivity].
      + (* Include *)
        destruct (assoc_get (w_templates wd) n) as [t2|] eqn:Et; [|congruence].
        pose proof (world_tpl _ _ Et) as HT2. destruct (tpl_parts _ HT2) as (_ & HG2 & _).
        destruct (caps s) as [|c ct] eqn:Ec;
          (split; [exact HT2|split; [exact HG2|split; [split; [constructor|exact I]|]]]); intros s2 text _;
          apply cont_next; [exact Hinv|reflexivity|reflexivity| |reflexivity|reflexivity].
        exact (conj HS (conj HL HC)).
      + (* CallFunction: super() *)
        popS HS Hstk kw Hkw. unfold pop1. rewrite Hstk. cbv beta iota. cbn [cur_block upd_stack blocks].
        destruct (cur_block s) as [cb|] eqn:Ecb; [|exact I].
        pose proof (find_block_spec cb (blocks s) []) as FS.
        destruct HB as (HB1 & HB2). rewrite Ecb in HB2.
        destruct (find_block cb (blocks s) []) as [[[pre [[bn lin] lvl]] post]|] eqn:Ef.
        2: { exfalso. apply in_map_iff in HB2. destruct HB2 as (e & He1 & He2).
             specialize (FS e He2). unfold block_name in He1. rewrite He1, str_eqb_refl in FS. discriminate. }
        cbn [rev app] in FS.
        destruct (nth_error lin (S lvl)) as [bchunk|] eqn:En; [|exact I].
        destruct (find_block_Forall good _ _ _ _ _ _ _ Ef HB1) as (Hlin & HBl).
        split; [exact HT|split; [|split]].
        * rewrite Forall_forall in Hlin. apply Hlin. exact (nth_error_In _ _ En).
        * split; cbn [blocks cur_block upd_caps upd_blocks upd_stack]; [exact (HBl (S lvl))|].
          rewrite FS, map_app in HB2. rewrite map_app. exact HB2.
        * (* the callee hands back the stack below the kwargs and loop frames with the end_ips of those of s *)
          intros s3 text (E1 & E2 & _ & _ & E5). apply cont_next; [|symmetry; exact FS|rewrite Ecb; exact E5].
          split; [cbn [a_stack stack push upd_stack upd_caps upd_blocks]; rewrite E1; exact (SI_push _ _ _ _ TAny HS I)|].
          split; [exact (LI_sim _ _ _ _ HL E2)|exact HC].
      + (* RenderBlock: on the caller's state, its capture stack detached if the block is the captured one *)
        destruct (assoc_get (t_lineage tpl) n) as [[|bchunk lin_rest]|] eqn:El; try exact I.
        destruct (tpl_parts _ HT) as (_ & _ & HLin). specialize (HLin _ _ El).
        assert (Hbc : good bchunk) by (inversion HLin; assumption).
        cbv zeta. set (s1 := upd_blocks s ((n, bchunk :: lin_rest, 0) :: blocks s) (Some n)).
        assert (Hbg : blocks_good s1).
        { destruct HB as (HB1 & HB2). split; cbn [s1 blocks cur_block upd_blocks]; [constructor; assumption|left; reflexivity]. }
        destruct (match capture_block s with Some _ => _ | None => _ end);
          (split; [exact HT|split; [exact Hbc|split; [exact Hbg|]]]); intros s2 text (E1 & E2 & E3 & E4 & _);
          (apply cont_next; [|cbn [blocks upd_block_buffer upd_caps upd_blocks]; rewrite E4; reflexivity|reflexivity]);
          (apply (Inv_sim _ _ _ _ s); [exact E1|exact E2| |exact Hinv]); [reflexivity|exact E3].
      + (* WritePath *)
        match goal with |- context[write_path_v wd s ?pp] => destruct (write_path_v wd s pp) as [v|e] eqn:El end.
        * apply cont_next; [exact Hinv|reflexivity|reflexivity].
        * refine (write_path_ok _ _ _ _ _ El). discriminate.
  Qed.

  Section Step.
    Variable f : nat.
    (* run_sound at fuel f *)
    Hypothesis IH : forall tpl ae depth ch tbl ip a s o bv bl bc,
      tpl_good tpl -> table_ok ch tbl -> refs_resolved reg wd ch = true ->
      nth_error tbl ip = Some (Some a) -> Inv bv bl bc a s -> blocks_good s ->
      Post bv bl bc s o (run W wr wd f tpl ae depth ch ip s o).

    Lemma go tpl ae depth ch tbl edges t a' s1 o1 bv bl bc :
      tpl_good tpl -> table_ok ch tbl -> refs_resolved reg wd ch = true ->
      forallb (edge_ok tbl) edges = true -> In (t, a') edges ->
      Inv bv bl bc a' s1 -> blocks_good s1 ->
      Post bv bl bc s1 o1 (run W wr wd f tpl ae depth ch t s1 o1).
    Proof.
      intros HT HK HR HE HI Hinv HB.
      rewrite forallb_forall in HE. specialize (HE _ HI). unfold edge_ok in HE. cbn [fst snd] in HE.
      destruct (nth_error tbl t) as [[b|]|] eqn:E; try discriminate.
      exact (IH tpl ae depth ch tbl t b s1 o1 bv bl bc HT HK HR E (Inv_sub _ _ _ _ _ _ HE Hinv) HB).
    Qed.

    Lemma run_table tpl ae depth c tbl s o :
      tpl_good tpl -> check_table c a_empty tbl = true -> refs_resolved reg wd c = true -> blocks_good s ->
      Post (stack s) (map lf_end_ip (loops s)) (length (caps s)) s o (run W wr wd f tpl ae depth c 0 s o).
    Proof.
      intros HT HC HR HB. destruct (check_table_spec _ _ _ HC) as (H1 & (a & E & Hs) & H3 & H4).
      apply (IH tpl ae depth c _ 0 a s o _ _ _ HT (conj H1 (conj H3 H4)) HR E); [|exact HB].
      apply (Inv_sub _ _ _ a_empty a s Hs). split; [apply SI_nil|split; [apply LI_base|reflexivity]].
    Qed.

    Lemma run_chunk tpl ae depth c s o :
      tpl_good tpl -> good c -> blocks_good s ->
      Post (stack s) (map lf_end_ip (loops s)) (length (caps s)) s o (run W wr wd f tpl ae depth c 0 s o).
    Proof. intros HT HG HB. apply andb_prop in HG. exact (run_table tpl ae depth c _ s o HT (proj1 HG) (proj2 HG) HB). Qed.

    Lemma perform_sound tpl ae depth ch tbl edges ip s o bv bl bc e :
      tpl_good tpl -> table_ok ch tbl -> refs_resolved reg wd ch = true ->
      forallb (edge_ok tbl) edges = true -> blocks_good s -> eff_ok bv bl bc edges ip s e ->
      Post bv bl bc s o (perform W wr (fun t d c => run W wr wd f t ae d c) tpl depth ch ip o e).
    Proof.
      intros HT HK HR HE HB.
      (* how every case ends: the run continues at the target of an edge of astep *)
      assert (GO : forall t s1 o1, cont_ok bv bl bc edges s t s1 -> same_kind o o1 ->
                     Post bv bl bc s o (run W wr wd f tpl ae depth ch t s1 o1)).
      { intros t s1 o1 ((a' & Hin & Hinv') & Eb & Ec) Hk.
        assert (HB1 : blocks_good s1) by (unfold blocks_good; rewrite Eb, Ec; exact HB).
        exact (post_trans _ _ _ _ _ _ _ _
                 (go tpl ae depth ch tbl edges t a' s1 o1 bv bl bc HT HK HR HE Hin Hinv' HB1) Eb Ec Hk). }
      destruct e as [[s1|t s1|e]|s1 t|t2 d2 c2 s0 b k]; cbn [perform eff_ok].
      - intros H. exact (GO _ _ _ H (same_kind_refl o)).
      - intros H. exact (GO _ _ _ H (same_kind_refl o)).
      - exact id.
      - intros H. destruct (emit W wr s1 o t) as [[s2 o2]|] eqn:Ee; [|exact I].
        destruct (emit_spec _ _ _ _ _ Ee) as (E1 & E2). exact (GO _ _ _ (cont_sim _ _ _ _ _ _ _ _ H E1) E2).
      - intros (HT2 & HG & HB0 & Hk).
        pose proof (Post_own _ _ _ (run_chunk t2 ae d2 c2 s0 (call_sink W o b) HT2 HG HB0)) as P.
        destruct (run W wr wd f t2 ae d2 c2 0 s0 (call_sink W o b)) as [s2 o2|e|]; [|exact P|exact I].
        destruct P as (P & K). destruct b as [b|]; [destruct o2 as [w|text]; [destruct K|]|].
        + exact (GO _ _ _ (Hk s2 text P) (same_kind_refl o)).
        + exact (GO _ _ _ (Hk s2 [] P) K).
    Qed.

    Lemma step tpl ae depth ch tbl ip a s o bv bl bc :
      tpl_good tpl -> table_ok ch tbl -> refs_resolved reg wd ch = true ->
      nth_error tbl ip = Some (Some a) -> Inv bv bl bc a s -> blocks_good s ->
      Post bv bl bc s o (run W wr wd (S f) tpl ae depth ch ip s o).
    Proof.
      intros HT HK HR E Hinv HB.
      rewrite run_step. destruct (nth_error ch ip) as [i|] eqn:N.
      2: { assert (ip = length ch) as ->.
           { destruct HK as (HL & _). apply nth_error_None in N.
             assert (ip < length tbl) by (apply nth_error_Some; congruence). lia. }
           destruct HK as (_ & _ & HX). specialize (HX a E).
           split; [exact (Inv_sub _ _ _ _ _ _ HX Hinv)|split; [reflexivity|split; [reflexivity|apply same_kind_refl]]]. }
      pose proof (proj1 (proj2 HK) ip i N) as HI. unfold instr_ok in HI. rewrite E in HI.
      destruct (astep i ip a) as [edges|] eqn:A; [|discriminate].
      exact (perform_sound tpl ae depth ch tbl edges ip s o bv bl bc _ HT HK HR HI HB
               (instr_effect_sound tpl ae depth ip i a edges s bv bl bc HT
                  (refs_collected wd reg Hreg ch HR ip i N) A Hinv HB)).
    Qed.
  End Step.

  Theorem run_sound : forall fuel tpl ae depth ch tbl ip a s o bv bl bc,
    tpl_good tpl -> table_ok ch tbl -> refs_resolved reg wd ch = true ->
    nth_error tbl ip = Some (Some a) -> Inv bv bl bc a s -> blocks_good s ->
    Post bv bl bc s o (run W wr wd fuel tpl ae depth ch ip s o).
  Proof.
    induction fuel as [|f IH]; intros; [exact I|]. eapply (step f IH); eassumption.
  Qed.

  Definition no_panic (e : errc) : Prop := e <> ErrPanic /\ e <> ErrOther.

  Lemma ok_err_no_panic e : ok_err e -> no_panic e.
  Proof. destruct e; cbn; intros H; try destruct H; split; discriminate. Qed.

  Definition balanced (s : state) (r : rres W) : Prop :=
    match r with RFail e => no_panic e | ROutOfFuel => True | RDone s' _ => same_shape s s' end.

  Lemma Post_balanced s o r : Post (stack s) (map lf_end_ip (loops s)) (length (caps s)) s o r -> balanced s r.
  Proof. intros P. apply Post_own in P. destruct r as [s' o'|e|]; [exact (proj1 P)|exact (ok_err_no_panic e P)|exact I]. Qed.

  (* on any State, whatever is already on its stacks *)
  Theorem chunk_sound : forall fuel tpl ae depth c s o,
    tpl_good tpl -> good c -> blocks_good s ->
    balanced s (run W wr wd fuel tpl ae depth c 0 s o).
  Proof.
    intros fuel tpl ae depth c s o HT HG HB.
    exact (Post_balanced _ _ _ (run_chunk fuel (run_sound fuel) tpl ae depth c s o HT HG HB)).
  Qed.

  (* any table check_table accepts will do (infer is only one way to find it) *)
  Theorem table_sound : forall fuel tpl ae depth c tbl s o,
    tpl_good tpl -> check_table c a_empty tbl = true -> refs_resolved reg wd c = true -> blocks_good s ->
    balanced s (run W wr wd fuel tpl ae depth c 0 s o).
  Proof.
    intros fuel tpl ae depth c tbl s o HT HC HR HB.
    exact (Post_balanced _ _ _ (run_table fuel (run_sound fuel) tpl ae depth c tbl s o HT HC HR HB)).
  Qed.

  Theorem check_chunk_sound : forall fuel tpl ae depth c s o,
    tpl_good tpl -> check_chunk c = true -> refs_resolved reg wd c = true -> blocks_good s ->
    match run W wr wd fuel tpl ae depth c 0 s o with
    | RFail e => no_panic e
    | ROutOfFuel => True
    | RDone s' o' =>
        stack s' = stack s /\ map lf_end_ip (loops s') = map lf_end_ip (loops s) /\
        length (caps s') = length (caps s) /\ blocks s' = blocks s /\ cur_block s' = cur_block s
    end.
  Proof. intros fuel tpl ae depth c. exact (table_sound fuel tpl ae depth c (infer c a_empty)). Qed.

  Lemma balanced_empty s (r : rres W) : stack s = [] -> loops s = [] -> caps s = [] -> balanced s r ->
    match r with RFail e => no_panic e | ROutOfFuel => True
            | RDone s' _ => stack s' = [] /\ loops s' = [] /\ caps s' = [] end.
  Proof.
    intros E1 E2 E3. destruct r as [s' o'|e|]; [|exact id|exact id]. unfold balanced, same_shape. rewrite E1, E2, E3. intros (P1 & P2 & P3 & _).
    split; [exact P1|split; [exact (map_eq_nil _ _ P2)|exact (proj1 (length_zero_iff_nil _) P3)]].
  Qed.

  (* VirtualMachine::render_to, whole template or one block *)
  Theorem render_sound : forall fuel tpl block c g w,
    tpl_good tpl ->
    match render_to W wr wd fuel tpl block c g w with
    | RFail e => no_panic e
    | ROutOfFuel => True
    | RDone s' _ => stack s' = [] /\ loops s' = [] /\ caps s' = []
    end.
  Proof.
    intros fuel tpl block c g w HT. destruct (tpl_parts _ HT) as (_ & HG & _).
    unfold render_to.
    match goal with |- context[run W wr wd fuel tpl None 0 (t_root_chunk tpl) 0 ?s0 _] => set (st0 := s0) end.
    assert (HB : blocks_good st0) by (split; [constructor|exact I]).
    pose proof (fun o => balanced_empty st0 _ eq_refl eq_refl eq_refl
                           (chunk_sound fuel tpl None 0 (t_root_chunk tpl) st0 o HT HG HB)) as P.
    destruct block as [b|]; [|exact (P _)]. specialize (P (SinkBuf [])).
    destruct (run W wr wd fuel tpl None 0 (t_root_chunk tpl) 0 st0 (SinkBuf [])) as [s1 o1|e|]; [|exact P|exact I].
    destruct (wr w (block_buffer s1)); [exact P|split; discriminate].
  Qed.

  (* Tera::render_component_to: a component chunk on a fresh State *)
  Theorem component_sound : forall fuel tpl ae name def cchunk cctx w,
    tpl_good tpl -> assoc_get (w_components wd) name = Some (def, cchunk) ->
    match run W wr wd fuel tpl ae 0 cchunk 0 (new_state cctx) (SinkTop w) with
    | RFail e => no_panic e
    | ROutOfFuel => True
    | RDone s' _ => stack s' = [] /\ loops s' = [] /\ caps s' = []
    end.
  Proof.
    intros fuel tpl ae name def cchunk cctx w HT Hc.
    assert (HB : blocks_good (new_state cctx)) by (split; [constructor|exact I]).
    exact (balanced_empty (new_state cctx) _ eq_refl eq_refl eq_refl
             (chunk_sound fuel tpl ae 0 cchunk (new_state cctx) (SinkTop w) HT (world_comp _ _ _ Hc) HB)).
  Qed.
End Sound.
