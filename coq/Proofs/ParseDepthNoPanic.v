(* C06 — the `unreachable!` arm of parse_until_inner (parser.rs:1699, RPanic in
   Model/ParseDepth.v) is dead on every token stream in which each Content / VariableEnd / TagEnd
   token is followed by the end of the stream or by a template-level token (Content,
   VariableStart, TagStart, or the lexer's error item).  The lexer's streams have that shape, its
   state being Template after each of the three; here that is an assumption about the lexer
   (`lexer_shaped` is written by hand over the skeleton alphabet, nothing derives it from
   Model/Lexer.v).  On arbitrary token lists the arm IS reachable ([TAtom]), see Props/C06.v. *)
From Coq Require Import List Arith Bool ZArith Lia.
From TeraV Require Import Model.ParseDepth Proofs.ParseDepthEqs.
Import ListNotations.
Local Open Scope nat_scope.

Definition tpl_tok (t : tok) : bool :=
  match t with TText | TVarStart | TTagStart | TLexErr => true | _ => false end.
Definition headok (ts : list tok) : bool := match ts with [] => true | t :: _ => tpl_tok t end.
Definition closes (t : tok) : bool := match t with TText | TVarEnd | TTagEnd => true | _ => false end.
Fixpoint cok (ts : list tok) : bool :=
  match ts with
  | [] => true
  | TLexErr :: _ => true
  | t :: r => (if closes t then headok r else true) && cok r
  end.

Lemma cok_tail : forall t r, cok (t :: r) = true -> t <> TLexErr -> cok r = true.
Proof. intros t r H Hn. destruct t; cbn in H; try congruence; apply andb_prop in H; tauto. Qed.
Lemma cok_closer : forall t r, cok (t :: r) = true -> closes t = true -> headok r = true /\ cok r = true.
Proof. intros t r H Hc. destruct t; cbn in Hc; try discriminate; cbn in H; apply andb_prop in H; tauto. Qed.
Lemma tok_eqb_closer : forall c t, closes c = true -> tok_eqb c t = true -> t = c.
Proof. intros c t Hc He. destruct c; cbn in Hc; try discriminate; destruct t; cbn in He; try discriminate; reflexivity. Qed.

Definition outc {A} (Q : list tok -> Prop) (r : res A) : Prop :=
  match r with ROk _ s' => Q (toks s') | RPanic _ => False | _ => True end.
Definition Qx (h : bool) (ts : list tok) : Prop := cok ts = true /\ (h = true -> headok ts = true).

(* npx h h' m: from a stream that satisfies cok (and, if h, starts at template level), m does not
   panic and leaves such a stream (which, if h', starts at template level again).  Both flags are
   false but for parse_until and its loop, which looks at a token at template level (h), and
   set_filters_loop, which ends with the TagEnd in front of the statement list its caller parses (h'). *)
Definition npx {A} (h h' : bool) (m : M A) : Prop := forall s, Qx h (toks s) -> outc (Qx h') (m s).

Lemma Qx_weaken : forall h ts, Qx h ts -> Qx false ts.
Proof. intros h ts [H _]. split; [exact H | discriminate]. Qed.
Lemma npx_weaken : forall A h h' (m : M A), npx false h' m -> npx h h' m.
Proof. intros A h h' m H s Hq. apply H, (Qx_weaken h), Hq. Qed.

Lemma np_ret : forall A h (a : A), npx h h (ret a). Proof. intros A h a s H. exact H. Qed.
Lemma np_err : forall A h h', npx h h' (@err A). Proof. intros A h h' s H. exact I. Qed.

Lemma np_bind : forall A B h h1 h' (m : M A) (k : A -> M B),
  npx h h1 m -> (forall a, npx h1 h' (k a)) -> npx h h' (bind m k).
Proof.
  intros A B h h1 h' m k Hm Hk s Hc. unfold bind. specialize (Hm s Hc).
  destruct (m s) as [a s1| | |]; cbn in *; auto. apply Hk. exact Hm.
Qed.

Lemma np_silent : forall A h (m : M A), silent m -> npx h h m.
Proof.
  intros A h m Hm s Hc. specialize (Hm s). destruct (m s); [|contradiction ..].
  destruct Hm as [E _]. cbn. rewrite E. exact Hc.
Qed.
Lemma np_bump : forall C h, npx h h (bump C).
Proof. intros C h s Hc. unfold bump. destruct (c_expr_limit C) as [l|]; [destruct (l <? S (ht s))|]; cbn; auto. Qed.

Lemma np_next : npx false false next_or_error.
Proof.
  intros s [Hc _]. unfold next_or_error. destruct (toks s) as [|t r] eqn:Ht; [exact I|].
  assert (Hr : t <> TLexErr -> Qx false r) by (split; [apply (cok_tail t); assumption | discriminate]).
  destruct t; cbn; try exact I; apply Hr; discriminate.
Qed.
Lemma np_expect : forall p, npx false false (expect p).
Proof.
  intro p. unfold expect. apply (np_bind _ _ _ false); [apply np_next|].
  intro t. destruct (p t); [apply np_ret | apply np_err].
Qed.
Lemma np_expect_ident : npx false false expect_ident.
Proof.
  unfold expect_ident. apply (np_bind _ _ _ false); [apply np_next|].
  intro t. destruct t; try apply np_err. apply np_ret.
Qed.

Lemma np_closer : forall c, closes c = true -> npx false true (expect_tok c).
Proof.
  intros c Hcl s [Hc _]. unfold expect_tok, expect, bind, next_or_error.
  destruct (toks s) as [|t r] eqn:Ht; [exact I|].
  assert (Hgo : t <> TLexErr -> outc (Qx true) ((if tok_eqb c t then ret t else err) (set_toks r s))).
  { intro Hn. destruct (tok_eqb c t) eqn:He; [|exact I].
    apply tok_eqb_closer in He; [|exact Hcl]. subst t.
    destruct (cok_closer _ _ Hc Hcl) as [Hh Hr]. split; auto. }
  destruct t; try (apply Hgo; discriminate). exact I.
Qed.

Lemma np_call : forall A h h' (m : M A), npx h h' m -> npx h h' (call m).
Proof. intros A h h' m H s Hc. unfold call. specialize (H (enter s) Hc). destruct (m (enter s)); cbn in *; auto. Qed.
Lemma np_sub_height : forall A h h' (m : M A), npx h h' m -> npx h h' (sub_height m).
Proof.
  intros A h h' m H s Hc. unfold sub_height. specialize (H (set_ht 0 s) Hc). destruct (m (set_ht 0 s)); cbn in *; auto.
Qed.

Section NoPanic.
Variable C : cfg.

Lemma np_counted : forall A h h' (m : M A), npx h h' m -> npx h h' (counted C m).
Proof.
  intros A h h' m H s Hc. unfold counted. destruct (c_max_rd C <? rd (set_rd (S (rd s)) s)); [exact I|].
  specialize (H (set_rd (S (rd s)) s) Hc). destruct (m (set_rd (S (rd s)) s)); cbn in *; auto.
Qed.
Lemma np_elif_counted : forall A h h' (m : M A), npx h h' m -> npx h h' (elif_counted C m).
Proof.
  intros A h h' m H s Hc. unfold elif_counted.
  destruct (match c_elif_limit C with Some lim => lim <? el (set_el (S (el s)) s) | None => false end); [exact I|].
  specialize (H (set_el (S (el s)) s) Hc). destruct (m (set_el (S (el s)) s)); cbn in *; auto.
Qed.

Definition hin (c : comp) : bool := match c with C_parse_until _ | C_until_loop _ _ => true | _ => false end.
Definition hout (c : comp) : bool := match c with C_set_filters_loop _ => true | _ => false end.

(* the rest of a body from a point where the stream is at template level: the statement loop and
   parse_until need that, a push_ctx on the way to them keeps it, anything else goes without *)
Ltac at_head IH :=
  lazymatch goal with
  | |- npx true false (?R (C_until_loop ?e ?a)) => apply (IH (C_until_loop e a))
  | |- npx true false (call (?R (C_parse_until ?e))) => apply np_call, (IH (C_parse_until e))
  | |- npx true false (bind (call (?R (C_parse_until ?e))) _) =>
      apply (np_bind _ _ _ false); [apply np_call, (IH (C_parse_until e)) | intro]
  | |- npx true false (bind (push_ctx _) _) =>
      apply (np_bind _ _ _ true); [apply np_silent; silent_prim | intro; at_head IH]
  | |- npx true false _ => apply npx_weaken
  end.

Ltac nstep :=
  lazymatch goal with
  | IH : forall c, npx (hin c) (hout c) (?R c) |- npx false false ?m =>
    lazymatch m with
    | ret _ => apply np_ret
    | err => apply np_err
    | expect_ident => apply np_expect_ident
    | next_or_error => apply np_next
    | bump _ => apply np_bump
    | bind (expect_tok ?c) _ =>
        lazymatch eval cbv in (closes c) with
        | true => apply (np_bind _ _ _ true); [apply np_closer; reflexivity | intro; at_head IH]
        | false => apply (np_bind _ _ _ false); [|intro]
        end
    | bind (R (C_set_filters_loop ?a)) _ =>
        apply (np_bind _ _ _ true); [apply (IH (C_set_filters_loop a)) | intro; at_head IH]
    | expect_tok _ => apply np_expect
    | bind _ _ => apply (np_bind _ _ _ false); [|intro]
    | counted _ _ => apply np_counted
    | sub_height _ => apply np_sub_height
    | elif_counted _ _ => apply np_elif_counted
    (* on a token already taken apart: the table decides, not both arms for each of bp_loop's 41 tokens *)
    | match binop_of _ with _ => _ end => cbn [binop_of]
    | match ?x with _ => _ end => destruct x
    | if ?x then _ else _ => destruct x
    | call (R ?c) => apply np_call, (IH c)
    | R ?c => apply (IH c)
    | _ => apply np_silent; silent_prim
    end
  end.

Lemma all_np : forall f c, npx (hin c) (hout c) (run C f c).
Proof.
  apply (block_ind C (fun c => npx (hin c) (hout c))); [intros c s _; exact I|].
  intros R IH c. destruct c; cbn [body hin hout rty]; cbv zeta; try solve [repeat nstep].
  - (* parse_until *) apply np_counted, np_call, (IH (C_until_loop endp [])).
  - (* until_loop, the only place that looks at a token at template level.  Behind Content the
       stream is there again; every other branch is run from the state as it is and needs no more
       of it than cok *)
    intros s Hs.
    assert (Hnp : forall m : M (list tree), npx false false m -> outc (Qx false) (m s))
      by (intros m Hm; apply Hm, (Qx_weaken true), Hs).
    destruct Hs as [Hc Hh]. specialize (Hh eq_refl). unfold bind at 1. unfold peek at 1.
    destruct (toks s) as [|t r] eqn:Ht; cbn [hd_error]; [apply Hnp; repeat nstep|].
    destruct t; try discriminate Hh; [ | apply Hnp; repeat nstep ..].
    unfold bind at 1. unfold next_or_error at 1. rewrite Ht.
    destruct (cok_closer _ _ Hc eq_refl) as [Hh' Hr'].
    apply (IH (C_until_loop _ _)). split; auto.
  - (* set_filters_loop *)
    apply (np_bind _ _ _ false); [apply np_silent, silent_next_is|]. intro p. destruct p.
    + apply (np_bind _ _ _ false); [apply np_expect|]. intro.
      apply (np_bind _ _ _ false); [apply np_call, (IH (C_parse_filter _))|]. intro. apply (IH (C_set_filters_loop _)).
    + apply (np_bind _ _ _ true); [apply np_closer; reflexivity | intro; apply np_ret].
Qed.

Theorem parse_never_panics : forall fuel ts,
  cok ts = true -> headok ts = true ->
  match parse C fuel ts with RPanic _ => False | _ => True end.
Proof.
  intros fuel ts Hc Hh. unfold parse.
  assert (H : npx true false (call (call (parse_until C fuel (fun _ => false))))).
  { apply np_call, np_call, (all_np fuel (C_parse_until _)). }
  specialize (H (init ts) (conj Hc (fun _ => Hh))).
  destruct (call (call (parse_until C fuel (fun _ => false))) (init ts)); cbn in *; auto.
Qed.

End NoPanic.

(* the shape basic_tokenize + whitespace_filter give their output, written down from lexer.rs:
   template-level tokens in the Template state, anything else inside {{ }} / {% %}, each closed by
   its own end token; the stream may stop anywhere and ends at the first error item *)
Inductive lmode := MT | MI (tag : bool).
Definition inside_tok (t : tok) : bool :=
  match t with TText | TVarStart | TVarEnd | TTagStart | TTagEnd | TLexErr => false | _ => true end.
Fixpoint lexer_shaped (m : lmode) (ts : list tok) : bool :=
  match ts with
  | [] => true
  | t :: r =>
    match t with
    | TLexErr => true
    | TText => match m with MT => lexer_shaped MT r | _ => false end
    | TVarStart => match m with MT => lexer_shaped (MI false) r | _ => false end
    | TTagStart => match m with MT => lexer_shaped (MI true) r | _ => false end
    | TVarEnd => match m with MI false => lexer_shaped MT r | _ => false end
    | TTagEnd => match m with MI true => lexer_shaped MT r | _ => false end
    | _ => match m with MI b => lexer_shaped (MI b) r | MT => false end
    end
  end.

Lemma shaped_headok : forall ts, lexer_shaped MT ts = true -> headok ts = true.
Proof. intros [|t r] H; [reflexivity|]. destruct t; cbn in *; congruence. Qed.

Lemma shaped_cok : forall ts m, lexer_shaped m ts = true -> cok ts = true.
Proof.
  induction ts as [|t r IH]; intros m H; [reflexivity|].
  destruct t; cbn [lexer_shaped] in H; cbn [cok closes]; try reflexivity;
    destruct m as [|[|]]; try discriminate H;
    try (rewrite (IH _ H); try rewrite (shaped_headok _ H); reflexivity).
Qed.
