(* Algebra of the White_Space trimming functions of Model/Utf8Lex.v on
   arbitrary byte lists: idempotence, commutation, prefix/suffix shape, and that what they remove
   is White_Space (the byte patterns against the 25 code points by a sweep, `all_bits`).  Also
   `bytes_eqb` as an equivalence. *)
From Coq Require Import Arith.
From TeraV Require Import Model.Utf8Lex.
Local Open Scope N_scope.

Lemma bytes_eqb_spec : forall a b, reflect (a = b) (bytes_eqb a b).
Proof.
  induction a as [|x a IH]; intros [|y b]; cbn; try (constructor; congruence).
  destruct (N.eqb_spec x y) as [->|D]; [|constructor; congruence].
  destruct (IH b) as [->|D]; constructor; congruence.
Qed.

Lemma bytes_eqb_eq : forall a b, bytes_eqb a b = true <-> a = b.
Proof. intros a b. symmetry. apply reflect_iff, bytes_eqb_spec. Qed.

Lemma bytes_eqb_refl : forall a, bytes_eqb a a = true.
Proof. intro a. now apply bytes_eqb_eq. Qed.

Lemma bytes_eqb_neq : forall a b, bytes_eqb a b = false <-> a <> b.
Proof. intros a b. destruct (bytes_eqb_spec a b); split; congruence. Qed.

Lemma ws_strip_some : forall s p r, ws_strip s = Some (p, r) ->
  s = p ++ r /\ p <> [] /\ forall x, ws_strip (p ++ x) = Some (p, x).
Proof.
  intros s p r H. unfold ws_strip in H.
  destruct s as [|b1 t1]; [discriminate|].
  destruct (is_ws1 b1) eqn:E1.
  { injection H as <- <-. cbn. rewrite E1. now repeat split. }
  destruct t1 as [|b2 t2]; [discriminate|].
  destruct (is_ws2 b1 b2) eqn:E2.
  { injection H as <- <-. cbn. rewrite E1, E2. now repeat split. }
  destruct t2 as [|b3 t3]; [discriminate|].
  destruct (is_ws3 b1 b2 b3) eqn:E3; [|discriminate].
  injection H as <- <-. cbn. rewrite E1, E2, E3. now repeat split.
Qed.

Lemma ws_strip_none_prefix : forall a b, ws_strip (a ++ b) = None -> ws_strip a = None.
Proof.
  intros a b H. destruct (ws_strip a) as [[p r]|] eqn:E; [|reflexivity].
  apply ws_strip_some in E as (-> & _ & Hp). now rewrite <- app_assoc, Hp in H.
Qed.

Lemma ws_strip_self : forall p, (forall x, ws_strip (p ++ x) = Some (p, x)) -> ws_strip p = Some (p, []).
Proof. intros p Hp. specialize (Hp []). now rewrite app_nil_r in Hp. Qed.

Lemma trim_start_eq : forall s,
  trim_start s = match ws_strip s with Some (_, r) => trim_start r | None => s end.
Proof.
  intros [|b1 [|b2 [|b3 t3]]]; cbn; try reflexivity.
  - destruct (is_ws1 b1); reflexivity.
  - destruct (is_ws1 b1); [reflexivity|]. destruct (is_ws2 b1 b2); reflexivity.
  - destruct (is_ws1 b1); [reflexivity|]. destruct (is_ws2 b1 b2); [reflexivity|].
    destruct (is_ws3 b1 b2 b3); reflexivity.
Qed.

Lemma trim_end_eq : forall s,
  trim_end s = match ws_strip s with
               | Some (p, r) => keep_if_more p (trim_end r)
               | None => match s with [] => [] | b :: t => b :: trim_end t end
               end.
Proof.
  intros [|b1 [|b2 [|b3 t3]]]; cbn; try reflexivity.
  - destruct (is_ws1 b1); reflexivity.
  - destruct (is_ws1 b1); [reflexivity|]. destruct (is_ws2 b1 b2); reflexivity.
  - destruct (is_ws1 b1); [reflexivity|]. destruct (is_ws2 b1 b2); [reflexivity|].
    destruct (is_ws3 b1 b2 b3); reflexivity.
Qed.

(* a byte list as a sequence of steps: an encoded White_Space character p, or a byte at which
   ws_strip finds none *)
Lemma ws_ind : forall P : bytes -> Prop,
  P [] ->
  (forall p r, (forall x, ws_strip (p ++ x) = Some (p, x)) -> P r -> P (p ++ r)) ->
  (forall b t, ws_strip (b :: t) = None -> P t -> P (b :: t)) ->
  forall s, P s.
Proof.
  intros P Hnil Hws Hbyte s.
  induction s as [s IH] using (induction_ltof1 _ (@length N)). unfold ltof in IH.
  destruct (ws_strip s) as [[p r]|] eqn:E.
  - apply ws_strip_some in E as (-> & Np & Hp). apply (Hws p r Hp), IH.
    rewrite app_length. destruct p; [contradiction|cbn; lia].
  - destruct s as [|b t]; [exact Hnil|]. apply (Hbyte b t E), IH. cbn; lia.
Qed.

Section Steps.
Variable p : bytes.
Hypothesis Hp : forall x, ws_strip (p ++ x) = Some (p, x).

Lemma trim_start_ws : forall r, trim_start (p ++ r) = trim_start r.
Proof. intro r. now rewrite trim_start_eq, Hp. Qed.

Lemma trim_end_ws : forall r, trim_end (p ++ r) = keep_if_more p (trim_end r).
Proof. intro r. now rewrite trim_end_eq, Hp. Qed.

Lemma trim_start_keep : forall y, trim_start (keep_if_more p y) = trim_start y.
Proof. intros [|c y]; [reflexivity|]. apply trim_start_ws. Qed.

Lemma trim_end_keep : forall y, trim_end (keep_if_more p y) = keep_if_more p (trim_end y).
Proof. intros [|c y]; [reflexivity|]. apply trim_end_ws. Qed.
End Steps.

Lemma trim_start_fix : forall s, ws_strip s = None -> trim_start s = s.
Proof. intros s H. rewrite trim_start_eq, H. reflexivity. Qed.

Lemma trim_end_byte : forall b t, ws_strip (b :: t) = None -> trim_end (b :: t) = b :: trim_end t.
Proof. intros b t H. rewrite trim_end_eq, H. reflexivity. Qed.

Inductive ws_run : bytes -> Prop :=
| ws_run_nil : ws_run []
| ws_run_cons : forall p w, ws_strip p = Some (p, []) -> ws_run w -> ws_run (p ++ w).

Lemma trim_start_removes_ws : forall s, exists w, ws_run w /\ s = w ++ trim_start s.
Proof.
  induction s as [|p r Hp [w [Hw Hr]]|b t E _] using ws_ind.
  - exists []. split; [constructor|reflexivity].
  - exists (p ++ w). split; [apply ws_run_cons; [apply ws_strip_self, Hp|exact Hw]|].
    now rewrite (trim_start_ws p Hp), <- app_assoc, <- Hr.
  - exists []. split; [constructor|]. now rewrite (trim_start_fix _ E).
Qed.

Lemma trim_end_removes_ws : forall s, exists w, ws_run w /\ s = trim_end s ++ w.
Proof.
  induction s as [|p r Hp [w [Hw Hr]]|b t E [w [Hw Ht]]] using ws_ind.
  - exists []. split; [constructor|reflexivity].
  - rewrite (trim_end_ws p Hp). unfold keep_if_more. destruct (trim_end r) as [|c tr].
    + exists (p ++ w). split; [apply ws_run_cons; [apply ws_strip_self, Hp|exact Hw]|]. now rewrite Hr.
    + exists w. split; [exact Hw|]. now rewrite <- app_assoc, <- Hr.
  - exists w. split; [exact Hw|]. now rewrite (trim_end_byte _ _ E), <- app_comm_cons, <- Ht.
Qed.

Lemma trim_end_prefix : forall s, exists x, s = trim_end s ++ x.
Proof. intro s. destruct (trim_end_removes_ws s) as [w [_ H]]. now exists w. Qed.

Lemma trim_start_suffix : forall s, exists x, s = x ++ trim_start s.
Proof. intro s. destruct (trim_start_removes_ws s) as [w [_ H]]. now exists w. Qed.

Lemma trim_start_no_ws : forall s, ws_strip (trim_start s) = None.
Proof.
  induction s as [|p r Hp IH|b t E _] using ws_ind.
  - reflexivity.
  - now rewrite (trim_start_ws p Hp).
  - now rewrite (trim_start_fix _ E).
Qed.

Lemma ws_strip_trim_end : forall b t, ws_strip (b :: t) = None -> ws_strip (b :: trim_end t) = None.
Proof.
  intros b t E. destruct (trim_end_prefix t) as [x Hx].
  apply (ws_strip_none_prefix _ x). now rewrite <- app_comm_cons, <- Hx.
Qed.

Lemma trim_start_idem : forall s, trim_start (trim_start s) = trim_start s.
Proof. intro s. apply trim_start_fix, trim_start_no_ws. Qed.

Lemma trim_end_idem : forall s, trim_end (trim_end s) = trim_end s.
Proof.
  induction s as [|p r Hp IH|b t E IH] using ws_ind.
  - reflexivity.
  - now rewrite (trim_end_ws p Hp), (trim_end_keep p Hp), IH.
  - now rewrite (trim_end_byte _ _ E), (trim_end_byte _ _ (ws_strip_trim_end _ _ E)), IH.
Qed.

Lemma trim_start_end_comm : forall s, trim_start (trim_end s) = trim_end (trim_start s).
Proof.
  induction s as [|p r Hp IH|b t E _] using ws_ind.
  - reflexivity.
  - now rewrite (trim_end_ws p Hp), (trim_start_keep p Hp), (trim_start_ws p Hp).
  - rewrite (trim_start_fix _ E), (trim_end_byte _ _ E). apply trim_start_fix, ws_strip_trim_end, E.
Qed.

Lemma trim_nil_l : trim_start [] = []. Proof. reflexivity. Qed.
Lemma trim_nil_r : trim_end [] = []. Proof. reflexivity. Qed.

(* P on every number of at most n bits, by binary digits: no unary numeral is built *)
Fixpoint all_bits (n : nat) (P : N -> bool) : bool :=
  match n with
  | O => P 0
  | S n' => all_bits n' (fun x => P (N.double x)) && all_bits n' (fun x => P (N.succ_double x))
  end.

Lemma all_bits_sound : forall n P, all_bits n P = true -> forall x, x < 2 ^ N.of_nat n -> P x = true.
Proof.
  induction n as [|n IH]; intros P H x Hx.
  - cbn in Hx. assert (x = 0) by lia. subst x. exact H.
  - cbn [all_bits] in H. apply andb_prop in H as [H0 H1].
    rewrite Nat2N.inj_succ, N.pow_succ_r' in Hx.
    destruct x as [|[p|p|]].
    + apply (IH _ H0 0). lia.
    + apply (IH _ H1 (N.pos p)). lia.
    + apply (IH _ H0 (N.pos p)). lia.
    + apply (IH _ H1 0). lia.
Qed.

(* utf8_encode_cp with shifts and masks for its divisions.  The sweep below runs over this form
   because coqchk evaluates it again on its lazy machine, where N.div is the dear part *)
Definition enc_shift (cp : N) : bytes :=
  if cp <? 0x80 then [cp]
  else if cp <? 0x800 then [0xC0 + N.shiftr cp 6; 0x80 + N.land cp (N.ones 6)]
  else if cp <? 0x10000 then
    [0xE0 + N.shiftr cp 12; 0x80 + N.land (N.shiftr cp 6) (N.ones 6); 0x80 + N.land cp (N.ones 6)]
  else [0xF0 + N.shiftr cp 18; 0x80 + N.land (N.shiftr cp 12) (N.ones 6);
        0x80 + N.land (N.shiftr cp 6) (N.ones 6); 0x80 + N.land cp (N.ones 6)].

Lemma enc_shift_eq : forall cp, utf8_encode_cp cp = enc_shift cp.
Proof.
  intro cp. unfold utf8_encode_cp, enc_shift. rewrite !N.shiftr_div_pow2, !N.land_ones. reflexivity.
Qed.

Lemma ws_patterns_are_white_space : forall cp, (cp <? 0x3100) = true ->
  is_ws_cp cp = match ws_strip (utf8_encode_cp cp) with Some (_, []) => true | _ => false end.
Proof.
  intros cp H. rewrite enc_shift_eq. apply Bool.eqb_prop.
  pose (P := fun cp => negb (cp <? 0x3100) || Bool.eqb (is_ws_cp cp)
      (match ws_strip (enc_shift cp) with Some (_, []) => true | _ => false end)).
  assert (G : P cp = true).
  { apply (all_bits_sound 14); [vm_compute; reflexivity|].
    apply N.ltb_lt in H. change (2 ^ N.of_nat 14) with 16384. lia. }
  unfold P in G. rewrite H in G. exact G.
Qed.
