(* Proofs for C10 and C11 about Model/Registry.v against Spec/Graph.v.  C10: the registration calls as a
   state machine whose invariant is `canonical`.  C11: the cycle walk over any finite graph and its two
   instances (the include graph over template names, the graph of (block, level) nodes of one lineage
   table); the parent walk; what finalize accepts; the termination of the render recursion of an
   accepted set. *)
From Coq Require Import List NArith Bool Arith Lia.
From TeraV Require Import Model.Registry Spec.Graph Proofs.ListFacts.
Import ListNotations.

Lemma name_cmp_refl a : name_cmp a a = Eq.
Proof. induction a as [|x a IH]; simpl; auto. rewrite N.compare_refl. exact IH. Qed.

Lemma name_cmp_irrefl a : name_cmp a a <> Lt.
Proof. rewrite name_cmp_refl. discriminate. Qed.

Lemma name_cmp_eq a : forall b, name_cmp a b = Eq -> a = b.
Proof.
  induction a as [|x a IH]; intros [|y b] H; simpl in H; try discriminate; auto.
  destruct (N.compare x y) eqn:E; try discriminate.
  apply N.compare_eq in E. subst. f_equal. auto.
Qed.

Lemma name_eqb_eq a b : name_eqb a b = true <-> a = b.
Proof.
  unfold name_eqb. split.
  - destruct (name_cmp a b) eqn:E; try discriminate. intros _. apply name_cmp_eq; auto.
  - intros ->. rewrite name_cmp_refl. reflexivity.
Qed.

Lemma name_eqb_spec a b : reflect (a = b) (name_eqb a b).
Proof. apply iff_reflect. symmetry. apply name_eqb_eq. Qed.

Lemma name_eqb_refl a : name_eqb a a = true.
Proof. apply name_eqb_eq. reflexivity. Qed.

Lemma name_cmp_antisym a : forall b, name_cmp b a = CompOpp (name_cmp a b).
Proof.
  induction a as [|x a IH]; intros [|y b]; simpl; auto.
  rewrite (N.compare_antisym x y). destruct (N.compare x y); simpl; auto.
Qed.

Lemma name_cmp_lt_trans a : forall b c, name_cmp a b = Lt -> name_cmp b c = Lt -> name_cmp a c = Lt.
Proof.
  induction a as [|x a IH]; intros [|y b] [|z c] H1 H2; simpl in *; try discriminate; auto.
  destruct (N.compare x y) eqn:E1; try discriminate.
  - apply N.compare_eq in E1. subst y.
    destruct (N.compare x z) eqn:E2; try discriminate; auto. eauto.
  - destruct (N.compare y z) eqn:E2; try discriminate.
    + apply N.compare_eq in E2. subst z. rewrite E1. reflexivity.
    + assert (N.compare x z = Lt) as ->; auto.
      apply N.compare_lt_iff. apply N.compare_lt_iff in E1. apply N.compare_lt_iff in E2.
      eapply N.lt_trans; eauto.
Qed.

Lemma name_eqb_sym a b : name_eqb a b = name_eqb b a.
Proof. apply eq_true_iff_eq. rewrite !name_eqb_eq. split; congruence. Qed.

Lemma ninsert_In x y l : In y (ninsert x l) <-> In y (x :: l).
Proof.
  induction l as [|z l IH]; simpl; [tauto|].
  destruct (name_cmp x z) eqn:E; simpl; [|tauto|rewrite IH; simpl; tauto].
  apply name_cmp_eq in E. subst z. tauto.
Qed.

Lemma nsort_In y l : In y (nsort l) <-> In y l.
Proof.
  unfold nsort. induction l as [|x l IH]; simpl; [tauto|].
  rewrite ninsert_In. simpl. rewrite IH. tauto.
Qed.

Section MapFacts.
  Context {V : Type}.
  Implicit Types m : fmap V.

  Lemma mfind_In k m v : mfind k m = Some v -> In (k, v) m.
  Proof.
    induction m as [|[k' v'] m IH]; simpl; [discriminate|].
    destruct (name_eqb_spec k k') as [->|_]; auto. intros [= ->]. auto.
  Qed.

  Lemma mfind_keys k m v : mfind k m = Some v -> In k (mkeys m).
  Proof. intros H. apply mfind_In in H. apply (in_map fst) in H. exact H. Qed.

  Lemma mfind_none_keys k m : mfind k m = None <-> ~ In k (mkeys m).
  Proof.
    induction m as [|[k' v'] m IH]; simpl; [tauto|].
    destruct (name_eqb_spec k k') as [->|E].
    - split; [discriminate|]. intros H. exfalso. auto.
    - rewrite IH.
      split; [intros H [Hk|Hk]; [congruence|exact (H Hk)] | intros H Hk; apply H; right; exact Hk].
  Qed.

  Lemma mmem_keys k m : mmem k m = true <-> In k (mkeys m).
  Proof.
    unfold mmem. destruct (mfind k m) eqn:E.
    - apply mfind_keys in E. tauto.
    - apply mfind_none_keys in E. split; [discriminate|tauto].
  Qed.

  Lemma msorted_cons_iff k v m :
    msorted ((k, v) :: m) <-> msorted m /\ forall k', In k' (mkeys m) -> name_cmp k k' = Lt.
  Proof.
    split.
    - revert k v. induction m as [|[k1 v1] m IH]; intros k v [H1 H2]; (split; [exact H2|]).
      + intros k' [].
      + intros k' [<-|Hin]; [exact H1|].
        eapply name_cmp_lt_trans; [exact H1|]. apply (IH k1 v1 H2), Hin.
    - intros [Hs H]. destruct m as [|[k1 v1] m]; simpl; split; auto. apply H. simpl. auto.
  Qed.

  Lemma msorted_above k v m :
    msorted ((k, v) :: m) -> forall k', In k' (mkeys m) -> name_cmp k k' = Lt.
  Proof. intros H. apply msorted_cons_iff in H. apply H. Qed.

  Lemma msorted_tail k v m : msorted ((k, v) :: m) -> msorted m.
  Proof. simpl. tauto. Qed.

  Lemma msorted_cons k v m :
    msorted m -> (forall k', In k' (mkeys m) -> name_cmp k k' = Lt) -> msorted ((k, v) :: m).
  Proof. intros Hs H. apply msorted_cons_iff. auto. Qed.

  Lemma msorted_head_fresh k v m : msorted ((k, v) :: m) -> ~ In k (mkeys m).
  Proof. intros Hs Hin. exact (name_cmp_irrefl k (msorted_above _ _ _ Hs _ Hin)). Qed.

  Lemma mfind_below k k' v' m :
    msorted ((k', v') :: m) -> name_cmp k k' = Lt -> mfind k ((k', v') :: m) = None.
  Proof.
    intros Hs Hlt. apply mfind_none_keys. simpl. intros [<-|Hin].
    - exact (name_cmp_irrefl _ Hlt).
    - exact (name_cmp_irrefl _ (name_cmp_lt_trans _ _ _ Hlt (msorted_above _ _ _ Hs _ Hin))).
  Qed.

  Lemma minsert_In k v m k' v' :
    In (k', v') (minsert k v m) -> (k' = k /\ v' = v) \/ In (k', v') m.
  Proof.
    induction m as [|[k1 v1] m IH]; simpl.
    - intros [E|[]]. injection E as <- <-. auto.
    - destruct (name_cmp k k1); simpl; (intros [E|H]; [injection E as <- <-; auto|]); auto.
      destruct (IH H); auto.
  Qed.

  Lemma minsert_keys k v m k' : In k' (mkeys (minsert k v m)) -> k' = k \/ In k' (mkeys m).
  Proof.
    intros H. apply in_map_iff in H. destruct H as [[k0 v0] [<- H]].
    apply minsert_In in H. destruct H as [[-> _]|H]; [left; reflexivity|right].
    exact (in_map fst _ _ H).
  Qed.

  Lemma mremove_keys k m k' : In k' (mkeys (mremove k m)) -> In k' (mkeys m).
  Proof.
    induction m as [|[a b] m IH]; simpl; auto.
    destruct (name_eqb k a); simpl; tauto.
  Qed.

  Lemma minsert_sorted k v m : msorted m -> msorted (minsert k v m).
  Proof.
    induction m as [|[k1 v1] m IH]; intros Hs; [simpl; auto|].
    pose proof Hs as [Ht Hab]%msorted_cons_iff.
    cbn [minsert]. destruct (name_cmp k k1) eqn:E.
    - apply name_cmp_eq in E. subst. exact Hs.
    - apply msorted_cons; [exact Hs|].
      intros k' [<-|Hk']; [exact E|]. eapply name_cmp_lt_trans; eauto.
    - apply msorted_cons; [auto|].
      intros k' Hk'. apply minsert_keys in Hk'. destruct Hk' as [->|Hk']; auto.
      rewrite name_cmp_antisym, E. reflexivity.
  Qed.

  Lemma mremove_sorted k m : msorted m -> msorted (mremove k m).
  Proof.
    induction m as [|[k1 v1] m IH]; intros Hs; simpl; auto.
    pose proof Hs as [Ht Hab]%msorted_cons_iff.
    destruct (name_eqb k k1); [exact Ht|].
    apply msorted_cons; [auto|]. intros k' Hk'. apply Hab. eapply mremove_keys; eauto.
  Qed.

  Lemma mfind_minsert k k' v m :
    mfind k' (minsert k v m) = if name_eqb k' k then Some v else mfind k' m.
  Proof.
    induction m as [|[k1 v1] m IH]; simpl; [reflexivity|].
    destruct (name_cmp k k1) eqn:E; simpl; [| reflexivity |].
    - apply name_cmp_eq in E. subst k1. destruct (name_eqb k' k); reflexivity.
    - rewrite IH. destruct (name_eqb_spec k' k) as [->|_]; [|reflexivity].
      unfold name_eqb. rewrite E. reflexivity.
  Qed.

  Lemma mremove_minsert k v m : mfind k m = None -> mremove k (minsert k v m) = m.
  Proof.
    induction m as [|[k1 v1] m IH]; simpl; intros H.
    - rewrite name_eqb_refl. reflexivity.
    - destruct (name_eqb k k1) eqn:E; [discriminate|].
      destruct (name_cmp k k1) eqn:C; simpl.
      + unfold name_eqb in E. rewrite C in E. discriminate.
      + rewrite name_eqb_refl. reflexivity.
      + rewrite E. f_equal. auto.
  Qed.

  Lemma minsert_same_twice k v v' m : minsert k v' (minsert k v m) = minsert k v' m.
  Proof.
    induction m as [|[k1 v1] m IH]; simpl.
    - rewrite name_cmp_refl. reflexivity.
    - destruct (name_cmp k k1) eqn:C; simpl.
      1, 2: rewrite name_cmp_refl; reflexivity.
      rewrite C. f_equal. exact IH.
  Qed.

  Lemma mfind_head k v m : mfind k ((k, v) :: m) = Some v.
  Proof. simpl. rewrite name_eqb_refl. reflexivity. Qed.

  Lemma msorted_ext m1 : forall m2,
    msorted m1 -> msorted m2 -> (forall k, mfind k m1 = mfind k m2) -> m1 = m2.
  Proof.
    induction m1 as [|[k1 v1] m1 IH]; intros [|[k2 v2] m2] H1 H2 Hf; auto.
    - specialize (Hf k2). rewrite mfind_head in Hf. discriminate.
    - specialize (Hf k1). rewrite mfind_head in Hf. discriminate.
    - pose proof (Hf k1) as Hk1. pose proof (Hf k2) as Hk2. pose proof (name_cmp_antisym k1 k2) as Ha.
      rewrite mfind_head in Hk1, Hk2. destruct (name_cmp k1 k2) eqn:C.
      + apply name_cmp_eq in C. subst k2. rewrite mfind_head in Hk1. injection Hk1 as ->.
        f_equal. apply IH; [eapply msorted_tail; eauto ..|].
        intros k. specialize (Hf k). simpl in Hf.
        destruct (name_eqb_spec k k1) as [E|_]; auto. subst k.
        transitivity (@None V); [|symmetry]; apply mfind_none_keys; eapply msorted_head_fresh; eauto.
      + (* the smaller head is missing from the other list *)
        rewrite (mfind_below _ _ _ _ H2 C) in Hk1. discriminate.
      + rewrite (mfind_below _ _ _ _ H1 Ha) in Hk2. discriminate.
  Qed.

  Lemma minsert_minsert k v old m :
    msorted m -> mfind k m = Some old -> minsert k old (minsert k v m) = m.
  Proof.
    intros Hs H. apply msorted_ext; auto using minsert_sorted.
    intros k'. rewrite !mfind_minsert. destruct (name_eqb_spec k' k) as [->|_]; auto.
  Qed.

  Lemma msorted_nodup m : msorted m -> NoDup (mkeys m).
  Proof.
    induction m as [|[k v] m IH]; intros Hs; simpl; constructor.
    - eapply msorted_head_fresh; eauto.
    - apply IH. eapply msorted_tail; eauto.
  Qed.

  Lemma keys_mfind m k : In k (mkeys m) -> exists v, mfind k m = Some v.
  Proof.
    intros H. destruct (mfind k m) eqn:E; eauto. apply mfind_none_keys in E. contradiction.
  Qed.

  Lemma In_mfind m k v : NoDup (mkeys m) -> In (k, v) m -> mfind k m = Some v.
  Proof.
    induction m as [|[k1 v1] m IH]; intros Hnd Hin; [destruct Hin|].
    simpl in Hnd. inversion Hnd as [|? ? Hni Hnd']; subst. simpl.
    destruct Hin as [E|Hin].
    - injection E as -> ->. rewrite name_eqb_refl. reflexivity.
    - destruct (name_eqb_spec k k1) as [->|_]; auto.
      exfalso. apply Hni. exact (in_map fst _ _ Hin).
  Qed.
End MapFacts.

Lemma msorted_map_snd {V W} (g : name * V -> W) (m : fmap V) :
  msorted (map (fun p => (fst p, g p)) m) <-> msorted m.
Proof.
  induction m as [|[k v] m IH]; simpl; [tauto|].
  destruct m as [|[k2 v2] m']; simpl in *; tauto.
Qed.

Lemma filter_map_In {A B} (f : A -> option B) l y :
  In y (filter_map f l) <-> exists x, In x l /\ f x = Some y.
Proof.
  induction l as [|a l IH]; simpl.
  - split; [tauto|]. intros [x [[] _]].
  - destruct (f a) eqn:E; simpl; rewrite IH.
    + split.
      * intros [<-|[x [Hx Hf]]]; eauto.
      * intros [x [[<-|Hx] Hf]]; [left; congruence|right; eauto].
    + split.
      * intros [x [Hx Hf]]; eauto.
      * intros [x [[<-|Hx] Hf]]; [congruence|eauto].
Qed.

Lemma mfind_map {V W} (g : name -> V -> W) (m : fmap V) k :
  mfind k (map (fun nt => (fst nt, g (fst nt) (snd nt))) m) = option_map (g k) (mfind k m).
Proof.
  induction m as [|[k1 v1] m IH]; simpl; auto.
  destruct (name_eqb_spec k k1) as [->|_]; auto.
Qed.

Section ResolveSpec.
  Context {V : Type}.
  Variable m : fmap V.
  Definition has (n : name) : Prop := In n (mkeys m).

  Lemma mmem_false k : mmem k m = false <-> ~ has k.
  Proof. unfold has. rewrite <- mmem_keys. split; [congruence|apply not_true_is_false]. Qed.

  Lemma resolve_pre_spec pre n :
    match resolve_pre pre m n with
    | Some r => exists l1 p l2, pre = l1 ++ p :: l2 /\ (forall q, In q l1 -> ~ has (q ++ n)) /\
                                has (p ++ n) /\ r = p ++ n
    | None => forall p, In p pre -> ~ has (p ++ n)
    end.
  Proof.
    induction pre as [|p pre IH]; simpl; [intros p []|].
    destruct (mmem (p ++ n) m) eqn:E.
    - exists [], p, pre. apply mmem_keys in E. repeat split; auto.
    - apply mmem_false in E. destruct (resolve_pre pre m n) as [r|].
      + destruct IH as (l1 & p' & l2 & -> & Hn & Hh & ->). exists (p :: l1), p', l2.
        repeat split; auto. intros q [<-|Hq]; auto.
      + intros q [<-|Hq]; auto.
  Qed.

  Lemma resolve_pre_hit l1 p l2 n :
    (forall q, In q l1 -> ~ has (q ++ n)) -> has (p ++ n) ->
    resolve_pre (l1 ++ p :: l2) m n = Some (p ++ n).
  Proof.
    intros Hq Hh. induction l1 as [|q l1 IH]; simpl.
    - apply mmem_keys in Hh. rewrite Hh. reflexivity.
    - rewrite (proj2 (mmem_false (q ++ n)) (Hq q (or_introl eq_refl))).
      apply IH. intros q' Hq'. apply Hq. right. exact Hq'.
  Qed.

  Theorem resolve_spec pre n r :
    resolve pre m n = Some r <-> resolves has pre n r.
  Proof.
    unfold resolve. destruct (mmem n m) eqn:E.
    - apply mmem_keys in E. split.
      + intros [= <-]. apply res_exact, E.
      + intros [Hh|l1 p l2 Hn]; [reflexivity|contradiction].
    - apply mmem_false in E. split.
      + intros H. pose proof (resolve_pre_spec pre n) as Hs. rewrite H in Hs.
        destruct Hs as (l1 & p & l2 & Hp & Hn & Hh & ->). eapply res_prefix; eauto.
      + intros [Hh|l1 p l2 _ -> Hq Hh]; [contradiction|apply resolve_pre_hit; assumption].
  Qed.

  Theorem resolve_none_spec pre n :
    resolve pre m n = None <-> dangling has pre n.
  Proof.
    unfold resolve, dangling. pose proof (resolve_pre_spec pre n) as Hs. destruct (mmem n m) eqn:E.
    - apply mmem_keys in E. split; [discriminate|tauto].
    - apply mmem_false in E. destruct (resolve_pre pre m n) as [r|]; [|tauto].
      destruct Hs as (l1 & p & l2 & -> & _ & Hh & _). split; [discriminate|].
      intros [_ H]. destruct (H p); [apply in_or_app; right; left; reflexivity|exact Hh].
  Qed.

  Lemma resolve_in_keys pre n r : resolve pre m n = Some r -> In r (mkeys m).
  Proof.
    intros H. apply resolve_spec in H. destruct H; auto.
  Qed.
End ResolveSpec.

Lemma sources_sorted m : msorted (sources m) <-> msorted m.
Proof. unfold sources. apply msorted_map_snd. Qed.

Lemma sources_minsert n e m : sources (minsert n e m) = minsert n (e_desc e) (sources m).
Proof.
  induction m as [|[k v] m IH]; simpl; auto.
  destruct (name_cmp n k); simpl; auto. rewrite IH. reflexivity.
Qed.

Lemma undo_snoc log kp m : undo (log ++ [kp]) m = undo log (undo_one m kp).
Proof. unfold undo. rewrite rev_app_distr. reflexivity. Qed.

Lemma undo_one_insert n e m :
  msorted m -> undo_one (minsert n e m) (n, mfind n m) = m.
Proof.
  intros Hs. unfold undo_one. simpl. destruct (mfind n m) as [old|] eqn:E.
  - apply minsert_minsert; auto.
  - apply mremove_minsert; auto.
Qed.

Lemma insert_all_undo b : forall m log ok m1 log1,
  msorted m -> insert_all m b log = (ok, m1, log1) ->
  undo log1 m1 = undo log m /\ msorted m1.
Proof.
  induction b as [|[n [t|]] b IH]; intros m log ok m1 log1 Hs H; simpl in H.
  - injection H as <- <- <-. auto.
  - apply IH in H; [|apply minsert_sorted; auto]. destruct H as [H1 H2]. split; auto.
    rewrite H1, undo_snoc, undo_one_insert; auto.
  - injection H as <- <- <-. auto.
Qed.

Theorem undo_restores m b ok m1 log :
  msorted m -> insert_all m b [] = (ok, m1, log) -> undo log m1 = m.
Proof. intros Hs H. apply insert_all_undo in H; auto. destruct H as [H _]. exact H. Qed.

Lemma with_tpls_same s : with_tpls s (st_tpls s) = s.
Proof. destruct s; reflexivity. Qed.

Lemma add_batch_ok_iff ev s b s' :
  add_batch ev s b = (Ok tt, s') <->
  exists m1 log, insert_all (st_tpls s) b [] = (true, m1, log) /\ finalize ev (with_tpls s m1) = Ok s'.
Proof.
  unfold add_batch. split; [|intros (m1 & log & -> & ->); reflexivity].
  destruct (insert_all (st_tpls s) b []) as [[[] m1] log]; [|discriminate].
  destruct (finalize ev (with_tpls s m1)) as [s1|] eqn:F; [|discriminate]. intros [= <-]. eauto.
Qed.

Theorem add_err_is_identity ev s b e s' :
  msorted (st_tpls s) -> add_batch ev s b = (Err e, s') -> s' = s.
Proof.
  intros Hs. unfold add_batch. destruct (insert_all (st_tpls s) b []) as [[ok m1] log] eqn:E.
  assert (with_tpls s (undo log m1) = s) as Hu
    by (rewrite (undo_restores _ _ _ _ _ Hs E); apply with_tpls_same).
  destruct ok; [destruct (finalize ev (with_tpls s m1)); [discriminate|]|]; intros [= _ <-]; exact Hu.
Qed.

Definition psof (pt : fmap (list name)) (n : name) : list name :=
  match mfind n pt with Some ps => ps | None => [] end.
Definition linof (tb : fmap (fmap (list chunk))) (k : name) : fmap (list chunk) :=
  match mfind k tb with Some l => l | None => [] end.
(* the lineage table and the entries that finalize_src builds from the tables of its first loop *)
Definition lineages (m : smap) (pt : fmap (list name)) : fmap (fmap (list chunk)) :=
  fold_left (inherit_one pt) (mkeys m)
            (map (fun nt => (fst nt, own_lineage m (psof pt (fst nt)) (snd nt))) m).
Definition mk_entry (sufs : list name) (m : smap) (pt : fmap (list name)) (sz : fmap nat)
           (k : name) (t : tdesc) : entry :=
  {| e_desc := t; e_parents := psof pt k; e_lineage := linof (lineages m pt) k;
     e_size := match mfind k sz with Some z => z | None => 0 end;
     e_auto := auto_on sufs k |}.

Lemma finalize_src_inv ev sufs m tm comps :
  finalize_src ev sufs m = Ok (tm, comps) ->
  exists par sz tab,
    first_loop ev m m [] [] [] = Ok (par, sz, tab) /\
    (ev_fix_d10 ev = true -> include_loop (inc_succ_fixed (ev_prefixes ev) m par) m m = Ok tt) /\
    forallb (fun nt => refs_ok ev m comps (snd nt) && blocks_ok m (psof par (fst nt)) (snd nt)) m = true /\
    (ev_fix_d13 ev = true ->
     forallb (fun n => blocks_acyclic (linof (lineages m par) n)) (mkeys m) = true) /\
    comps = build_components m tab /\
    tm = map (fun nt => (fst nt, mk_entry sufs m par sz (fst nt) (snd nt))) m.
Proof.
  unfold finalize_src. intros H.
  destruct (first_loop ev m m [] [] []) as [[[par sz] tab]|]; [|discriminate].
  destruct (if ev_fix_d10 ev then _ else _) as [[]|] eqn:E2; [|discriminate].
  destruct (negb _) eqn:E3; [discriminate|]. apply negb_false_iff in E3.
  destruct (_ && _) eqn:E4; [discriminate|].
  injection H as <- <-. exists par, sz, tab. repeat split; auto.
  - intros Hfx. rewrite Hfx in E2. exact E2.
  - intros Hfx. rewrite Hfx in E4. apply negb_false_iff in E4. exact E4.
Qed.

Lemma finalize_src_sources ev sufs m tm comps :
  finalize_src ev sufs m = Ok (tm, comps) -> sources tm = m.
Proof.
  intros H. destruct (finalize_src_inv _ _ _ _ _ H) as (par & sz & tab & _ & _ & _ & _ & _ & ->).
  unfold sources. rewrite map_map. simpl.
  rewrite <- (map_id m) at 2. apply map_ext. intros [k v]. reflexivity.
Qed.

Lemma finalize_src_sufs ev sufs sufs' m :
  finalize_src ev sufs' m =
  match finalize_src ev sufs m with
  | Ok (tm, c) => Ok (set_auto sufs' tm, c)
  | Err e => Err e
  end.
Proof.
  unfold finalize_src.
  destruct (first_loop ev m m [] [] []) as [[[par sz] tab]|]; [|reflexivity].
  destruct (if ev_fix_d10 ev then _ else _); [|reflexivity].
  destruct (negb _); [reflexivity|].
  destruct (_ && _); [reflexivity|].
  f_equal. f_equal. unfold set_auto. rewrite map_map. apply map_ext. intros [k v]. reflexivity.
Qed.

Lemma sources_set_auto sufs m : sources (set_auto sufs m) = sources m.
Proof. unfold sources, set_auto. rewrite map_map. apply map_ext. intros [k v]. reflexivity. Qed.

Lemma set_auto_sorted sufs m : msorted (set_auto sufs m) <-> msorted m.
Proof. unfold set_auto. apply (msorted_map_snd (fun ne => _)). Qed.

(* the invariant: every field of the instance is the function `finalize` of the current
   (name, descriptor) set, the configuration and the current suffixes *)
Definition canonical (ev : env) (s : state) : Prop :=
  msorted (st_tpls s) /\ finalize ev s = Ok s.

Lemma canonical_init ev sufs : canonical ev (init sufs).
Proof.
  split; [exact I|]. unfold finalize, finalize_src, init. simpl.
  destruct (ev_fix_d10 ev); destruct (ev_fix_d13 ev); reflexivity.
Qed.

(* finalize reads the suffixes and the (name, source) set only *)
Lemma canonical_fresh ev s s' :
  canonical ev s' -> st_sufs s = st_sufs s' -> sources (st_tpls s) = sources (st_tpls s') ->
  finalize ev s = Ok s'.
Proof. intros [_ <-]. unfold finalize. intros -> ->. reflexivity. Qed.

Lemma canonical_unique ev s1 s2 :
  canonical ev s1 -> canonical ev s2 ->
  st_sufs s1 = st_sufs s2 -> sources (st_tpls s1) = sources (st_tpls s2) -> s1 = s2.
Proof.
  intros [_ F1] H2 Hsufs Hsrc. rewrite (canonical_fresh ev s1 s2 H2 Hsufs Hsrc) in F1. congruence.
Qed.

Lemma finalize_ok_canonical ev s s' :
  msorted (st_tpls s) -> finalize ev s = Ok s' ->
  canonical ev s' /\ st_sufs s' = st_sufs s /\ sources (st_tpls s') = sources (st_tpls s).
Proof.
  unfold finalize at 1. intros Hs F.
  destruct (finalize_src ev (st_sufs s) (sources (st_tpls s))) as [[tm comps]|] eqn:G; [|discriminate].
  injection F as <-. pose proof (finalize_src_sources _ _ _ _ _ G) as Hsrc.
  split; [split|auto]; cbn [st_sufs st_tpls].
  - apply sources_sorted. rewrite Hsrc. apply sources_sorted. exact Hs.
  - unfold finalize. cbn [st_sufs st_tpls]. rewrite Hsrc, G. reflexivity.
Qed.

(* the (name, source) set a batch leaves behind *)
Definition override (m : smap) (b : list (name * source)) : smap :=
  fold_left (fun m p => match snd p with Some t => minsert (fst p) t m | None => m end) b m.

Lemma insert_all_sources b : forall m log m1 log1,
  insert_all m b log = (true, m1, log1) -> sources m1 = override (sources m) b.
Proof.
  induction b as [|[n [t|]] b IH]; intros m log m1 log1 H; simpl in H.
  - injection H as <- _. reflexivity.
  - apply IH in H. rewrite H. simpl. rewrite sources_minsert. reflexivity.
  - discriminate.
Qed.

Lemma add_ok_canonical ev s b s' :
  msorted (st_tpls s) -> add_batch ev s b = (Ok tt, s') ->
  canonical ev s' /\ st_sufs s' = st_sufs s /\
  sources (st_tpls s') = override (sources (st_tpls s)) b.
Proof.
  intros Hs H. destruct (proj1 (add_batch_ok_iff _ _ _ _) H) as (m1 & log & E & F).
  destruct (insert_all_undo _ _ _ _ _ _ Hs E) as [_ Hs1].
  destruct (finalize_ok_canonical ev (with_tpls s m1) _ Hs1 F) as (Hc & Hsufs & Hsrc).
  split; [exact Hc|]. split; [exact Hsufs|].
  rewrite Hsrc. eapply insert_all_sources; eauto.
Qed.

Theorem add_ok_equals_fresh ev s b s' :
  msorted (st_tpls s) -> add_batch ev s b = (Ok tt, s') ->
  sources (st_tpls s') = override (sources (st_tpls s)) b /\
  forall b' m' log',
    insert_all [] b' [] = (true, m', log') -> sources m' = sources (st_tpls s') ->
    add_batch ev (init (st_sufs s)) b' = (Ok tt, s').
Proof.
  intros Hs H. destruct (add_ok_canonical _ _ _ _ Hs H) as (Hc & <- & Hsrc).
  split; [exact Hsrc|]. intros b' m' log' E Hm.
  apply add_batch_ok_iff. exists m', log'. split; [exact E|]. apply canonical_fresh; auto.
Qed.

Lemma autoescape_canonical ev s sufs : canonical ev s -> canonical ev (autoescape_on s sufs).
Proof.
  intros [Hs Hf]. split; simpl.
  - apply set_auto_sorted. exact Hs.
  - unfold finalize in *. simpl. rewrite sources_set_auto.
    rewrite (finalize_src_sufs ev (st_sufs s) sufs).
    destruct (finalize_src ev (st_sufs s) (sources (st_tpls s))) as [[tm c]|]; [|discriminate].
    injection Hf as Hf. rewrite <- Hf. simpl. reflexivity.
Qed.

(* add_template_file(s): the loop over files is the loop over the raw batch `files_batch fs`; only the
   kind of the error differs *)
Lemma insert_files_as_batch fs : forall m log,
  exists m1 log1,
    insert_files m fs log = (files_first_err fs, m1, log1) /\
    insert_all m (files_batch fs) log =
      (match files_first_err fs with None => true | Some _ => false end, m1, log1).
Proof.
  induction fs as [|f fs IH]; intros m log; cbn [insert_files files_batch files_first_err].
  - exists m, log. split; reflexivity.
  - unfold add_file. destruct (fe_read f) as [ | | |[t|]]; cbn [insert_all];
      try (exists m, log; split; reflexivity).
    apply IH.
Qed.

Theorem add_files_as_batch ev s fs :
  add_files ev s fs =
  (match files_first_err fs with
   | Some e => Err e
   | None => fst (add_batch ev s (files_batch fs))
   end,
   snd (add_batch ev s (files_batch fs))).
Proof.
  unfold add_files, add_batch.
  destruct (insert_files_as_batch fs (st_tpls s) []) as (m1 & log1 & -> & ->).
  destruct (files_first_err fs) as [e|]; [reflexivity|].
  destruct (finalize ev (with_tpls s m1)); reflexivity.
Qed.

Theorem add_files_err_is_identity ev s fs e s' :
  msorted (st_tpls s) -> add_files ev s fs = (Err e, s') -> s' = s.
Proof.
  intros Hs H. rewrite add_files_as_batch in H. injection H as H <-.
  destruct (add_batch ev s (files_batch fs)) as [[[]|e'] s1] eqn:E; cbn [fst snd] in *.
  - (* the raw call on the batch succeeded: then no file failed, and the file call succeeds too *)
    destruct (proj1 (add_batch_ok_iff _ _ _ _) E) as (m1 & log & Hi & _).
    destruct (insert_files_as_batch fs (st_tpls s) []) as (m2 & log2 & _ & Hi2).
    rewrite Hi in Hi2. destruct (files_first_err fs); discriminate.
  - eapply add_err_is_identity; eauto.
Qed.

Theorem add_files_ok_equals_fresh ev s fs s' :
  msorted (st_tpls s) -> add_files ev s fs = (Ok tt, s') ->
  files_first_err fs = None /\
  sources (st_tpls s') = override (sources (st_tpls s)) (files_batch fs) /\
  (forall b' m' log',
     insert_all [] b' [] = (true, m', log') -> sources m' = sources (st_tpls s') ->
     add_batch ev (init (st_sufs s)) b' = (Ok tt, s')) /\
  (forall fs' m' log',
     insert_files [] fs' [] = (None, m', log') -> sources m' = sources (st_tpls s') ->
     add_files ev (init (st_sufs s)) fs' = (Ok tt, s')).
Proof.
  intros Hs H. rewrite add_files_as_batch in H. destruct (files_first_err fs); [discriminate|].
  destruct (add_batch ev s (files_batch fs)) as [r s1] eqn:Hb. cbn [fst snd] in H. injection H as -> ->.
  destruct (add_ok_equals_fresh _ _ _ _ Hs Hb) as [Hsrc Hfresh].
  destruct (add_ok_canonical _ _ _ _ Hs Hb) as (Hc & Hsufs & _).
  split; [reflexivity|split; [exact Hsrc|split; [exact Hfresh|]]].
  intros fs' m' log' E Hm. unfold add_files. cbn [init st_tpls].
  rewrite E, (canonical_fresh ev _ s' Hc); [reflexivity|symmetry; exact Hsufs|exact Hm].
Qed.

Lemma add_batch_canonical ev s b : canonical ev s -> canonical ev (snd (add_batch ev s b)).
Proof.
  intros Hc. pose proof Hc as [Hs _]. destruct (add_batch ev s b) as [[[]|e] s'] eqn:E; cbn [snd].
  - eapply add_ok_canonical; eauto.
  - apply add_err_is_identity in E; [|exact Hs]. subst. exact Hc.
Qed.

Lemma step_canonical ev s c : canonical ev s -> canonical ev (snd (step ev s c)).
Proof.
  intros Hc. destruct c as [b|sufs|fs]; cbn [step].
  - apply add_batch_canonical, Hc.
  - apply autoescape_canonical, Hc.
  - rewrite add_files_as_batch. apply add_batch_canonical, Hc.
Qed.

Inductive reachable (ev : env) : state -> Prop :=
| rch_init : forall sufs, reachable ev (init sufs)
| rch_step : forall s c, reachable ev s -> reachable ev (snd (step ev s c)).

Theorem reachable_inv ev s : reachable ev s -> canonical ev s.
Proof. induction 1; [apply canonical_init|apply step_canonical; assumption]. Qed.

Lemma run_canonical ev h : forall s, canonical ev s -> canonical ev (snd (run ev s h)).
Proof.
  induction h as [|c h IH]; intros s Hc; simpl; auto.
  pose proof (step_canonical ev s c Hc) as Hc1.
  destruct (step ev s c) as [r s1]. specialize (IH s1 Hc1).
  destruct (run ev s1 h) as [rs s2]. exact IH.
Qed.

Theorem order_and_grouping_irrelevant ev sufs1 sufs2 h1 h2 :
  let s1 := snd (run ev (init sufs1) h1) in
  let s2 := snd (run ev (init sufs2) h2) in
  st_sufs s1 = st_sufs s2 -> sources (st_tpls s1) = sources (st_tpls s2) -> s1 = s2.
Proof. intros s1 s2. apply (canonical_unique ev); apply run_canonical, canonical_init. Qed.

Definition listing (m : smap) : list (name * source) := map (fun nt => (fst nt, Some (snd nt))) m.

Lemma minsert_last {V} k (v : V) m :
  (forall k', In k' (mkeys m) -> name_cmp k' k = Lt) -> minsert k v m = m ++ [(k, v)].
Proof.
  induction m as [|[k1 v1] m IH]; intros H; simpl; auto.
  assert (name_cmp k k1 = Gt) as ->.
  { rewrite name_cmp_antisym, (H k1); simpl; auto. }
  f_equal. apply IH. intros k' Hk'. apply H. simpl. auto.
Qed.

Lemma msorted_app_below {V} (acc : fmap V) k v m :
  msorted (acc ++ (k, v) :: m) -> forall k', In k' (mkeys acc) -> name_cmp k' k = Lt.
Proof.
  induction acc as [|[a b] acc IH]; intros Hs k' Hin; [destruct Hin|].
  simpl in Hin. destruct Hin as [<-|Hin].
  - apply (msorted_above a b (acc ++ (k, v) :: m) Hs).
    unfold mkeys. rewrite map_app. apply in_or_app. right. simpl. auto.
  - apply IH; auto. eapply msorted_tail. exact Hs.
Qed.

Lemma override_listing m : forall acc, msorted (acc ++ m) -> override acc (listing m) = acc ++ m.
Proof.
  induction m as [|[k t] m IH]; intros acc Hs; simpl.
  - rewrite app_nil_r. reflexivity.
  - rewrite minsert_last by (eapply msorted_app_below; eauto).
    change (override (acc ++ [(k, t)]) (listing m) = acc ++ (k, t) :: m).
    rewrite IH; rewrite <- app_assoc; simpl; auto.
Qed.

Lemma NoDup_snoc {A} (l : list A) (x : A) : NoDup l -> ~ In x l -> NoDup (l ++ [x]).
Proof.
  intros Hnd Hni. apply NoDup_rev in Hnd. rewrite <- (rev_involutive (l ++ [x])), rev_app_distr.
  apply NoDup_rev. constructor; [rewrite <- in_rev; exact Hni|exact Hnd].
Qed.

Lemma In_list_max a l : In a l -> a <= list_max l.
Proof. exact (proj1 (Forall_forall _ l) (proj1 (list_max_le l _) (le_n _)) a). Qed.

Lemma list_max_witness n l : n < list_max l -> exists a, In a l /\ n < a.
Proof.
  induction l as [|b l IH]; simpl; intros H; [lia|].
  destruct (Nat.max_dec b (list_max l)) as [E|E]; rewrite E in H.
  - exists b. auto.
  - destruct (IH H) as [a [Ha Hlt]]. exists a. auto.
Qed.

Section Paths.
  Context {A : Type}.
  Variable e : A -> A -> Prop.

  Lemma path_app x l1 y l2 z : path e x l1 y -> path e y l2 z -> path e x (l1 ++ l2) z.
  Proof. induction 1; simpl; auto. intros. econstructor; eauto. Qed.

  Lemma path_snoc x l y z : path e x l y -> e y z -> path e x (l ++ [z]) z.
  Proof. intros Hp He. eapply path_app; eauto. econstructor; eauto. constructor. Qed.

  Lemma path_split x l1 z l2 y : path e x (l1 ++ z :: l2) y -> path e x (l1 ++ [z]) z /\ path e z l2 y.
  Proof.
    revert x. induction l1 as [|a l1 IH]; intros x H; simpl in *.
    - inversion H; subst. split; auto. econstructor; eauto. constructor.
    - inversion H; subst. destruct (IH _ H5) as [H1 H2]. split; auto. econstructor; eauto.
  Qed.

  Lemma path_incl (U : list A) x l y : (forall a b, e a b -> In b U) -> path e x l y -> incl l U.
  Proof.
    intros HU. induction 1 as [|x y l z He Hp IH]; intros w Hw; [destruct Hw|].
    destruct Hw as [<-|Hw]; auto. eapply HU; eauto.
  Qed.

  Lemma path_sub (e' : A -> A -> Prop) :
    (forall x y, e x y -> e' x y) -> forall x l y, path e x l y -> path e' x l y.
  Proof. intros Hsub x l y Hp. induction Hp; econstructor; eauto. Qed.

  Lemma reach_refl x : reach e x x.
  Proof. exists []. constructor. Qed.

  Lemma reach_step x y z : reach e x y -> e y z -> reach e x z.
  Proof. intros [l Hl] He. exists (l ++ [z]). eapply path_snoc; eauto. Qed.
End Paths.

Lemma acyclic_sub {A} (e1 e2 : A -> A -> Prop) :
  (forall x y, e1 x y -> e2 x y) -> acyclic e2 -> acyclic e1.
Proof.
  intros Hsub Hac x [l [Hne Hp]]. apply (Hac x). exists l. split; auto.
  eapply path_sub; eauto.
Qed.

Section DFSProofs.
  Context {A : Type} (eqb : A -> A -> bool) (succ : A -> list A).
  Hypothesis eqb_spec : forall x y, eqb x y = true <-> x = y.

  Definition edge (x y : A) : Prop := In y (succ x).
  Notation path := (path edge).
  Notation reach := (reach edge).
  Notation on_cycle := (on_cycle edge).

  Lemma amem_In x l : amem eqb x l = true <-> In x l.
  Proof.
    unfold amem. rewrite existsb_exists. split.
    - intros [y [Hy E]]. apply eqb_spec in E. subst. auto.
    - intros H. exists x. split; auto. apply eqb_spec. reflexivity.
  Qed.

  Lemma amem_false x l : amem eqb x l = false <-> ~ In x l.
  Proof. rewrite <- amem_In. symmetry. apply not_true_iff_false. Qed.

  Lemma reach_trans x y z : reach x y -> reach y z -> reach x z.
  Proof. intros [l1 H1] [l2 H2]. exists (l1 ++ l2). eapply path_app; eauto. Qed.

  Definition closed (v : list A) : Prop := forall x, In x v -> forall y, edge x y -> In y v.
  Definition clean (v : list A) : Prop := forall x, In x v -> ~ on_cycle x.
  Definition disjoint (a b : list A) : Prop := forall x, In x a -> ~ In x b.

  Lemma closed_path v x l y : closed v -> In x v -> path x l y -> In y v.
  Proof. intros Hc Hx Hp. induction Hp; auto. apply IHHp. eapply Hc; eauto. Qed.

  (* a cycle through x would have to come back from inside v *)
  Lemma finish_node v x :
    closed v -> clean v -> ~ In x v -> (forall y, edge x y -> In y v) -> closed (x :: v) /\ clean (x :: v).
  Proof.
    intros Hc Hcl Hx Hs. split.
    - intros z [<-|Hz] y Hy; right; [auto|eapply Hc; eauto].
    - intros z [<-|Hz]; [|auto]. intros [l [Hne Hp]]. inversion Hp as [|? y l' ? He Hp']; subst; [congruence|].
      apply Hx. eapply closed_path; [exact Hc|apply Hs; exact He|exact Hp'].
  Qed.

  (* what each outcome of the walk means (grey/black invariant): the stack is a repetition-free
     path from the start to the current node, the visited set is closed under edges, free of
     cycles and disjoint from the stack; a walk whose stack and fuel add up to n runs out of fuel
     only if n distinct nodes can be reached from the start *)

  Section Walk.
    Variable start : A.

    Definition outcome (n : nat) (P : list A -> Prop) (res : rres (list A)) : Prop :=
      match res with
      | Ok v' => P v'
      | Err EkCircularInclude => leads_to_cycle edge start
      | Err EkFuel => exists l, NoDup l /\ (forall s, In s l -> reach start s) /\ n <= length l
      | Err _ => False
      end.

    Lemma outcome_weaken n (P Q : list A -> Prop) res :
      (forall v, P v -> Q v) -> outcome n P res -> outcome n Q res.
    Proof. intros H. destruct res as [v|[]]; simpl; auto. Qed.

    Definition grey (st : list A) (r : A) : Prop :=
      In r st /\ (forall s, In s st -> reach s r) /\ (forall s, In s st -> reach start s) /\ NoDup st.
    Definition black (st v : list A) : Prop := disjoint st v /\ closed v /\ clean v.

    Definition walk_spec (k : nat) (rec : A -> list A -> list A -> rres (list A)) : Prop :=
      forall r st v, grey st r -> black st v ->
        outcome (length st + k) (fun v' => black st v' /\ incl v v' /\ forall y, edge r y -> In y v') (rec r st v).

    Lemma grey_push st cur r : grey st cur -> edge cur r -> ~ In r st -> grey (st ++ [r]) r.
    Proof.
      intros (Hcs & Hs1 & Hs2 & Hnd) He Hr. split; [apply in_or_app; right; simpl; auto|].
      split; [|split; [|apply NoDup_snoc; auto]];
        intros s Hin; apply in_app_or in Hin; destruct Hin as [Hin|[<-|[]]].
      - eapply reach_step; eauto.
      - apply reach_refl.
      - auto.
      - eapply reach_step; [apply Hs2, Hcs|exact He].
    Qed.

    Lemma dfs_loop_spec k rec stack cur :
      walk_spec k rec -> grey stack cur ->
      forall ns v, incl ns (succ cur) -> black stack v ->
        outcome (length stack + S k) (fun v' => black stack v' /\ incl v v' /\ forall y, In y ns -> In y v')
                (dfs_loop eqb rec stack ns v).
    Proof.
      intros Hrec Hg. induction ns as [|r rest IH]; intros v Hincl Hb; simpl.
      - split; [exact Hb|]. split; [apply incl_refl|intros y []].
      - assert (edge cur r) as Her by (apply Hincl; simpl; auto).
        assert (incl rest (succ cur)) as Hincl' by (intros z Hz; apply Hincl; simpl; auto).
        destruct (amem eqb r stack) eqn:E1.
        + (* r is on the stack: the stack from r on, then the edge to r, is a cycle *)
          apply amem_In in E1. destruct Hg as (_ & Hs1 & Hs2 & _).
          exists r. split; [apply Hs2; exact E1|].
          destruct (Hs1 _ E1) as [l Hl]. exists (l ++ [r]).
          split; [destruct l; discriminate|eapply path_snoc; eauto].
        + apply amem_false in E1. destruct (amem eqb r v) eqn:E2.
          * apply amem_In in E2. eapply outcome_weaken; [|exact (IH v Hincl' Hb)].
            intros v' (HB & Hi & HD). split; [exact HB|]. split; [exact Hi|].
            intros y [<-|Hy]; auto.
          * apply amem_false in E2. destruct Hb as (Hd & Hc & Hcl).
            assert (black (stack ++ [r]) v) as Hb1.
            { split; [|auto]. intros x Hx. apply in_app_or in Hx. destruct Hx as [Hx|[<-|[]]]; auto. }
            specialize (Hrec r _ v (grey_push _ _ _ Hg Her E1) Hb1).
            (* the call had a stack one longer and one unit of fuel less: its errors are ours *)
            rewrite app_length, <- Nat.add_assoc in Hrec.
            destruct (rec r (stack ++ [r]) v) as [v1|e]; [|exact Hrec].
            destruct Hrec as ((Hd1 & Hc1 & Hcl1) & Hi1 & Hs1).
            (* r is finished: all its successors are in v1 (Hs1), and r itself is not *)
            assert (~ In r v1) as Hr1 by (apply Hd1, in_or_app; right; simpl; auto).
            assert (black stack (r :: v1)) as Hb2.
            { split; [|apply finish_node; auto].
              intros x Hx [<-|Hx']; auto. apply (Hd1 x); auto. apply in_or_app. auto. }
            eapply outcome_weaken; [|exact (IH (r :: v1) Hincl' Hb2)].
            intros v' (HB & Hi & HD). split; [exact HB|]. split.
            -- intros x Hx. apply Hi. right. apply Hi1, Hx.
            -- intros y [<-|Hy]; auto. apply Hi. left. reflexivity.
    Qed.

    Lemma dfs_walk_spec fuel : walk_spec fuel (dfs_walk eqb succ fuel).
    Proof.
      induction fuel as [|f IH]; intros r st v Hg Hb; simpl.
      - destruct Hg as (_ & _ & Hs & Hnd). exists st. rewrite Nat.add_0_r. auto.
      - apply (dfs_loop_spec _ _ st r IH Hg); auto. apply incl_refl.
    Qed.
  End Walk.

  Theorem dfs_check_outcome fuel t :
    outcome t (S fuel) (fun _ => forall x, reach t x -> ~ on_cycle x) (dfs_check eqb succ fuel t).
  Proof.
    unfold dfs_check. eapply outcome_weaken; [|apply (dfs_walk_spec t fuel t [t])].
    - intros v ((Hd & Hc0 & Hcl0) & _ & Hs).
      destruct (finish_node v t Hc0 Hcl0 (Hd t (or_introl eq_refl)) Hs) as [Hc Hcl].
      intros x [l Hp]. exact (Hcl x (closed_path _ _ _ _ Hc (or_introl eq_refl) Hp)).
    - split; [simpl; auto|]. split; [|split; [|repeat constructor; intros []]];
        intros s [<-|[]]; apply reach_refl.
    - split; [intros x _ []|]. split; intros x [].
  Qed.

  Section Fuel.
    Variable U : list A.
    Hypothesis succ_closed : forall x y, edge x y -> In y U.

    Lemma reach_in t x : In t U -> reach t x -> In x U.
    Proof. intros Ht [l Hp]. induction Hp; eauto. Qed.

    Lemma dfs_check_total fuel t :
      length U <= fuel -> In t U ->
      match dfs_check eqb succ fuel t with
      | Ok _ => forall x, reach t x -> ~ on_cycle x
      | Err e => e = EkCircularInclude /\ leads_to_cycle edge t
      end.
    Proof.
      intros Hf Ht. pose proof (dfs_check_outcome fuel t) as Ho.
      destruct (dfs_check eqb succ fuel t) as [v|[]]; simpl in Ho; try contradiction; auto.
      (* out of fuel: more than `fuel` distinct nodes, all reachable from t and so in U *)
      destruct Ho as (l & Hnd & Hr & Hlen).
      pose proof (NoDup_incl_length Hnd (fun x Hx => reach_in t x Ht (Hr x Hx))). lia.
    Qed.

    Theorem dfs_spec fuel :
      length U <= fuel ->
      ((forall t, In t U -> exists v, dfs_check eqb succ fuel t = Ok v) <-> acyclic edge).
    Proof.
      intros Hf. split.
      - (* a cycle through x leaves x by an edge to some y in U, and x is reachable from y *)
        intros H x Hc. pose proof Hc as [l [Hne Hp]].
        inversion Hp as [|? y l' ? He Hp']; subst; [congruence|].
        pose proof (succ_closed _ _ He) as Hy.
        pose proof (dfs_check_total fuel y Hf Hy) as Ho. destruct (H y Hy) as [v Hv]. rewrite Hv in Ho.
        exact (Ho x (ex_intro _ l' Hp') Hc).
      - intros Hac t Ht. pose proof (dfs_check_total fuel t Hf Ht) as Ho.
        destruct (dfs_check eqb succ fuel t) as [v|e]; [eauto|].
        destruct Ho as [_ [y [_ Hy]]]. destruct (Hac y Hy).
    Qed.

    Theorem dfs_check_circular_iff fuel t :
      length U <= fuel -> In t U ->
      (dfs_check eqb succ fuel t = Err EkCircularInclude <-> leads_to_cycle edge t).
    Proof.
      intros Hf Ht. pose proof (dfs_check_total fuel t Hf Ht) as Ho.
      destruct (dfs_check eqb succ fuel t) as [v|e].
      - split; [discriminate|]. intros [y [Hr Hy]]. destruct (Ho y Hr Hy).
      - destruct Ho as [-> Hl]. tauto.
    Qed.


    (* `height` (the longest path below a node, cut at the fuel) stops growing on an acyclic graph once
       the fuel is above |U| + 1; its value from there on is `rank`, which falls along every edge: the
       measure of Section Term *)
    Lemma height_edge f x y : edge x y -> height succ f y < height succ (S f) x.
    Proof. intros He. cbn [height]. apply Nat.lt_succ_r, In_list_max, in_map, He. Qed.

    Lemma height_stable f : forall x, height succ f x < f -> height succ (S f) x = height succ f x.
    Proof.
      induction f as [|f IH]; intros x H; [lia|].
      change (S (list_max (map (height succ (S f)) (succ x))) = S (list_max (map (height succ f) (succ x)))).
      f_equal. f_equal. apply map_ext_in. intros y Hy. apply IH.
      pose proof (height_edge f x y Hy). lia.
    Qed.

    Lemma height_path f : forall x k, k < height succ f x -> exists l y, path x l y /\ length l = k.
    Proof.
      induction f as [|f IH]; intros x k H; [simpl in H; lia|].
      destruct k as [|k].
      - exists [], x. split; [constructor|reflexivity].
      - cbn [height] in H. apply Nat.succ_lt_mono in H.
        destruct (list_max_witness _ _ H) as [a [Ha Hlt]].
        apply in_map_iff in Ha. destruct Ha as [y [<- Hy]].
        destruct (IH y k Hlt) as (l & z & Hp & Hl).
        exists (y :: l), z. split; [econstructor; eauto|simpl; congruence].
    Qed.

    Lemma acyclic_path_nodup : acyclic edge -> forall x l y, path x l y -> NoDup l.
    Proof.
      intros Hac x l y Hp. induction Hp as [|x y l z He Hp IH]; [constructor|].
      constructor; auto. intros Hin. apply in_split in Hin. destruct Hin as (l1 & l2 & ->).
      destruct (path_split _ _ _ _ _ _ Hp) as [H1 _].
      apply (Hac y). exists (l1 ++ [y]). split; [destruct l1; discriminate|exact H1].
    Qed.

    Lemma height_bound : acyclic edge -> forall f x, height succ f x <= S (length U).
    Proof.
      intros Hac f x. destruct (le_lt_dec (height succ f x) (S (length U))) as [|Hlt]; auto.
      exfalso. destruct (height_path f x (S (length U)) Hlt) as (l & y & Hp & Hl).
      pose proof (acyclic_path_nodup Hac _ _ _ Hp) as Hnd.
      pose proof (NoDup_incl_length Hnd (path_incl edge U _ _ _ succ_closed Hp)). lia.
    Qed.

    Definition rank (x : A) : nat := height succ (S (S (length U))) x.

    Theorem rank_decreases : acyclic edge -> forall x y, edge x y -> rank y < rank x.
    Proof.
      intros Hac x y He. unfold rank. set (F := S (S (length U))).
      assert (height succ (S F) x = height succ F x) as Hst.
      { apply height_stable. pose proof (height_bound Hac F x) as Hb. unfold F in *. lia. }
      rewrite <- Hst. apply height_edge, He.
    Qed.

    Lemma rank_bound : acyclic edge -> forall x, rank x <= S (length U).
    Proof. intros Hac x. apply height_bound. exact Hac. Qed.
  End Fuel.
End DFSProofs.

Lemma nmem_In x l : nmem x l = true <-> In x l.
Proof. exact (amem_In name_eqb name_eqb_eq x l). Qed.

Lemma include_loop_all succ m todo :
  include_loop succ m todo = Ok tt ->
  forall n, In n (mkeys todo) -> check_include_cycles succ m n = Ok tt.
Proof.
  induction todo as [|[k t] todo IH]; intros H n Hn; simpl in *; [destruct Hn|].
  destruct (check_include_cycles succ m k) as [[]|] eqn:E; [|discriminate].
  destruct Hn as [<-|Hn]; auto.
Qed.

Lemma mkeys_fuel (m : smap) : length (mkeys m) <= S (length m).
Proof. unfold mkeys. rewrite map_length. lia. Qed.

(* succ is a parameter: the walk of tera and the repaired one (D10) differ in it only *)
Theorem include_dfs_spec (m : smap) (succ : name -> list name) :
  (forall x y, In y (succ x) -> In y (mkeys m)) ->
  ((forall n, In n (mkeys m) -> check_include_cycles succ m n = Ok tt)
   <-> acyclic (edge succ)).
Proof.
  intros Hcl.
  rewrite <- (dfs_spec name_eqb succ name_eqb_eq (mkeys m) Hcl (S (length m)) (mkeys_fuel m)).
  unfold check_include_cycles. split; intros H n Hn; specialize (H n Hn).
  - destruct (dfs_check name_eqb succ (S (length m)) n); [eauto|discriminate].
  - destruct H as [v ->]. reflexivity.
Qed.

Theorem include_err_spec (m : smap) (succ : name -> list name) n :
  (forall x y, In y (succ x) -> In y (mkeys m)) -> In n (mkeys m) ->
  (check_include_cycles succ m n = Err EkCircularInclude <-> leads_to_cycle (edge succ) n).
Proof.
  intros Hcl Hn.
  rewrite <- (dfs_check_circular_iff name_eqb succ name_eqb_eq (mkeys m) Hcl (S (length m)) n (mkeys_fuel m) Hn).
  unfold check_include_cycles. destruct (dfs_check name_eqb succ (S (length m)) n); split; congruence.
Qed.

Lemma resolved_in_keys {V} pre (m : fmap V) l y : In y (filter_map (resolve pre m) l) -> In y (mkeys m).
Proof.
  intros H. apply filter_map_In in H. destruct H as (i & _ & Hr). eapply resolve_in_keys; eauto.
Qed.

Lemma inc_succ_fixed_closed pre m par x y : In y (inc_succ_fixed pre m par x) -> In y (mkeys m).
Proof. apply resolved_in_keys. Qed.

Lemma inc_pinned_in_fixed pre m par x y :
  In y (inc_succ_pinned pre m x) -> In y (inc_succ_fixed pre m par x).
Proof.
  unfold inc_succ_pinned, inc_succ_fixed. intros H. apply filter_map_In in H.
  destruct H as (i & Hi & Hr). apply filter_map_In. exists i. split; auto.
  apply nsort_In. apply in_or_app. auto.
Qed.

(* the second instance: the nodes are the (block, level) pairs of one lineage table, with an edge to
   level 0 of every block the chunk renders and to the next level when it calls super() *)
Lemma bnode_eqb_eq x y : bnode_eqb x y = true <-> x = y.
Proof.
  destruct x as [a i], y as [b j]. unfold bnode_eqb. simpl. rewrite andb_true_iff, name_eqb_eq, Nat.eqb_eq.
  split; [intros [-> ->]; reflexivity | intros [= -> ->]; auto].
Qed.

Lemma blk_nodes_In lin b l chs : In (b, chs) lin -> l < length chs -> In (b, l) (blk_nodes lin).
Proof.
  intros Hin Hl. unfold blk_nodes. apply in_flat_map. exists (b, chs). split; auto.
  simpl. apply in_map_iff. exists l. split; auto. apply in_seq. lia.
Qed.

Lemma blk_succ_closed lin x y : In y (blk_succ lin x) -> In y (blk_nodes lin).
Proof.
  unfold blk_succ. destruct (mfind (fst x) lin) as [chs|] eqn:E1; [|intros []].
  destruct (nth_error chs (snd x)) as [ch|] eqn:E2; [|intros []].
  intros H. apply in_app_or in H. destruct H as [H|H].
  - apply filter_map_In in H. destruct H as (b & _ & Hb).
    destruct (mfind b lin) as [[|c cs]|] eqn:E3; try discriminate. injection Hb as <-.
    eapply blk_nodes_In; [apply mfind_In; eauto|simpl; lia].
  - destruct (calls_super ch && (S (snd x) <? length chs)) eqn:E3; [|destruct H].
    destruct H as [<-|[]]. apply andb_true_iff in E3. destruct E3 as [_ E3]. apply Nat.ltb_lt in E3.
    eapply blk_nodes_In; [apply mfind_In; eauto|exact E3].
Qed.

Lemma blk_edge_block (lin : fmap (list chunk)) b chs l (ch : chunk) b' chs' :
  mfind b lin = Some chs -> nth_error chs l = Some ch -> In (OBlock b') ch ->
  mfind b' lin = Some chs' -> chs' <> [] -> edge (blk_succ lin) (b, l) (b', 0).
Proof.
  intros Hl Hn Hi Hl' Hne. unfold edge, blk_succ. simpl. rewrite Hl, Hn.
  apply in_or_app. left. apply filter_map_In. exists b'. split.
  - unfold chunk_blocks. apply in_flat_map. exists (OBlock b'). split; simpl; auto.
  - rewrite Hl'. destruct chs'; [congruence|reflexivity].
Qed.

Lemma blk_edge_super (lin : fmap (list chunk)) b chs l (ch : chunk) :
  mfind b lin = Some chs -> nth_error chs l = Some ch -> In OSuper ch -> S l < length chs ->
  edge (blk_succ lin) (b, l) (b, S l).
Proof.
  intros Hl Hn Hi Hlt. unfold edge, blk_succ. simpl. rewrite Hl, Hn.
  apply in_or_app. right.
  assert (calls_super ch = true) as -> by (apply existsb_exists; exists OSuper; auto).
  apply Nat.ltb_lt in Hlt. rewrite Hlt. simpl. auto.
Qed.

Lemma blk_check_all_ok lin todo :
  blk_check_all lin todo = true ->
  forall x, In x todo -> exists v, dfs_check bnode_eqb (blk_succ lin) (S (length (blk_nodes lin))) x = Ok v.
Proof.
  induction todo as [|y todo IH]; intros H x Hx; simpl in *; [destruct Hx|].
  destruct (dfs_check bnode_eqb (blk_succ lin) (S (length (blk_nodes lin))) y) as [v|] eqn:E; [|discriminate].
  destruct Hx as [<-|Hx]; eauto.
Qed.

Lemma blocks_acyclic_spec lin : blocks_acyclic lin = true -> acyclic (edge (blk_succ lin)).
Proof.
  intros H. apply (dfs_spec bnode_eqb (blk_succ lin) bnode_eqb_eq (blk_nodes lin) (blk_succ_closed lin)
                     (S (length (blk_nodes lin)))); [lia|].
  apply blk_check_all_ok. exact H.
Qed.

Section Parents.
  Variable pre : list name.
  Variable m : smap.

  Definition ext (x y : name) : Prop :=
    exists t p, mfind x m = Some t /\ td_extends t = Some p /\ resolve pre m p = Some y.
  Definition is_root (x : name) : Prop := exists t, mfind x m = Some t /\ td_extends t = None.
  Definition is_dangling (x : name) : Prop :=
    exists t p, mfind x m = Some t /\ td_extends t = Some p /\ resolve pre m p = None.

  Lemma ext_fun x y z : ext x y -> ext x z -> y = z.
  Proof. intros (t & p & H1 & H2 & H3) (t' & p' & H1' & H2' & H3'). congruence. Qed.

  Lemma ext_in_keys x y : ext x y -> In y (mkeys m).
  Proof. intros (t & p & _ & _ & H). eapply resolve_in_keys; eauto. Qed.

  Lemma chain_length start l u :
    In start (mkeys m) -> path ext start l u -> NoDup (start :: l) -> length (start :: l) <= length m.
  Proof.
    intros Hs Hp Hnd. rewrite <- (map_length fst m). apply (NoDup_incl_length Hnd).
    intros w [<-|Hw]; [exact Hs|]. exact (path_incl ext (mkeys m) _ _ _ ext_in_keys Hp w Hw).
  Qed.

  Definition fp_spec (start : name) (r : rres (list name)) : Prop :=
    match r with
    | Ok ps => exists u, path ext start (rev ps) u /\ is_root u /\ NoDup (start :: ps)
    | Err EkMissingParent =>
        exists l u, path ext start l u /\ NoDup (start :: l) /\ is_dangling u
    | Err EkCircularExtend =>
        exists l u r, path ext start l u /\ NoDup (start :: l) /\ ext u r /\ In r (start :: l)
    | Err EkFuel => True
    | Err _ => False
    end.

  Lemma seen_In r start parents :
    name_eqb r start || nmem r parents = true <-> In r (start :: parents).
  Proof.
    rewrite orb_true_iff, name_eqb_eq, nmem_In. simpl.
    split; (intros [H|H]; [left; congruence|right; exact H]).
  Qed.

  Definition walking (start cn : name) (cur : tdesc) (parents : list name) : Prop :=
    mfind cn m = Some cur /\ path ext start parents cn /\ NoDup (start :: parents).

  Lemma walking_step start cn cur parents p r :
    walking start cn cur parents -> td_extends cur = Some p -> resolve pre m p = Some r ->
    name_eqb r start || nmem r parents = false ->
    exists pt, mfind r m = Some pt /\ walking start r pt (parents ++ [r]).
  Proof.
    intros (Hc & Hp & Hnd) Ee Er Eb.
    destruct (keys_mfind m r (resolve_in_keys _ _ _ _ Er)) as [pt Hpt].
    exists pt. split; [exact Hpt|]. split; [exact Hpt|]. split.
    - eapply path_snoc; eauto. exists cur, p. auto.
    - apply (NoDup_snoc (start :: parents)); auto.
      rewrite <- seen_In, Eb. discriminate.
  Qed.

  Lemma walking_start n t : NoDup (mkeys m) -> In (n, t) m -> walking n n t [].
  Proof.
    intros Hnd Hin. split; [apply In_mfind; auto|].
    split; constructor; [intros []|constructor].
  Qed.

  (* `parents` never repeats, so its length stays below the number of templates and fuel |m| + 1 is
     never used up *)
  Lemma find_parents_sound fuel start : forall cn cur parents,
    walking start cn cur parents ->
    fp_spec start (find_parents fuel pre m start cur parents) /\
    (In start (mkeys m) -> length m < fuel + length (start :: parents) ->
     find_parents fuel pre m start cur parents <> Err EkFuel).
  Proof.
    induction fuel as [|f IH]; intros cn cur parents Hw; pose proof Hw as (Hc & Hp & Hnd).
    - split; [exact I|]. intros Hs Hlen. pose proof (chain_length _ _ _ Hs Hp Hnd). simpl in *. lia.
    - simpl. destruct (td_extends cur) as [p|] eqn:Ee.
      + destruct (resolve pre m p) as [r|] eqn:Er.
        * destruct (name_eqb r start || nmem r parents) eqn:Eb.
          -- split; [|discriminate]. exists parents, cn, r. repeat split; auto.
             ++ exists cur, p. auto.
             ++ apply seen_In. exact Eb.
          -- destruct (walking_step _ _ _ _ _ _ Hw Ee Er Eb) as (pt & -> & Hw').
             destruct (IH r pt _ Hw') as [IH1 IH2]. split; [exact IH1|].
             intros Hs Hlen. apply IH2; [exact Hs|]. simpl. rewrite app_length. simpl in *. lia.
        * split; [|discriminate]. exists parents, cn. repeat split; auto. exists cur, p. auto.
      + split; [|discriminate]. exists cn. rewrite rev_involutive. repeat split; auto.
        * exists cur. auto.
        * inversion Hnd as [|? ? Hs Hnd']; subst. constructor.
          -- rewrite <- in_rev. exact Hs.
          -- apply NoDup_rev. exact Hnd'.
  Qed.

  Lemma find_parents_complete start : forall l2 fuel cn cur parents u,
    mfind cn m = Some cur -> path ext cn l2 u -> is_root u ->
    NoDup (start :: parents ++ l2) -> length l2 < fuel ->
    find_parents fuel pre m start cur parents = Ok (rev (parents ++ l2)).
  Proof.
    induction l2 as [|y l2 IH]; intros fuel cn cur parents u Hc Hp Hr Hnd Hf;
      (destruct fuel as [|f]; [simpl in Hf; lia|]); simpl.
    - inversion Hp; subst. destruct Hr as (t & Ht & He). rewrite Hc in Ht. injection Ht as <-.
      rewrite He, app_nil_r. reflexivity.
    - inversion Hp as [|? ? ? ? Hext Hp']; subst.
      destruct Hext as (t & p & Ht & He & Hres). rewrite Hc in Ht. injection Ht as <-.
      rewrite He, Hres.
      assert (name_eqb y start || nmem y parents = false) as ->.
      { apply not_true_iff_false. rewrite seen_In. intros Hin.
        apply (NoDup_remove_2 (start :: parents) l2 y Hnd). apply in_or_app. left. exact Hin. }
      destruct (keys_mfind m y (resolve_in_keys _ _ _ _ Hres)) as [pt Hpt]. rewrite Hpt.
      rewrite (IH f y pt (parents ++ [y]) u); auto.
      + rewrite <- app_assoc. reflexivity.
      + rewrite <- app_assoc. exact Hnd.
      + simpl in Hf. lia.
  Qed.
End Parents.

Section ParentsSpec.
  Variable pre : list name.
  Variable m : smap.
  Hypothesis m_sorted : msorted m.

  Theorem find_parents_spec n t :
    In (n, t) m ->
    fp_spec pre m n (parents_of pre m n t) /\ parents_of pre m n t <> Err EkFuel.
  Proof.
    intros Hin. pose proof (walking_start pre m n t (msorted_nodup m m_sorted) Hin) as Hw.
    destruct (find_parents_sound pre m (S (length m)) n n t [] Hw) as [H1 H2].
    split; [exact H1|]. apply H2; [exact (in_map fst _ _ Hin)|simpl; lia].
  Qed.

  Theorem find_parents_complete_spec n t l u :
    In (n, t) m -> path (ext pre m) n l u -> is_root m u -> NoDup (n :: l) ->
    parents_of pre m n t = Ok (rev l).
  Proof.
    intros Hin Hp Hr Hnd. unfold parents_of.
    rewrite (find_parents_complete pre m n l (S (length m)) n t [] u); auto.
    - apply In_mfind; auto. apply msorted_nodup; auto.
    - pose proof (chain_length pre m n l u (in_map fst _ _ Hin) Hp Hnd). simpl in *. lia.
  Qed.
End ParentsSpec.

Section Accept.
  Variable ev : env.
  Variable m : smap.
  Hypothesis m_sorted : msorted m.
  Let pre := ev_prefixes ev.

  Lemma parents_of_sound n t ps :
    In (n, t) m -> parents_of pre m n t = Ok ps ->
    exists u, path (ext pre m) n (rev ps) u /\ is_root m u /\ NoDup (n :: ps).
  Proof.
    intros Hin H. destruct (find_parents_spec pre m m_sorted n t Hin) as [Hs _].
    rewrite H in Hs. exact Hs.
  Qed.

  Lemma parents_chain n t ps p tp :
    In (n, t) m -> parents_of pre m n t = Ok ps -> In p ps -> mfind p m = Some tp ->
    exists ps', parents_of pre m p tp = Ok ps' /\ incl ps' ps.
  Proof.
    intros Hin H Hp Htp. destruct (parents_of_sound _ _ _ Hin H) as (u & Hpath & Hroot & Hnd).
    apply in_rev in Hp. apply in_split in Hp. destruct Hp as (l1 & l2 & Hl).
    rewrite Hl in Hpath. destruct (path_split _ _ _ _ _ _ Hpath) as [_ Hp2].
    exists (rev l2). split.
    - apply (find_parents_complete_spec pre m m_sorted p tp l2 u); auto using mfind_In.
      apply (NoDup_app_inv l1). rewrite <- Hl. apply NoDup_rev. inversion Hnd; auto.
    - intros w Hw. apply in_rev. rewrite Hl. apply in_or_app. right. simpl. right.
      exact (proj2 (in_rev l2 w) Hw).
  Qed.

  (* without the D10 repair the includes of every template are walked in the first loop as well *)
  Lemma first_loop_par todo : forall par sz tab par' sz' tab',
    NoDup (mkeys todo) ->
    first_loop ev m todo par sz tab = Ok (par', sz', tab') ->
    (forall n, mfind n par' = match mfind n todo with
                              | Some t => match parents_of pre m n t with Ok ps => Some ps | Err _ => None end
                              | None => mfind n par
                              end) /\
    (forall n t, In (n, t) todo -> exists ps, parents_of pre m n t = Ok ps) /\
    (ev_fix_d10 ev = false ->
     forall n, In n (mkeys todo) -> check_include_cycles (inc_succ_pinned pre m) m n = Ok tt).
  Proof.
    induction todo as [|[n t] todo IH]; intros par sz tab par' sz' tab' Hnd H; simpl in H.
    - injection H as <- <- <-. repeat split; auto. intros n t []. intros _ n [].
    - fold pre in H. destruct (parents_of pre m n t) as [ps|] eqn:Ep; [|discriminate].
      destruct (if ev_fix_d10 ev then _ else _) as [[]|] eqn:E2; [|discriminate].
      destruct (add_components _ _ _ _) as [tab1|]; [|discriminate].
      simpl in Hnd. inversion Hnd as [|? ? Hni Hnd']; subst.
      destruct (IH _ _ _ _ _ _ Hnd' H) as (A & B & D). split; [|split].
      + (* no later entry overwrites n: the keys of todo do not repeat *)
        intros k. rewrite A, mfind_minsert. simpl. destruct (name_eqb_spec k n) as [->|_]; [|reflexivity].
        rewrite (proj2 (mfind_none_keys n todo) Hni), Ep. reflexivity.
      + intros k t' [E|Hin]; [injection E as <- <-|]; eauto.
      + intros Hfx k [<-|Hk]; [rewrite Hfx in E2; exact E2|apply D; auto].
  Qed.

  Lemma first_loop_psof_closed par sz tab :
    first_loop ev m m [] [] [] = Ok (par, sz, tab) ->
    forall n p, In p (psof par n) -> incl (psof par p) (psof par n).
  Proof.
    intros E1 n p Hp.
    destruct (first_loop_par m [] [] [] par sz tab (msorted_nodup m m_sorted) E1) as (F & _).
    unfold psof in *. rewrite F in Hp. rewrite !F.
    destruct (mfind n m) as [t|] eqn:Ht; [|destruct Hp].
    destruct (parents_of pre m n t) as [ps|] eqn:Hpo; [|destruct Hp].
    destruct (mfind p m) as [tp|] eqn:Htp; [|intros ? []].
    destruct (parents_chain _ _ _ _ _ (mfind_In _ _ _ Ht) Hpo Hp Htp) as (ps2 & -> & Hincl). exact Hincl.
  Qed.

  Lemma include_loop_ok succ todo :
    include_loop succ m todo = Ok tt ->
    forall n, In n (mkeys todo) -> exists v, dfs_check name_eqb succ (S (length m)) n = Ok v.
  Proof.
    intros H n Hn. pose proof (include_loop_all _ _ _ H n Hn) as E.
    unfold check_include_cycles in E.
    destruct (dfs_check name_eqb succ (S (length m)) n); [eauto|discriminate].
  Qed.

End Accept.

Theorem accepted_only_if ev sufs m tm comps :
  msorted m -> finalize_src ev sufs m = Ok (tm, comps) ->
  (forall n t, In (n, t) m ->
     exists ps u, parents_of (ev_prefixes ev) m n t = Ok ps /\
                  path (ext (ev_prefixes ev) m) n (rev ps) u /\ is_root m u /\ NoDup (n :: ps)) /\
  (forall n t i, In (n, t) m -> In i (td_includes t) ->
     exists r, resolve (ev_prefixes ev) m i = Some r) /\
  acyclic (edge (inc_succ_pinned (ev_prefixes ev) m)).
Proof.
  intros Hs H. destruct (finalize_src_inv _ _ _ _ _ H) as (par & sz & tab & E1 & E2 & E3 & _).
  destruct (first_loop_par ev m m [] [] [] par sz tab (msorted_nodup m Hs) E1) as (_ & F1 & F2).
  rewrite forallb_forall in E3.
  split; [|split].
  - intros n t Hin. destruct (F1 _ _ Hin) as (ps & Hp). exists ps.
    destruct (parents_of_sound ev m Hs _ _ _ Hin Hp) as (u & A1 & A2 & A3). eauto.
  - intros n t i Hin Hi. specialize (E3 _ Hin). simpl in E3.
    apply andb_true_iff in E3. destruct E3 as [E3 _].
    unfold refs_ok in E3. apply andb_true_iff in E3. destruct E3 as [_ E3].
    rewrite forallb_forall in E3. specialize (E3 _ Hi).
    destruct (resolve (ev_prefixes ev) m i); [eauto|discriminate].
  - destruct (ev_fix_d10 ev) eqn:Efx.
    + apply (acyclic_sub _ (edge (inc_succ_fixed (ev_prefixes ev) m par))).
      * intros x y. apply inc_pinned_in_fixed.
      * apply (include_dfs_spec m _ (inc_succ_fixed_closed _ m par)).
        apply include_loop_all. exact (E2 eq_refl).
    + apply (include_dfs_spec m _ (fun x => resolved_in_keys _ m _)). exact (F2 eq_refl).
Qed.

(* The chunks that run under n are chunks of n or of one of its parents.  For the lineages stored for n:
   `inherit_one` only copies from parents, and parent lists are closed under "parent of". *)
Section Origin.
  Variable m : smap.
  Variable par : fmap (list name).
  Hypothesis chain : forall n p, In p (psof par n) -> incl (psof par p) (psof par n).

  Definition from_chain (n : name) (ch : chunk) : Prop :=
    exists w tw, In w (n :: psof par n) /\ mfind w m = Some tw /\ In ch (td_chunks tw).
  Definition lin_from_chain (n : name) (lin : fmap (list chunk)) : Prop :=
    forall b chs ch, In (b, chs) lin -> In ch chs -> from_chain n ch.

  Lemma block_from_chain n w tw b ch :
    In w (n :: psof par n) -> mfind w m = Some tw -> In (b, ch) (td_blocks tw) -> from_chain n ch.
  Proof.
    intros Hw Htw Hb. exists w, tw. split; [exact Hw|]. split; [exact Htw|].
    right. apply in_or_app. left. exact (in_map snd _ _ Hb).
  Qed.

  Lemma lineage_up_from_chain n b near ch :
    incl near (psof par n) -> In ch (lineage_up m b near) -> from_chain n ch.
  Proof.
    induction near as [|p near IH]; intros Hincl; simpl; [tauto|].
    apply incl_cons_inv in Hincl. destruct Hincl as [Hp Hincl].
    destruct (mfind p m) as [pt|] eqn:Ep; auto.
    destruct (mfind b (td_blocks pt)) as [pch|] eqn:Eb; auto.
    intros [<-|Hin]; [eapply block_from_chain; eauto using mfind_In; right; exact Hp|].
    destruct (calls_super pch); [auto|destruct Hin].
  Qed.

  Lemma own_lineage_In ps t b chs :
    In (b, chs) (own_lineage m ps t) ->
    exists bch, In (b, bch) (td_blocks t) /\ chs = bch :: (if calls_super bch then lineage_up m b (rev ps) else []).
  Proof.
    unfold own_lineage. induction (td_blocks t) as [|[bn bch] l IH]; simpl; [tauto|].
    intros H. apply minsert_In in H. destruct H as [[-> ->]|H]; eauto.
    destruct (IH H) as (c & Hc & ->). eauto.
  Qed.

  Lemma own_lineage_from_chain n t :
    mfind n m = Some t -> lin_from_chain n (own_lineage m (psof par n) t).
  Proof.
    intros Ht b chs ch Hin Hch. apply own_lineage_In in Hin. destruct Hin as (bch & Hb & ->).
    destruct Hch as [<-|Hch]; [eapply block_from_chain; eauto; left; reflexivity|].
    destruct (calls_super bch); [|destruct Hch].
    apply (lineage_up_from_chain n) in Hch; auto. intros p Hp. apply in_rev. exact Hp.
  Qed.

  Lemma or_insert_all_In from : forall into b chs,
    In (b, chs) (or_insert_all from into) -> In (b, chs) into \/ In (b, chs) from.
  Proof.
    unfold or_insert_all. induction from as [|[fb fchs] from IH]; intros into b chs H; simpl in H; auto.
    apply IH in H. destruct H as [H|H]; [|simpl; auto].
    destruct (mmem fb into); auto.
    apply minsert_In in H. destruct H as [[-> ->]|H]; simpl; auto.
  Qed.

  Lemma from_chain_up n p ch : In p (psof par n) -> from_chain p ch -> from_chain n ch.
  Proof.
    intros Hp (w & tw & Hw & Hb). exists w, tw. split; auto. right.
    destruct Hw as [<-|Hw]; auto. eapply chain; eauto.
  Qed.

  (* the invariant of the inheritance loop over the whole table *)
  Definition table_from_chain (tb : fmap (fmap (list chunk))) : Prop :=
    forall k lin, mfind k tb = Some lin -> lin_from_chain k lin.

  Lemma inherit_one_from_chain tb n : table_from_chain tb -> table_from_chain (inherit_one par tb n).
  Proof.
    unfold inherit_one. fold (psof par n).
    assert (incl (rev (psof par n)) (psof par n)) as Hincl by (intros z Hz; apply in_rev; exact Hz).
    revert tb Hincl. generalize (rev (psof par n)) as l.
    induction l as [|p l IH]; intros tb0 Hincl Hj; simpl; auto.
    apply incl_cons_inv in Hincl. destruct Hincl as [Hp Hincl]. apply IH; [exact Hincl|].
    destruct (mfind p tb0) as [pb|] eqn:Ep; auto. destruct (mfind n tb0) as [cb|] eqn:En; auto.
    intros k lin. rewrite mfind_minsert. destruct (name_eqb_spec k n) as [->|_]; [|apply Hj].
    intros [= <-] b chs ch Hb Hch. apply or_insert_all_In in Hb. destruct Hb as [Hb|Hb].
    - exact (Hj n cb En b chs ch Hb Hch).
    - exact (from_chain_up n p ch Hp (Hj p pb Ep b chs ch Hb Hch)).
  Qed.

  Lemma fold_inherit_from_chain keys : forall tb,
    table_from_chain tb -> table_from_chain (fold_left (inherit_one par) keys tb).
  Proof. induction keys as [|k keys IH]; simpl; auto using inherit_one_from_chain. Qed.

  Lemma lineages_from_chain : table_from_chain (lineages m par).
  Proof.
    apply fold_inherit_from_chain. intros k lin. rewrite (mfind_map (fun k t => own_lineage m (psof par k) t)).
    destruct (mfind k m) as [t|] eqn:Ek; [|discriminate]. intros [= <-]. apply own_lineage_from_chain, Ek.
  Qed.

  Lemma lineage_chunk_from_chain v b chs ch :
    mfind b (linof (lineages m par) v) = Some chs -> In ch chs -> from_chain v ch.
  Proof.
    unfold linof. destruct (mfind v (lineages m par)) as [lv|] eqn:Etb; [|discriminate].
    intros Hb Hch. exact (lineages_from_chain v lv Etb b chs ch (mfind_In _ _ _ Hb) Hch).
  Qed.

  Lemma from_chain_followed pre n ch i u :
    from_chain n ch -> In (OInclude i) ch -> resolve pre m i = Some u -> In u (inc_succ_fixed pre m par n).
  Proof.
    intros (w & tw & Hw & Htw & Hch) Hi Hr. unfold inc_succ_fixed. fold (psof par n).
    apply filter_map_In. exists i. split; auto.
    apply nsort_In.
    assert (In i (own_includes m w)) as Hown.
    { unfold own_includes. rewrite Htw. unfold td_includes. apply nsort_In.
      apply in_flat_map. exists ch. split; auto.
      unfold chunk_includes. apply in_flat_map. exists (OInclude i). split; simpl; auto. }
    apply in_or_app. destruct Hw as [<-|Hw]; auto.
    right. apply in_flat_map. exists w. auto.
  Qed.
End Origin.

(* the lineage table stored for v: the (block, level) graph that `lineage_of s v` reads *)
Definition lin_s (s : state) (v : name) : fmap (list chunk) :=
  match mfind v (st_tpls s) with Some e => e_lineage e | None => [] end.

Lemma lineage_of_lin s v b : lineage_of s v b = mfind b (lin_s s v).
Proof. unfold lineage_of, lin_s. destruct (mfind v (st_tpls s)); reflexivity. Qed.

(* Termination of the render recursion of a state whose block graphs are acyclic and whose
   includes all follow the edges of one acyclic successor function succI over the template names:
   the measure of a frame is (component depth left, include rank of the VM template, rank of the
   block node), ordered lexicographically and packed into one number.
   Digits: a rank is at most S |nodes| (`rank_bound`), so `inc_rank v <= inc_cap` = |templates| + 1
   and `blk_rank v x <= max_blk_nodes s + 1` = `blk_cap - 2`.  Within the VM template v, block
   frames take the digits 0 .. blk_cap - 2 and the main frame the digit blk_cap - 1: a main chunk
   may render any block of v, never the reverse.  A component frame ranks (inc_cap + 1) * blk_cap,
   above every main and block frame: its body may include any template at all, with no edge of
   succI to account for it; what bounds component calls is the depth d, the leading digit of
   `measure`, with `span` = one more than the largest `frame_rank`. *)
Section Term.
  Variable pre : list name.
  Variable s : state.
  Variable succI : name -> list name.

  (* the frames the recursion can reach *)
  Definition valid_frame (f : frame) : Prop :=
    match f with
    | FMain v w => w = root_of s v
    | _ => True
    end.

  Hypothesis succI_closed : forall x y, edge succI x y -> In y (mkeys (st_tpls s)).
  Hypothesis succI_acyclic : acyclic (edge succI).
  Hypothesis blocks_acyclic_s : forall v e,
    mfind v (st_tpls s) = Some e -> blocks_acyclic (e_lineage e) = true.
  Hypothesis followed : forall f ch n u,
    valid_frame f -> frame_chunk s f = Some ch ->
    In (OInclude n) ch -> resolve pre (st_tpls s) n = Some u ->
    match f with FComp _ _ => True | _ => edge succI (frame_vm f) u end.

  Definition inc_rank : name -> nat := rank succI (mkeys (st_tpls s)).
  Definition blk_rank (v : name) : bnode -> nat := rank (blk_succ (lin_s s v)) (blk_nodes (lin_s s v)).
  Definition inc_cap : nat := length (st_tpls s) + 1.
  Definition blk_cap : nat := max_blk_nodes s + 3.

  Lemma lin_acyclic v : acyclic (edge (blk_succ (lin_s s v))).
  Proof.
    apply blocks_acyclic_spec. unfold lin_s.
    destruct (mfind v (st_tpls s)) as [e|] eqn:E; [exact (blocks_acyclic_s v e E)|reflexivity].
  Qed.

  Lemma inc_rank_decreases v u : edge succI v u -> inc_rank u < inc_rank v.
  Proof. exact (rank_decreases _ _ succI_closed succI_acyclic v u). Qed.

  Lemma blk_rank_decreases v x y : edge (blk_succ (lin_s s v)) x y -> blk_rank v y < blk_rank v x.
  Proof. exact (rank_decreases _ _ (blk_succ_closed (lin_s s v)) (lin_acyclic v) x y). Qed.

  Lemma inc_rank_bound v : inc_rank v <= inc_cap.
  Proof.
    unfold inc_cap. rewrite Nat.add_1_r, <- (map_length fst (st_tpls s)). apply rank_bound; assumption.
  Qed.

  Lemma blk_rank_bound v x : blk_rank v x + 2 <= blk_cap.
  Proof.
    pose proof (rank_bound _ _ (blk_succ_closed (lin_s s v)) (lin_acyclic v) x) as Hb.
    assert (length (blk_nodes (lin_s s v)) <= max_blk_nodes s); [|unfold blk_rank, blk_cap; lia].
    unfold lin_s, max_blk_nodes. destruct (mfind v (st_tpls s)) as [e|] eqn:Ev; [|simpl; lia].
    apply In_list_max, in_map_iff. exists (v, e). split; [reflexivity|apply mfind_In; exact Ev].
  Qed.

  Definition span : nat := (inc_cap + 1) * blk_cap + 1.
  Definition frame_rank (f : frame) : nat :=
    match f with
    | FComp _ _ => (inc_cap + 1) * blk_cap
    | FMain v _ => inc_rank v * blk_cap + (blk_cap - 1)
    | FBlk v b l => inc_rank v * blk_cap + blk_rank v (b, l)
    end.
  Definition measure (d : nat) (f : frame) : nat := (max_comp_depth - d) * span + frame_rank f.

  Lemma frame_rank_lt_span f : frame_rank f < span.
  Proof.
    unfold span. destruct f as [v w|v b l|v c]; cbn [frame_rank].
    - (* blk_rank_bound at `(v, 0)`, which need be no node of the graph, here and below: all it gives
         is 2 <= blk_cap *)
      pose proof (inc_rank_bound v). pose proof (blk_rank_bound v (v, 0)). nia.
    - pose proof (inc_rank_bound v). pose proof (blk_rank_bound v (b, l)). nia.
    - lia.
  Qed.

  Lemma callee_decreases d f ch o d' f' :
    valid_frame f -> d <= max_comp_depth -> frame_chunk s f = Some ch -> In o ch ->
    callee pre s d f o = Some (Some (d', f')) ->
    valid_frame f' /\ measure d' f' < measure d f /\ d' <= max_comp_depth.
  Proof.
    intros Hv Hd Hch Hin Hc. destruct o as [i|n|b| |c]; cbn [callee] in Hc.
    - discriminate.
    - (* include: the root ancestor's main chunk, under the included template *)
      destruct (resolve pre (st_tpls s) n) as [u|] eqn:Er; [|discriminate].
      injection Hc as <- <-. split; [reflexivity|].
      assert (frame_rank (FMain u (root_of s u)) < frame_rank f) as Hlt.
      { pose proof (followed f ch n u Hv Hch Hin Er) as He.
        destruct f as [v w|v b l|v c]; cbn [frame_rank frame_vm] in *.
        - (* from a main chunk or a block: an edge of succI *)
          pose proof (inc_rank_decreases v u He). pose proof (blk_rank_bound v (v, 0)). nia.
        - pose proof (inc_rank_decreases v u He). pose proof (blk_rank_bound v (b, l)). nia.
        - (* from a component body: any main frame ranks below *)
          pose proof (inc_rank_bound u). pose proof (blk_rank_bound u (u, 0)). nia. }
      unfold measure. split; [lia|exact Hd].
    - (* RenderBlock: level 0 of the block's lineage under the same VM template *)
      destruct (lineage_of s (frame_vm f) b) as [[|c0 chs']|] eqn:El; try discriminate.
      injection Hc as <- <-. split; [exact I|].
      assert (frame_rank (FBlk (frame_vm f) b 0) < frame_rank f) as Hlt.
      { destruct f as [v w|v b0 l|v c]; cbn [frame_rank frame_chunk valid_frame frame_vm] in *.
        - (* from the main chunk: the top digit *) pose proof (blk_rank_bound v (b, 0)). lia.
        - (* from a block: an edge of the (block, level) graph *)
          destruct (lineage_of s v b0) as [chs|] eqn:Hl; [|discriminate]. rewrite lineage_of_lin in Hl, El.
          assert (c0 :: chs' <> []) as Hne by discriminate.
          pose proof (blk_rank_decreases v _ _ (blk_edge_block _ _ _ _ _ _ _ Hl Hch Hin El Hne)). lia.
        - (* from a component body *) pose proof (inc_rank_bound v). pose proof (blk_rank_bound v (b, 0)). nia. }
      unfold measure. split; [lia|exact Hd].
    - (* super(): the next level of the same lineage *)
      destruct f as [v w|v b l|v c]; try discriminate.
      destruct (lineage_of s v b) as [chs|] eqn:El; [|discriminate].
      destruct (S l <? length chs) eqn:Elt; [|discriminate].
      apply Nat.ltb_lt in Elt. injection Hc as <- <-.
      split; [exact I|].
      simpl in Hch. rewrite El in Hch. rewrite lineage_of_lin in El.
      pose proof (blk_rank_decreases v _ _ (blk_edge_super _ _ _ _ _ El Hch Hin Elt)).
      unfold measure. cbn [frame_rank]. split; [lia|exact Hd].
    - (* component call: one level deeper *)
      destruct (max_comp_depth <=? d) eqn:Ed; [discriminate|].
      apply Nat.leb_gt in Ed.
      destruct (comp_chunk s (frame_vm f) c); [|discriminate].
      injection Hc as <- <-. split; [exact I|]. split; [|lia].
      unfold measure. cbn [frame_rank]. pose proof (frame_rank_lt_span f).
      assert (max_comp_depth - d = S (max_comp_depth - S d)) as -> by lia.
      unfold span in *. lia.
  Qed.

  Lemma exec_ops_fuel rec d f ch :
    valid_frame f -> d <= max_comp_depth -> frame_chunk s f = Some ch ->
    (forall d' f', valid_frame f' -> d' <= max_comp_depth -> measure d' f' < measure d f -> rec d' f' <> ROutOfFuel) ->
    forall ops acc, incl ops ch -> exec_ops rec pre s d f ops acc <> ROutOfFuel.
  Proof.
    intros Hv Hd Hch Hrec. induction ops as [|o ops IH]; intros acc Hincl; simpl; [discriminate|].
    assert (incl ops ch) as Hincl' by (intros z Hz; apply Hincl; simpl; auto).
    assert (In o ch) as Hin by (apply Hincl; simpl; auto).
    destruct o as [i|n|b| |c]; [apply IH; auto| | | |];
      (destruct (callee pre s d f _) as [[[d' f']|]|] eqn:Ec;
       [ destruct (callee_decreases _ _ _ _ _ _ Hv Hd Hch Hin Ec) as (V1 & V2 & V3);
         pose proof (Hrec d' f' V1 V3 V2) as Hne;
         destruct (rec d' f'); [apply IH; auto|discriminate|congruence]
       | apply IH; auto
       | discriminate ]).
  Qed.

  Theorem exec_terminates : forall fuel d f,
    valid_frame f -> d <= max_comp_depth -> measure d f < fuel -> exec fuel pre s d f <> ROutOfFuel.
  Proof.
    induction fuel as [|k IH]; intros d f Hv Hd Hmu; [lia|].
    simpl. destruct (frame_chunk s f) as [ch|] eqn:Ech; [|discriminate].
    eapply exec_ops_fuel; eauto.
    - intros d' f' V1 V3 V2. apply IH; auto. lia.
    - apply incl_refl.
  Qed.

  Lemma measure_bound d f : measure d f < render_fuel s.
  Proof.
    unfold measure, render_fuel, frame_span. fold blk_cap. pose proof (frame_rank_lt_span f). unfold span, inc_cap in *. nia.
  Qed.

  Theorem render_terminates n : render (render_fuel s) pre s n <> ROutOfFuel.
  Proof.
    unfold render. destruct (resolve pre (st_tpls s) n) as [t|]; [|discriminate].
    destruct (mfind t (st_tpls s)) as [e|] eqn:Et; [|discriminate].
    replace (match e_parents e with r :: _ => r | [] => t end) with (root_of s t)
      by (unfold root_of; rewrite Et; reflexivity).
    apply exec_terminates; [reflexivity|lia|apply measure_bound].
  Qed.
End Term.

Section Finite.
  Variable ev : env.
  Variable sufs : list name.
  Variable m : smap.
  Hypothesis m_sorted : msorted m.
  Hypothesis fix10 : ev_fix_d10 ev = true.
  Variable tm : tmap.
  Variable comps : fmap chunk.
  Hypothesis Hfin : finalize_src ev sufs m = Ok (tm, comps).
  (* with fixes/D13 applied this is established by finalize itself *)
  Hypothesis Hblk : forall n e, mfind n tm = Some e -> blocks_acyclic (e_lineage e) = true.

  Let pre := ev_prefixes ev.
  Let s := {| st_sufs := sufs; st_tpls := tm; st_comps := comps |}.

  Theorem render_fuel_suffices : forall n, render (render_fuel s) pre s n <> ROutOfFuel.
  Proof.
    destruct (finalize_src_inv _ _ _ _ _ Hfin) as (par & sz & tab & E1 & E2 & _ & _ & _ & Htm).
    assert (forall k, mfind k tm = option_map (mk_entry sufs m par sz k) (mfind k m)) as Hfind
      by (intros k; rewrite Htm; apply mfind_map).
    assert (mkeys tm = mkeys m) as Hkeys by (rewrite Htm; unfold mkeys; rewrite map_map; reflexivity).
    pose proof (first_loop_psof_closed ev m m_sorted par sz tab E1) as Hchain.
    assert (forall v ch i u, from_chain m par v ch -> In (OInclude i) ch -> resolve pre tm i = Some u ->
              In u (inc_succ_fixed pre m par v)) as Hinc.
    { intros v ch i u Hch Hi Hres. apply (from_chain_followed m par pre v ch i u Hch Hi).
      (* resolution sees the keys only, and tm has those of m *)
      apply resolve_spec in Hres. unfold has in Hres. rewrite Hkeys in Hres. apply resolve_spec, Hres. }
    apply (render_terminates pre s (inc_succ_fixed pre m par)).
    - (* succI_closed *) intros x y Hy. simpl. rewrite Hkeys. exact (inc_succ_fixed_closed pre m par x y Hy).
    - (* succI_acyclic: the repaired include walk passed *)
      apply (include_dfs_spec m _ (inc_succ_fixed_closed pre m par)), include_loop_all, E2, fix10.
    - (* blocks_acyclic_s *) exact Hblk.
    - (* followed *) intros f ch i u Hv Hch Hi Hres.
      destruct f as [v w|v b l|v c]; [| |exact I]; apply (Hinc v ch i u); auto; simpl in Hv, Hch.
      + (* the root is v or the first of its parents *)
        subst w. rewrite Hfind in Hch.
        destruct (mfind (root_of s v) m) as [tw|] eqn:Etw; [|discriminate]. injection Hch as <-.
        exists (root_of s v), tw. split; [|split; [exact Etw|left; reflexivity]].
        unfold root_of. simpl. rewrite Hfind. destruct (mfind v m); simpl; [|auto].
        destruct (psof par v); simpl; auto.
      + unfold lineage_of in Hch. simpl in Hch. rewrite Hfind in Hch.
        destruct (mfind v m) as [t'|]; [|discriminate]. simpl in Hch.
        destruct (mfind b (linof (lineages m par) v)) as [chs|] eqn:Hl; [|discriminate].
        exact (lineage_chunk_from_chain m par Hchain v b chs ch Hl (nth_error_In _ _ Hch)).
  Qed.
End Finite.

Lemma finalize_d13_blocks ev sufs m tm comps :
  ev_fix_d13 ev = true -> finalize_src ev sufs m = Ok (tm, comps) ->
  forall n e, mfind n tm = Some e -> blocks_acyclic (e_lineage e) = true.
Proof.
  intros Hfx H n e He.
  destruct (finalize_src_inv _ _ _ _ _ H) as (par & sz & tab & _ & _ & _ & E & _ & ->).
  specialize (E Hfx). rewrite forallb_forall in E.
  rewrite mfind_map in He. destruct (mfind n m) as [t|] eqn:Hn; [|discriminate].
  injection He as <-. apply E. eapply mfind_keys; eauto.
Qed.

Theorem render_fuel_suffices_full ev sufs m :
  msorted m -> ev_fix_d10 ev = true -> ev_fix_d13 ev = true -> forall tm comps,
  finalize_src ev sufs m = Ok (tm, comps) ->
  forall n,
    render (render_fuel {| st_sufs := sufs; st_tpls := tm; st_comps := comps |}) (ev_prefixes ev)
           {| st_sufs := sufs; st_tpls := tm; st_comps := comps |} n <> ROutOfFuel.
Proof.
  intros Hs H10 H13 tm comps Hfin. apply (render_fuel_suffices ev sufs m Hs H10 tm comps Hfin).
  eapply finalize_d13_blocks; eauto.
Qed.