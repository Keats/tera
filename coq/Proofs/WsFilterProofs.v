(* C08 — whitespace_filter + drop-empty against the adjacency specification (for every document, no
   well-formedness needed), the D6 witness against the comment rule of lexer.rs,
   rendering of the specified token list, validate, and that the filter commutes with the
   template-level view of a token stream (`inner_placed`, `wsf_proj`). *)
From TeraV Require Import Model.Value Model.Utf8Lex Model.Lexer Spec.Doc Model.LexerDoc Proofs.Utf8Proofs.
Local Open Scope N_scope.

Lemma trim_start_if_twice : forall a b s,
  trim_start_if a (trim_start_if b s) = trim_start_if (b || a) s.
Proof. intros [|] [|] s; try reflexivity. apply trim_start_idem. Qed.

Lemma trim_end_if_twice : forall a b s, trim_end_if a (trim_end_if b s) = trim_end_if (b || a) s.
Proof. intros [|] [|] s; try reflexivity. apply trim_end_idem. Qed.

Lemma trim_if_comm : forall a b s,
  trim_start_if a (trim_end_if b s) = trim_end_if b (trim_start_if a s).
Proof. intros [|] [|] s; try reflexivity. apply trim_start_end_comm. Qed.

Lemma raw_trim_compose : forall il ir lead trail body,
  trim_end_if trail (trim_start_if lead (trim_end_if ir (trim_start_if il body)))
  = trim_end_if (ir || trail) (trim_start_if (il || lead) body).
Proof. intros. now rewrite trim_if_comm, trim_end_if_twice, trim_start_if_twice. Qed.

Definition annot (ts : list tok) : list (tok * unit) := map (fun t => (t, tt)) ts.

Lemma wsf_nil : forall fx f, wsf fx f [] = [].
Proof. reflexivity. Qed.

(* what the filter writes for t when the flag is f (peek: the next token asks for trimming),
   and the flag it carries on *)
Definition wsf_tok (f peek : bool) (t : tok) : tok :=
  match t with
  | TContent s | TRaw _ s _ => TContent (trim_end_if peek (trim_start_if f s))
  | TComment _ _ => TContent []
  | _ => t
  end.

Definition wsf_flag (fx f : bool) (t : tok) : bool :=
  match t with
  | TRaw _ _ w | TVarEnd w | TTagEnd w => w
  | TComment _ r => comment_flag fx f r
  | _ => false
  end.

Lemma wsf_cons : forall fx f t ts,
  wsf fx f (t :: ts) = wsf_tok f (peek_trims (annot ts)) t :: wsf fx (wsf_flag fx f t) ts.
Proof.
  intros fx f t ts. unfold wsf. cbn [map ws_filter_gen]. fold (annot ts).
  destruct t as [s|l s r|w|[|]|w|[|]|l r|s|s|z|s|b|o]; try reflexivity;
    destruct f, (peek_trims (annot ts)); reflexivity.
Qed.

Lemma peek_items_of : forall dc, peek_trims (annot (items_of dc)) = trail_of dc.
Proof.
  intros [|it rest]; [reflexivity|].
  destruct it as [s|l b r|l il b ir r|l s r|l s r]; cbn; try reflexivity; destruct l; reflexivity.
Qed.

Lemma drop_empty_text : forall s ts,
  drop_empty (TContent s :: ts) = flat_map seg_toks (text_seg s) ++ drop_empty ts.
Proof. intros [|b s] ts; reflexivity. Qed.

Lemma wsf_fixed_spec_gen : forall dc prev,
  drop_empty (wsf true (lead_of prev) (items_of dc)) = flat_map seg_toks (spec_segs prev dc).
Proof.
  induction dc as [|it rest IH]; intro prev; [reflexivity|].
  change (items_of (it :: rest)) with (item_toks it ++ items_of rest).
  cbn [spec_segs]. rewrite flat_map_app.
  destruct it as [s|l b r|l il b ir r|l s r|l s r]; cbn [item_toks app].
  all: rewrite !wsf_cons; cbn [wsf_tok wsf_flag comment_flag].
  - rewrite drop_empty_text, peek_items_of. f_equal. apply (IH (Some (Text s))).
  - apply (IH (Some (Comment l b r))).
  - rewrite drop_empty_text, peek_items_of, raw_trim_compose. f_equal.
    apply (IH (Some (Raw l il b ir r))).
  - cbn. f_equal. f_equal. apply (IH (Some (Expr l s r))).
  - cbn. f_equal. f_equal. apply (IH (Some (Tag l s r))).
Qed.

Lemma wsf_fixed_spec : forall dc, drop_empty (wsf true false (items_of dc)) = spec_toks dc.
Proof. intro dc. exact (wsf_fixed_spec_gen dc None). Qed.

(* D6: with the comment rule of the pinned lexer.rs (685-691) the statement is false:
   A {{ 1 -}}{# c #}  B  — the flag set by `-}}` survives the comment and trims "  B",
   which is not directly adjacent to the expression. *)
Definition d6_witness : doc :=
  [Text [0x41; 0x20]; Expr false [0x20; 0x31; 0x20] true; Comment false [0x20; 0x63; 0x20] false;
   Text [0x20; 0x20; 0x42]].

Lemma comment_flag_differs : forall flag e,
  comment_flag false flag e <> comment_flag true flag e <-> flag = true /\ e = false.
Proof. intros [|] [|]; cbn; intuition congruence. Qed.

Lemma render_spec_toks_gen : forall out_of segs k,
  render_text_from out_of k (flat_map seg_toks segs) = segs_bytes out_of k segs.
Proof.
  induction segs as [|s segs IH]; intro k; [reflexivity|].
  destruct s as [s|l r|l r]; cbn; now rewrite IH.
Qed.

Lemma render_spec_toks : forall out_of dc,
  render_text out_of (spec_toks dc) = spec_render out_of dc.
Proof. intros. apply render_spec_toks_gen. Qed.

(* each test of validate contributes one conjunct *)
Lemma err_unless : forall b (P Q : Prop) (r : res unit), reflect P b -> (r = ROk tt <-> Q) ->
  (if negb b then RErr ErrMsg else r) = ROk tt <-> P /\ Q.
Proof. intros b P Q r [p|n] H; cbn [negb]; [tauto|]. split; [discriminate|tauto]. Qed.

Lemma err_if : forall b (P Q : Prop) (r : res unit), reflect P b -> (r = ROk tt <-> Q) ->
  (if b then RErr ErrMsg else r) = ROk tt <-> ~ P /\ Q.
Proof. intros b P Q r [p|n] H; [|tauto]. split; [discriminate|tauto]. Qed.

Lemma validate_spec : forall dl, validate dl = ROk tt <-> spelling_ok (spelling_of dl).
Proof.
  intro dl. unfold validate, spelling_ok, spelling_of. cbn [bs be vs ve cs ce].
  do 6 (apply err_unless; [apply Nat.eqb_spec|]).
  do 2 (apply err_if; [apply bytes_eqb_spec|]).
  destruct (bytes_eqb_spec (d_vs dl) (d_cs dl)); split; congruence.
Qed.

(* The filter runs on the full token stream; the specification speaks about the template-level
   tokens.  On streams where every token of a tag's interior directly follows the tag's start
   token or another interior token (as in every stream the lexer produces) the two commute. *)
Definition is_open (t : tok) : bool :=
  match t with TVarStart _ | TTagStart _ => true | _ => false end.

Fixpoint inner_placed (b : bool) (ts : list tok) : bool :=
  match ts with
  | [] => true
  | t :: r => if is_template_tok t then inner_placed (is_open t) r else b && inner_placed true r
  end.

Lemma peek_filter : forall ts, inner_placed false ts = true ->
  peek_trims (annot (filter is_template_tok ts)) = peek_trims (annot ts).
Proof.
  intros [|t r] H; [reflexivity|].
  destruct t as [s|l s r0|w|w|w|w|l r0|s|s|z|s|b|o]; try reflexivity; cbn in H; discriminate.
Qed.

Lemma wsf_tok_template : forall f p t, is_template_tok (wsf_tok f p t) = is_template_tok t.
Proof. now intros f p []. Qed.

Lemma wsf_proj : forall fx ts b flag,
  inner_placed b ts = true -> (b = true -> flag = false) ->
  filter is_template_tok (wsf fx flag ts) = wsf fx flag (filter is_template_tok ts).
Proof.
  intros fx. induction ts as [|t r IH]; intros b flag P F; [reflexivity|].
  cbn [inner_placed] in P. rewrite wsf_cons. cbn [filter]. rewrite wsf_tok_template.
  destruct (is_template_tok t) eqn:T.
  - (* a start marker is written as it is; behind any other token nothing was dropped before
       the next template token *)
    rewrite wsf_cons, (IH _ _ P) by now destruct t. f_equal.
    destruct (is_open t) eqn:O; [now destruct t|now rewrite (peek_filter r P)].
  - (* an inner token sits where the flag is down and leaves it down *)
    apply andb_true_iff in P as [Pb P]. rewrite (F Pb).
    replace (wsf_flag fx false t) with false by now destruct t.
    now apply (IH true).
Qed.
