(* Characterisation lemmas of the reference evaluator (C02, evaluation half). *)
From TeraV Require Import Model.Value Model.Pratt Spec.ExprSem Proofs.ValueFacts.
From Coq Require Import String.
Open Scope Z_scope.

Lemma eval_and : forall g a b,
  eval g (EBin OAnd a b) = bind (eval g a) (fun v => if is_truthy v then eval g b else Val v).
Proof. reflexivity. Qed.
Lemma eval_or : forall g a b,
  eval g (EBin OOr a b) = bind (eval g a) (fun v => if is_truthy v then Val v else eval g b).
Proof. reflexivity. Qed.
Lemma eval_tern : forall g c t f,
  eval g (ETern c t f) = bind (eval g c) (fun v => if is_truthy v then eval g t else eval g f).
Proof. reflexivity. Qed.

Theorem and_or_left_error : forall g a b,
  eval g a = Err -> eval g (EBin OAnd a b) = Err /\ eval g (EBin OOr a b) = Err.
Proof. intros g a b H. rewrite eval_and, eval_or, H. split; reflexivity. Qed.

Definition arith_op (o : bop) : bool :=
  match o with OPlus | OMinus | OMul | ODiv | OFloorDiv | OMod | OPower => true | _ => false end.
Definition order_op (o : bop) : bool :=
  match o with OLt | OLe | OGt | OGe => true | _ => false end.

Lemma eval_bin_strict : forall g o a b,
  (match o with OAnd | OOr => false | _ => true end) = true ->
  eval g (EBin o a b) = bind (eval g a) (fun x => bind (eval g b) (fun y => binop o x y)).
Proof. intros g o a b H. destruct o; try discriminate; reflexivity. Qed.

(* exactly one level of undefined: an expression whose value is undefined (a missing variable, a
   missing last field, an optional chain that stopped) may be tested, negated, or-ed, defaulted
   and optionally chained; printing it, arithmetic on it, or a further lookup is an error *)
Theorem one_level_undefined : forall g e,
  eval g e = Val VUndef ->
  (* tolerated *)
  eval g (ETest e (s_ "defined") []) = Val (VBool false) /\
  eval g (ETest e (s_ "undefined") []) = Val (VBool true) /\
  eval g (EUn UNot e) = Val (VBool true) /\
  (forall b, eval g (EBin OOr e b) = eval g b) /\
  (forall b, eval g (EBin OAnd e b) = Val VUndef) /\
  (forall t f, eval g (ETern e t f) = eval g f) /\
  (forall d dv, eval g d = Val dv -> eval g (EFilter e (s_ "default") [(s_ "value", d)]) = Val dv) /\
  (forall a, eval g (EAttr e a true) = Val VUndef) /\
  (forall i iv, eval g i = Val iv -> eval g (EItem e i true) = Val VUndef) /\
  (* errors *)
  printed (eval g e) = Err /\
  (forall a, eval g (EAttr e a false) = Err) /\
  (forall i iv, eval g i = Val iv -> eval g (EItem e i false) = Err) /\
  (forall b iv, eval g b = Val (VArr iv) -> eval g (EItem b e false) = Err) /\
  eval g (EUn UMinus e) = Err /\
  (forall o b bv, arith_op o = true -> eval g b = Val bv ->
     eval g (EBin o e b) = Err /\ eval g (EBin o b e) = Err) /\
  (forall b bv, eval g b = Val bv -> eval g (EBin OIn b e) = Err) /\
  eval g (EFilter e (s_ "length") []) = Err.
Proof.
  intros g e H.
  repeat match goal with |- _ /\ _ => split end; intros.
  - cbn [eval]. rewrite H. reflexivity.
  - cbn [eval]. rewrite H. reflexivity.
  - cbn [eval]. rewrite H. reflexivity.
  - rewrite eval_or, H. reflexivity.
  - rewrite eval_and, H. reflexivity.
  - rewrite eval_tern, H. reflexivity.
  - cbn [eval]. rewrite H. cbn [bind]. rewrite H0. reflexivity.
  - cbn [eval]. rewrite H. reflexivity.
  - cbn [eval]. rewrite H. cbn [bind is_undefined orb andb]. rewrite H0. reflexivity.
  - rewrite H. reflexivity.
  - cbn [eval]. rewrite H. reflexivity.
  - cbn [eval]. rewrite H. cbn [bind is_undefined is_none orb andb]. rewrite H0. reflexivity.
  - cbn [eval]. rewrite H0. cbn [bind is_undefined is_none orb andb]. rewrite H. reflexivity.
  - cbn [eval]. rewrite H. reflexivity.
  - split; rewrite eval_bin_strict by (destruct o; try discriminate; reflexivity); rewrite H, H1; cbn [bind];
      destruct o; try discriminate; cbn [binop arith]; try reflexivity; destruct bv; reflexivity.
  - rewrite eval_bin_strict by reflexivity. rewrite H, H0. reflexivity.
  - cbn [eval]. rewrite H. reflexivity.
Qed.

Lemma lookup_unbound : forall x g, (forall v, ~ In (x, v) g) -> lookup_var x g = VUndef.
Proof.
  intros x g. induction g as [|[y v] r IH]; intros H; [reflexivity|].
  cbn [lookup_var]. destruct (str_eqb x y) eqn:E.
  - exfalso. apply (H v). left. apply str_eqb_eq in E. subst. reflexivity.
  - apply IH. intros v' Hin. apply (H v'). right. exact Hin.
Qed.

(* of the two hypotheses on x the first gives the second (lookup_unbound); only the second is used *)
Theorem undefined_sources : forall g x m a,
  (forall v, ~ In (x, v) g) -> lookup_var x g = VUndef ->
  eval g (EVar x) = Val VUndef /\
  (forall b, eval g b = Val (VMap m) -> map_get m a = VUndef -> eval g (EAttr b a false) = Val VUndef) /\
  (forall b, eval g b = Val VNone -> eval g (EAttr b a true) = Val VUndef).
Proof.
  intros g x m a _ Hl. repeat split; intros.
  - cbn [eval]. rewrite Hl. reflexivity.
  - cbn [eval]. rewrite H. cbn. rewrite H0. reflexivity.
  - cbn [eval]. rewrite H. reflexivity.
Qed.

Theorem no_coercion : forall a b,
  (forall o, arith_op o = true -> (is_number a && is_number b = false) -> binop o a b = Err) /\
  (forall o, order_op o = true -> N.eqb (kind_class a) (kind_class b) = false -> binop o a b = Err) /\
  (match b with VArr _ | VStr _ _ | VMap _ => False | _ => True end -> binop OIn a b = Err) /\
  (match b with VInt _ _ | VStr _ _ | VUndef => False | VBool _ => (match a with VMap _ => False | _ => True end) | _ => True end ->
   a <> VUndef -> get_item a b false = Err) /\
  (match a with VInt _ _ | VFloat _ => False | _ => True end ->
   forall g e, eval g e = Val a -> eval g (EUn UMinus e) = Err).
Proof.
  intros a b. repeat split.
  - intros o Ho Hn. destruct o; try discriminate; cbn [binop arith];
      destruct a; try reflexivity; destruct b; try reflexivity; cbn in Hn; discriminate.
  - intros o Ho Hk. destruct o; try discriminate; cbn [binop order];
      destruct a; destruct b; try reflexivity; cbn in Hk; try discriminate.
  - intros Hb. cbn [binop contains]. destruct b; try reflexivity; contradiction.
  - intros Hb Ha. unfold get_item. cbn [andb].
    destruct a; try congruence; destruct b; try reflexivity; contradiction.
  - intros Ha g e He. cbn [eval]. rewrite He. cbn [bind]. destruct a; try reflexivity; contradiction.
Qed.

(* list comprehensions: the inner `fix go` of `eval` on EComp over an array (Spec/ExprSem.v), copied
   out under a name; eval_comp_arr ties the two by reflexivity *)
Section CompGo.
Variables (g : env) (e : expr) (v : str) (cond : option expr).
Fixpoint comp_go (l : list value) : ev :=
  match l with
  | [] => Val (VArr [])
  | x :: r =>
      let g' := (v, x) :: g in
      bind (match cond with Some c => eval g' c | None => Val (VBool true) end) (fun cv =>
        if is_truthy cv then
          bind (eval g' e) (fun y =>
            match y with
            | VUndef => Unspec
            | _ => bind (comp_go r) (fun rest =>
                     match rest with VArr rl => Val (VArr (y :: rl)) | _ => Unspec end)
            end)
        else comp_go r)
  end.
End CompGo.

Lemma eval_comp_arr : forall g e v target cond l,
  eval g target = Val (VArr l) ->
  eval g (EComp e None v target cond) = comp_go g e v cond l.
Proof. intros g e v target cond l H. cbn [eval]. rewrite H. cbn [bind]. reflexivity. Qed.

Theorem comprehension_filter_map : forall g e v target cond l (f : value -> value) (p : value -> bool),
  eval g target = Val (VArr l) ->
  (forall x, In x l ->
     match cond with
     | Some c => exists cv, eval ((v, x) :: g) c = Val cv /\ is_truthy cv = p x
     | None => p x = true
     end) ->
  (forall x, In x l -> p x = true -> eval ((v, x) :: g) e = Val (f x) /\ f x <> VUndef) ->
  eval g (EComp e None v target cond) = Val (VArr (map f (filter p l))).
Proof.
  intros g e v target cond l f p Ht Hc He. rewrite (eval_comp_arr g e v target cond l Ht).
  clear Ht. induction l as [|x r IH]; [reflexivity|].
  assert (IH' := IH (fun y Hy => Hc y (or_intror Hy)) (fun y Hy => He y (or_intror Hy))). clear IH.
  specialize (Hc x (or_introl eq_refl)). specialize (He x (or_introl eq_refl)).
  cbn [comp_go filter]. cbv zeta.
  assert (Hcv : exists cv, (match cond with Some c => eval ((v, x) :: g) c | None => Val (VBool true) end) = Val cv
                           /\ is_truthy cv = p x).
  { destruct cond as [c|]; [exact Hc|]. exists (VBool true). split; [reflexivity|]. rewrite Hc. reflexivity. }
  destruct Hcv as (cv & E1 & E2). rewrite E1. cbn [bind]. rewrite E2.
  destruct (p x) eqn:Ep.
  - destruct (He eq_refl) as [E3 Hne]. rewrite E3. cbn [bind map].
    rewrite IH'. cbn [bind]. destruct (f x); try reflexivity. congruence.
  - exact IH'.
Qed.

Theorem comprehension_error : forall g e v target cond x r,
  eval g target = Val (VArr (x :: r)) ->
  (match cond with Some c => eval ((v, x) :: g) c = Err
                 | None => eval ((v, x) :: g) e = Err end) ->
  eval g (EComp e None v target cond) = Err.
Proof.
  intros g e v target cond x r Ht H. rewrite (eval_comp_arr g e v target cond (x :: r) Ht).
  cbn [comp_go]. cbv zeta. destruct cond as [c|]; [rewrite H; reflexivity|].
  cbn [bind]. change (is_truthy (VBool true)) with true. cbv iota. rewrite H. reflexivity.
Qed.
