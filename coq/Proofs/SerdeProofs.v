(* Proofs for C19 (Model/Serde.v): round trip through both entry points, totality of `ser` under
   admissible key types, refusal of bad keys, agreement of the Context construction paths, and the
   counter-examples D7 and D14 on the `Pinned` code version. *)
From TeraV Require Import Model.Value Model.Format Model.Serde Proofs.ListFacts Proofs.ValueFacts Proofs.FormatProofs.

Lemma str_eqb_neq : forall a b, a <> b -> str_eqb a b = false.
Proof. intros a b. apply ValueFacts.str_eqb_neq. Qed.

Lemma sf_eqb_syn_eq : forall a b, sf_eqb_syn a b = true -> a = b.
Proof.
  intros a b H. destruct a, b; cbn in H; try discriminate; try reflexivity.
  1, 2: apply Bool.eqb_prop in H; subst; reflexivity.
  apply andb_true_iff in H as [H H3]. apply andb_true_iff in H as [H1 H2].
  apply Bool.eqb_prop in H1. apply Pos.eqb_eq in H2. apply Z.eqb_eq in H3. subst. reflexivity.
Qed.

Lemma Forall_mp {A} (P Q : A -> Prop) l : Forall (fun a => P a -> Q a) l -> Forall P l -> Forall Q l.
Proof. rewrite !Forall_forall. auto. Qed.

Lemma Forall2_map_eq {A B C} (f : A -> C) (g : B -> C) l l' :
  Forall2 (fun a b => f a = g b) l l' -> map f l = map g l'.
Proof. intro H. induction H as [|a b l l' Hab _ IH]; cbn; [reflexivity|]. rewrite Hab, IH. reflexivity. Qed.

Lemma forallb_map {A B} (f : A -> B) (p : B -> bool) l : forallb p (map f l) = forallb (fun a => p (f a)) l.
Proof. induction l as [|a l IH]; cbn; [reflexivity|]. rewrite IH. reflexivity. Qed.

Lemma res_bind_ok : forall {A B} (r : res A) (f : A -> res B) b,
  res_bind r f = ROk b -> exists a, r = ROk a /\ f a = ROk b.
Proof. intros A B [a|e] f b H; cbn in H; [eauto|discriminate]. Qed.

Lemma res_bind_ret_ok {A B} (r : res A) (g : A -> B) x :
  res_bind r (fun a => ROk (g a)) = ROk x <-> exists a, r = ROk a /\ x = g a.
Proof.
  destruct r as [a|e]; cbn; split.
  - intros [= <-]. eauto.
  - intros (a' & [= <-] & ->). reflexivity.
  - discriminate.
  - intros (a & H & _). discriminate.
Qed.

Lemma res_bind_pair_ok {A K} (r : res A) (k : K) o :
  res_bind r (fun x => ROk (k, x)) = ROk o <-> k = fst o /\ r = ROk (snd o).
Proof.
  rewrite res_bind_ret_ok. destruct o as [k' y]. cbn. split.
  - intros (a & -> & [= -> ->]). auto.
  - intros [<- ->]. eauto.
Qed.

Lemma map_res_ok_rel {A B} (f : A -> res B) (R : A -> B -> Prop) l out :
  (forall a b, f a = ROk b <-> R a b) -> map_res f l = ROk out <-> Forall2 R l out.
Proof.
  intro HR. revert out. induction l as [|a l IH]; intro out; cbn [map_res].
  - split; [intros [= <-]; constructor | intro H; inversion H; reflexivity].
  - split.
    + intro H. apply res_bind_ok in H as (b & Hb & H). apply res_bind_ret_ok in H as (bs & Hbs & ->).
      constructor; [apply HR, Hb | apply IH, Hbs].
    + intro H. inversion H as [|a' b l' bs Hab Hl]; subst.
      apply HR in Hab. apply IH in Hl. rewrite Hab, Hl. reflexivity.
Qed.

(* g reads back what R wrote *)
Lemma map_res_flip {A B} (R : A -> B -> Prop) (g : B -> res A) l out :
  Forall2 R l out -> Forall (fun a => forall b, R a b -> g b = ROk a) l -> map_res g out = ROk l.
Proof.
  intros H Hg. induction H as [|a b l out Hab _ IH]; cbn; [reflexivity|].
  apply Forall_cons_iff in Hg as [Ha Hl]. rewrite (Ha b Hab), (IH Hl). reflexivity.
Qed.

Lemma zip_res_flip {A B C} (R : C -> B -> Prop) (g : A -> B -> res C) l ts out :
  Forall2 R l out -> Forall2 (fun c a => forall b, R c b -> g a b = ROk c) l ts -> zip_res g ts out = ROk l.
Proof.
  intros H. revert ts. induction H as [|c b l out Hcb _ IH]; intros ts Hg; inversion Hg as [|c' a l' ts' Hc Hl]; subst; cbn.
  - reflexivity.
  - rewrite (Hc b Hcb), (IH _ Hl). reflexivity.
Qed.

Lemma map_res_ext_in {A B} (f g : A -> res B) l :
  (forall a, In a l -> f a = g a) -> map_res f l = map_res g l.
Proof.
  intro H. induction l as [|a l IH]; cbn [map_res]; [reflexivity|].
  rewrite (H a (or_introl eq_refl)), IH; [reflexivity|]. intros b Hb. apply H. right. exact Hb.
Qed.

Lemma map_res_pure {A B} (f : A -> res B) (g : A -> B) l :
  Forall (fun a => f a = ROk (g a)) l -> map_res f l = ROk (map g l).
Proof. intro H. induction H as [|a l Ha _ IH]; cbn; [reflexivity|]. rewrite Ha, IH. reflexivity. Qed.

Lemma map_res_map {A B C} (f : B -> res C) (g : A -> B) l :
  map_res f (map g l) = map_res (fun a => f (g a)) l.
Proof. induction l as [|a l IH]; cbn; [reflexivity|]. rewrite IH. reflexivity. Qed.

Lemma map_res_bind_ret {A B C} (f : A -> res B) (f' : A -> res C) (h : B -> C) l :
  (forall a, f' a = res_bind (f a) (fun b => ROk (h b))) ->
  map_res f' l = res_bind (map_res f l) (fun out => ROk (map h out)).
Proof.
  intro H. induction l as [|a l IH]; cbn; [reflexivity|]. rewrite H, IH.
  destruct (f a); [|reflexivity]. cbn. destruct (map_res f l); reflexivity.
Qed.

Lemma map_res_err : forall {A B} (f : A -> res B) l e,
  (forall a e', f a = RErr e' -> e' = e) -> forall e', map_res f l = RErr e' -> e' = e.
Proof.
  intros A B f l e Hf. induction l as [|a l IH]; cbn; intros e' H; [discriminate|].
  destruct (f a) eqn:Ea; cbn in H.
  - destruct (map_res f l) eqn:El; cbn in H; [discriminate|]. inversion H; subst. apply IH. reflexivity.
  - inversion H; subst. eapply Hf. exact Ea.
Qed.

Lemma bind_map_res_ok {A B C} (f : A -> res B) (R : A -> B -> Prop) (g : list B -> C) l x :
  (forall a b, f a = ROk b <-> R a b) ->
  res_bind (map_res f l) (fun out => ROk (g out)) = ROk x <-> exists out, Forall2 R l out /\ x = g out.
Proof.
  intro HR. rewrite res_bind_ret_ok.
  split; intros (out & H & ->); exists out; (split; [apply (map_res_ok_rel f R _ _ HR), H | reflexivity]).
Qed.

Lemma bind_map_res_total {A B C} (f : A -> res B) (g : list B -> C) l :
  Forall (fun a => exists b, f a = ROk b) l -> exists x, res_bind (map_res f l) (fun out => ROk (g out)) = ROk x.
Proof.
  intro H. enough (exists out, map_res f l = ROk out) as (out & ->) by (eexists; reflexivity).
  induction H as [|a l (b & Hb) _ (out & IH)]; cbn; [|rewrite Hb, IH]; eexists; reflexivity.
Qed.

Lemma ser_seq_ok l x :
  ser (SSeq l) = ROk x <-> exists xs, Forall2 (fun a b => ser a = ROk b) l xs /\ x = VArr xs.
Proof. apply bind_map_res_ok. reflexivity. Qed.

Lemma ser_tuple_ok l x :
  ser (STuple l) = ROk x <-> exists xs, Forall2 (fun a b => ser a = ROk b) l xs /\ x = VArr xs.
Proof. apply bind_map_res_ok. reflexivity. Qed.

Lemma ser_map_ok m x :
  ser (SMap m) = ROk x <->
  exists es, Forall2 (fun (e : sval * sval) (o : key * value) =>
                        ser_key (fst e) = ROk (fst o) /\ ser (snd e) = ROk (snd o)) m es
             /\ x = VMap (build_map es).
Proof.
  apply bind_map_res_ok. intros e o. split.
  - intro H. apply res_bind_ok in H as (k & Hk & H). apply res_bind_pair_ok in H as [-> H]. auto.
  - intros [Hk Hx]. rewrite Hk. cbn. apply res_bind_pair_ok. auto.
Qed.

Definition ty_children (t : ty) : list ty :=
  match t with
  | TOption t' | TNewtype t' | TSeq t' => [t']
  | TTuple ts => ts
  | TMap k v => [k; v]
  | TStruct fs => map snd fs
  | TEnum vs => map (fun vr : str * (vkind * ty) => snd (snd vr)) vs
  | _ => []
  end.

Lemma ty_all_unfold p t : ty_all p t = p t && forallb (ty_all p) (ty_children t).
Proof. destruct t; cbn; rewrite ?forallb_map, ?andb_true_r; reflexivity. Qed.

Lemma ty_all_inv p t :
  ty_all p t = true -> p t = true /\ Forall (fun c => ty_all p c = true) (ty_children t).
Proof.
  rewrite ty_all_unfold. intro H. apply andb_true_iff in H as [Hp Hc].
  split; [exact Hp|]. apply Forall_forall. apply forallb_forall. exact Hc.
Qed.

Lemma ty_all_child p t c : ty_all p t = true -> In c (ty_children t) -> ty_all p c = true.
Proof. intro H. revert c. apply Forall_forall. apply (ty_all_inv p t H). Qed.

Lemma ty_all_here : forall p t, ty_all p t = true -> p t = true.
Proof. intros p t H. apply (ty_all_inv p t H). Qed.

Lemma own_option_enum_fixed : forall d, own_option_enum Fixed d = true.
Proof. destruct d; reflexivity. Qed.

Lemma sval_ind' (P : sval -> Prop) :
  P SUnit -> P SUnitStruct -> (forall b, P (SBool b)) -> (forall sg bits z, P (SInt sg bits z)) ->
  (forall bits f, P (SFloat bits f)) -> (forall c, P (SChar c)) -> (forall s, P (SStr s)) -> P SNone ->
  (forall v, P v -> P (SSome v)) -> (forall v, P v -> P (SNewtype v)) ->
  (forall l, Forall P l -> P (SSeq l)) -> (forall l, Forall P l -> P (STuple l)) ->
  (forall m, Forall (fun e : sval * sval => P (fst e) /\ P (snd e)) m -> P (SMap m)) ->
  (forall fs, Forall (fun e : str * sval => P (snd e)) fs -> P (SStruct fs)) ->
  (forall n k p, P p -> P (SVariant n k p)) -> forall v, P v.
Proof.
  intros H0 H1 H2 H3 H4 H5 H6 H7 H8 H9 H10 H11 H12 H13 H14. fix IH 1.
  assert (IHl : forall l, Forall P l).
  { fix IHl 1. intros [|x t]; constructor; [apply IH|apply IHl]. }
  intros [ | |b|sg bits z|bits f|c|s| |v|v|l|l|m|fs|n k p].
  - exact H0. - exact H1. - apply H2. - apply H3. - apply H4. - apply H5. - apply H6. - exact H7.
  - apply H8, IH. - apply H9, IH. - apply H10, IHl. - apply H11, IHl.
  - apply H12. revert m. fix IHm 1. intros [|[k x] t]; constructor; [split; apply IH|apply IHm].
  - apply H13. revert fs. fix IHf 1. intros [|[k x] t]; constructor; [apply IH|apply IHf].
  - apply H14, IH.
Qed.

(* MapKeySerializer against the documented set of keys and against ValueSerializer *)
Lemma ser_key_spec k :
  match ser_key k with
  | ROk kk => admissible_key k = true /\ ser k = ROk (key_as_value kk)
  | RErr e => admissible_key k = false /\ e = ErrMsg
  end.
Proof.
  induction k as [ | | | | | | | |k IH|k IH| | | | |n vk p _]; cbn; auto.
  destruct vk; cbn; auto.
Qed.

Lemma ser_key_err : forall k e, ser_key k = RErr e -> e = ErrMsg.
Proof. intros k e H. pose proof (ser_key_spec k) as S. rewrite H in S. apply S. Qed.

Lemma ser_key_ser : forall k kk, ser_key k = ROk kk -> ser k = ROk (key_as_value kk).
Proof. intros k kk H. pose proof (ser_key_spec k) as S. rewrite H in S. apply S. Qed.

Lemma ser_key_admissible : forall k, admissible_key k = true <-> exists kk, ser_key k = ROk kk.
Proof.
  intro k. pose proof (ser_key_spec k) as S. destruct (ser_key k) as [kk|e]; destruct S as [-> _].
  - split; eauto.
  - split; [discriminate|intros (kk & H); discriminate].
Qed.

Lemma ser_not_none : forall t v x,
  has_type v t -> none_like t = false -> ser v = ROk x -> x <> VNone /\ x <> VUndef.
Proof.
  intros t v x Hty. revert x.
  induction Hty as [ | | | | | | | | | v t _ IH | | | | | n k p pt vs _ _ _ _]; intros x Hnl Hser.
  (* unit, unit struct and options are none_like *)
  all: try discriminate Hnl.
  all: cbn [ser] in Hser.
  all: try (injection Hser as <-; split; discriminate).
  all: try (apply res_bind_ret_ok in Hser as (? & _ & ->); split; discriminate).
  - (* TNewtype: written as its content *) exact (IH x Hnl Hser).
  - (* TEnum: a unit variant is its name, any other a map of one entry *)
    destruct k; [injection Hser as <- | apply res_bind_ret_ok in Hser as (? & _ & ->) ..]; split; discriminate.
Qed.

Definition fresh_key (k : key) (acc : list (key * value)) : Prop :=
  Forall (fun a => fkey_eqb (fst a) k = false) acc.

Lemma map_insert_fresh : forall k x acc, fresh_key k acc -> map_insert k x acc = acc ++ [(k, x)].
Proof.
  intros k x acc H. induction H as [|[k' x'] acc Hk _ IH]; cbn; [reflexivity|].
  cbn in Hk. rewrite Hk, IH. reflexivity.
Qed.

Inductive distinct_keys : list (key * value) -> Prop :=
| DK_nil : distinct_keys []
| DK_cons e l : Forall (fun b => fkey_eqb (fst e) (fst b) = false) l -> distinct_keys l -> distinct_keys (e :: l).

Lemma build_map_from : forall es acc,
  distinct_keys es -> Forall (fun a => fresh_key (fst a) acc) es ->
  fold_left (fun acc e => map_insert (fst e) (snd e) acc) es acc = acc ++ es.
Proof.
  intros es acc Hd. revert acc. induction Hd as [|[k x] es Hhead _ IH]; intros acc Hf; cbn.
  - symmetry. apply app_nil_r.
  - apply Forall_cons_iff in Hf as [Hfe Hfes].
    rewrite map_insert_fresh by exact Hfe. rewrite IH, <- app_assoc; [reflexivity|].
    refine (Forall_mp _ _ _ _ Hfes). refine (Forall_impl _ _ Hhead).
    intros b Hb Hacc. apply Forall_app. split; [exact Hacc|]. constructor; [exact Hb|constructor].
Qed.

Lemma build_map_distinct : forall es, distinct_keys es -> build_map es = es.
Proof.
  intros es H. unfold build_map. rewrite build_map_from; [reflexivity|exact H|].
  apply Forall_forall. intros a _. constructor.
Qed.

(* the value behind an accepted key, from its type: what fkey_eqb ignores (the owned/borrowed
   flag, the integer representation) the type supplies *)
Fixpoint key_val (t : ty) (a : key) : sval :=
  match t, a with
  | TBool, KBool b => SBool b
  | TInt sg bits, KInt _ z => SInt sg bits z
  | TChar, KStr [c] _ => SChar c
  | TString, KStr s _ => SStr s
  | TOption t', _ => SSome (key_val t' a)
  | TNewtype t', _ => SNewtype (key_val t' a)
  | TEnum _, KStr n _ => SVariant n VKUnit SUnit
  | _, _ => SUnit
  end.

Lemma typed_key_val k t a : has_type k t -> ser_key k = ROk a -> k = key_val t a.
Proof.
  induction 1 as [ | | | | | | | |v t _ IH|v t _ IH| | | | |n k p pt vs _ _ _ Hu]; cbn; intro Ha;
    try discriminate Ha; try (injection Ha as <-; reflexivity).
  1, 2: f_equal; exact (IH Ha).
  destruct k; try discriminate Ha. injection Ha as <-. rewrite (Hu eq_refl). reflexivity.
Qed.

Lemma key_val_eqb t a b : fkey_eqb a b = true -> key_val t a = key_val t b.
Proof.
  intro H. destruct a, b; try discriminate H; cbn in H;
    [apply Bool.eqb_prop in H|apply Z.eqb_eq in H|apply str_eqb_eq in H]; subst;
    induction t; cbn; try reflexivity; f_equal; assumption.
Qed.

Lemma distinct_keys_by {B} (f : key -> B) es :
  (forall a b, fkey_eqb a b = true -> f a = f b) ->
  NoDup (map (fun e : key * value => f (fst e)) es) -> distinct_keys es.
Proof.
  intro Hf. induction es as [|e es IH]; cbn; intro Hnd; constructor; apply NoDup_cons_iff in Hnd as [Hnotin Hnd].
  - apply Forall_forall. intros b Hb. destruct (fkey_eqb (fst e) (fst b)) eqn:E; [|reflexivity].
    exfalso. apply Hnotin. rewrite (Hf _ _ E). exact (in_map (fun e => f (fst e)) _ _ Hb).
  - exact (IH Hnd).
Qed.

Lemma ser_entries_distinct : forall kt m es,
  Forall (fun e : sval * sval => has_type (fst e) kt) m -> NoDup (map fst m) ->
  Forall2 (fun (e : sval * sval) (o : key * value) =>
             ser_key (fst e) = ROk (fst o) /\ ser (snd e) = ROk (snd o)) m es ->
  distinct_keys es.
Proof.
  intros kt m es Hty Hnd H. apply (distinct_keys_by (key_val kt)); [intros a b; apply key_val_eqb|].
  rewrite <- (Forall2_map_eq fst (fun o : key * value => key_val kt (fst o)) m es); [exact Hnd|].
  refine (Forall2_impl_in _ _ _ _ _ H). intros e o He _ [Hk _].
  exact (typed_key_val _ _ _ (proj1 (Forall_forall _ _) Hty e He) Hk).
Qed.

(* a struct is written as the map of its serialised fields, under their names as borrowed string
   keys, in declaration order *)
Definition ser_fields (xs : list (str * sval)) : res (list (str * value)) :=
  map_res (fun f : str * sval => res_bind (ser (snd f)) (fun x => ROk (fst f, x))) xs.

Definition field_entry (e : str * value) : key * value := (KStr (fst e) false, snd e).

Lemma ser_fields_ok xs es :
  ser_fields xs = ROk es <->
  Forall2 (fun (f : str * sval) (e : str * value) => fst f = fst e /\ ser (snd f) = ROk (snd e)) xs es.
Proof. apply map_res_ok_rel. intros f e. apply res_bind_pair_ok. Qed.

Lemma ser_fields_names xs es : ser_fields xs = ROk es -> map fst xs = map fst es.
Proof.
  intro H. apply ser_fields_ok in H. apply Forall2_map_eq.
  refine (Forall2_impl_in _ _ _ _ _ H). intros f e _ _ [Hn _]. exact Hn.
Qed.

Lemma ser_struct_fields xs :
  ser (SStruct xs) = res_bind (ser_fields xs) (fun es => ROk (VMap (build_map (map field_entry es)))).
Proof.
  cbn [ser]. unfold ser_fields.
  rewrite (map_res_bind_ret (fun f : str * sval => res_bind (ser (snd f)) (fun x => ROk (fst f, x))) _ field_entry).
  - destruct (map_res _ xs); reflexivity.
  - intro a. destruct (ser (snd a)); reflexivity.
Qed.

(* what VariantDeserializer::tuple_variant / struct_variant ask for *)
Lemma ser_shape k pt p y : shape_ok k pt = true -> has_type p pt -> ser p = ROk y ->
  match k with
  | VKTuple => exists l, y = VArr l
  | VKStruct => exists m, y = VMap m
  | _ => True
  end.
Proof.
  intros Hs Hp Hy. destruct k; [exact I|exact I| |]; destruct Hp; try discriminate Hs.
  - apply ser_tuple_ok in Hy as (ys & _ & ->). eauto.
  - rewrite ser_struct_fields in Hy. apply res_bind_ret_ok in Hy as (es & _ & ->). eauto.
Qed.

Lemma not_among n names n' : existsb (str_eqb n) names = false -> In n' names -> str_eqb n n' = false.
Proof.
  intros H Hin. destruct (str_eqb n n') eqn:E; [|reflexivity].
  rewrite <- H. symmetry. apply existsb_exists. eauto.
Qed.

Lemma fields_distinct_keys es : str_nodupb (map fst es) = true -> distinct_keys (map field_entry es).
Proof.
  induction es as [|[n y] es IH]; cbn; intro H; constructor; apply andb_true_iff in H as [Hn H].
  - apply negb_true_iff in Hn. apply Forall_map, Forall_forall. intros e He.
    exact (not_among n _ _ Hn (in_map fst _ _ He)).
  - exact (IH H).
Qed.

Lemma field_keys_ident es : forallb (fun e : key * value => ident_key_ok (fst e)) (map field_entry es) = true.
Proof. induction es as [|e es IH]; [reflexivity|exact IH]. Qed.

Lemma filter_field_none es n j :
  existsb (str_eqb n) (map fst es) = false ->
  filter (fun e : key * value => key_names (fst e) n j) (map field_entry es) = [].
Proof.
  induction es as [|[n' y] es IH]; cbn; intro H; [reflexivity|].
  apply orb_false_iff in H as [Hn H]. rewrite str_eqb_sym, Hn. exact (IH H).
Qed.

Lemma filter_field_one es n y j :
  str_nodupb (map fst es) = true -> In (n, y) es ->
  filter (fun e : key * value => key_names (fst e) n j) (map field_entry es) = [field_entry (n, y)].
Proof.
  induction es as [|[n' y'] es IH]; cbn; intros Hnd Hin; [contradiction|].
  apply andb_true_iff in Hnd as [Hn' Hnd]. apply negb_true_iff in Hn'.
  destruct Hin as [[= -> ->]|Hin].
  - rewrite str_eqb_refl, (filter_field_none es n j Hn'). reflexivity.
  - rewrite (not_among n' _ n Hn' (in_map fst _ _ Hin)). exact (IH Hnd Hin).
Qed.

(* from the map of distinctly named fields the derived visitor's visit_map reads what visit_seq
   would read from the values alone *)
Lemma de_fields_in_order cv es :
  str_nodupb (map fst es) = true ->
  forall fs' es' j, incl es' es -> map fst es' = map fst fs' ->
  mapi_res (fun (j : Z) (f : str * ty) =>
              match filter (fun e : key * value => key_names (fst e) (fst f) j) (map field_entry es) with
              | [] => if is_option (snd f) then ROk (fst f, SNone) else RErr ErrMsg
              | [e] => res_bind (de cv (snd f) DInner (snd e)) (fun x => ROk (fst f, x))
              | _ => RErr ErrMsg
              end) j fs'
  = zip_res (fun (f : str * ty) (e : str * value) =>
               res_bind (de cv (snd f) DInner (snd e)) (fun x => ROk (fst f, x))) fs' es'.
Proof.
  intro Hnd. induction fs' as [|f fs' IH]; intros es' j Hin Hk; [reflexivity|].
  destruct es' as [|[n y] es']; [discriminate|]. injection Hk as -> Hk.
  cbn [mapi_res zip_res]. rewrite (filter_field_one es (fst f) y j Hnd (Hin _ (or_introl eq_refl))).
  rewrite (IH es' (j + 1)); [reflexivity| |exact Hk]. intros e He. apply Hin. right. exact He.
Qed.

Lemma find_variant_in : forall vs n kp, find_variant n vs = Some kp -> In (n, kp) vs.
Proof.
  induction vs as [|[n' kp'] vs IH]; cbn; intros n kp H; [discriminate|].
  destruct (str_eqb n n') eqn:E.
  - apply str_eqb_eq in E. injection H as ->. left. congruence.
  - right. apply IH. exact H.
Qed.

Lemma find_res_name {C} (p : Z -> str * (vkind * ty) -> bool) (f : str * (vkind * ty) -> res C) n :
  (forall j vr, p j vr = str_eqb n (fst vr)) ->
  forall vs kp j, find_variant n vs = Some kp -> find_res p f j vs = f (n, kp).
Proof.
  intro Hp. induction vs as [|[n' kp'] vs IH]; intros kp j H; cbn in H; [discriminate|].
  cbn. rewrite Hp. cbn. destruct (str_eqb n n') eqn:E.
  - apply str_eqb_eq in E. injection H as ->. congruence.
  - apply IH. exact H.
Qed.

Definition ty_ok (t : ty) : Prop := no_none_like_under_option t = true /\ names_ok t = true.

Lemma ty_ok_child t c : ty_ok t -> In c (ty_children t) -> ty_ok c.
Proof. intros [Hno Hnm] Hc. split; [exact (ty_all_child _ t c Hno Hc)|exact (ty_all_child _ t c Hnm Hc)]. Qed.

Lemma de_int_rt sg bits z : int_fits sg bits z = true -> de_int sg bits (VInt (int_rep sg bits) z) = ROk (SInt sg bits z).
Proof. intro H. unfold de_int, int_rep. rewrite H. destruct (bits =? 128)%N, sg; reflexivity. Qed.

Lemma de_float_rt bits f : float_fits bits f = true -> de_float bits (VFloat f) = ROk (SFloat bits f).
Proof.
  unfold float_fits, de_float. destruct (bits =? 32)%N; [|reflexivity].
  intro H. apply sf_eqb_syn_eq in H. rewrite H. reflexivity.
Qed.

Lemma de_variant_rt cv vs n k pt p x d :
  own_option_enum cv d = true ->
  find_variant n vs = Some (k, pt) -> shape_ok k pt = true -> has_type p pt -> (k = VKUnit -> p = SUnit) ->
  ser (SVariant n k p) = ROk x ->
  (forall d', own_option_enum cv d' = true -> forall y, ser p = ROk y -> de cv pt d' y = ROk p) ->
  de cv (TEnum vs) d x = ROk (SVariant n k p).
Proof.
  intros Hd Hfind Hshape Hp Hunit Hser IH.
  (* ser writes a variant's name, never its index, and on a string tag the test of de's dispatch
     computes to str_eqb n (fst vr): the eq_refl *)
  destruct k; cbn [ser] in Hser; [injection Hser as <- | apply res_bind_ret_ok in Hser as (y & Hy & ->) ..];
    cbn [de key_as_value]; rewrite Hd, (find_res_name _ _ n (fun _ _ => eq_refl) vs _ 0 Hfind); cbn [fst snd].
  - rewrite (Hunit eq_refl). reflexivity.
  - rewrite (IH DValue eq_refl y Hy). reflexivity.
  - destruct (ser_shape VKTuple pt p y Hshape Hp Hy) as (l & ->). rewrite (IH DInner eq_refl _ Hy). reflexivity.
  - destruct (ser_shape VKStruct pt p y Hshape Hp Hy) as (m & ->). rewrite (IH DInner eq_refl _ Hy). reflexivity.
Qed.

(* no newtype struct where code version cv does not read them (D14) *)
Definition ty_ok_for (cv : codever) (t : ty) : Prop :=
  ty_ok t /\ (own_newtype cv = false ->
             ty_all (fun t => match t with TNewtype _ => false | _ => true end) t = true).

Lemma ty_ok_for_child cv t c : ty_ok_for cv t -> In c (ty_children t) -> ty_ok_for cv c.
Proof.
  intros [Hok Hnt] Hc. split; [exact (ty_ok_child t c Hok Hc)|].
  intro H. exact (ty_all_child _ t c (Hnt H) Hc).
Qed.

Definition top_option_enum (t : ty) : bool :=
  match t with TOption _ | TEnum _ => true | _ => false end.

(* The code versions differ in own_newtype and in own_option_enum, and the latter is looked at only
   at the top of an Option or enum read through d (D7): everything below the top is read at DInner
   or DValue, where own_option_enum computes to true (the `fun _ => eq_refl` below).
   Sequences, tuples, maps and structs: the *_flip lemmas turn "ser wrote y from a" into "de reads a
   from y" under the induction hypothesis.  Maps: keys of one type are written injectively
   (ser_entries_distinct), so build_map changes nothing, and a key is read back from key_as_value of
   what ser_key wrote (ser_key_ser).  Structs: distinct field names make visit_map agree with
   visit_seq (de_fields_in_order). *)
Lemma de_ser_typed cv : forall v t,
  has_type v t -> ty_ok_for cv t ->
  forall d, (top_option_enum t = true -> own_option_enum cv d = true) ->
  forall x, ser v = ROk x -> de cv t d x = ROk v.
Proof.
  induction v as [ | | | | | | | |v IH|v IH|l IH|l IH|m IH|xs IH|n k p IH] using sval_ind'; intros t Hty;
    inversion Hty as [ | | |? ? ? Hb Hf|? ? Hf| | | |? t' Hv|? t' Hv|? t' Hl|? ts Hl|? kt vt Hm Hnd|? fs Hxf
                     |? ? ? pt vs Hfind Hp Hunit];
    subst; intros Hok d Htop x Hser.
  (* the eight leaves; two of them are left with a side condition *)
  1-8: injection Hser as <-; try reflexivity.
  - (* TInt *) apply de_int_rt. assumption.
  - (* TFloat *) apply de_float_rt. assumption.
  - (* TOption, Some *) cbn [ser] in Hser.
    (* x is not none, so the OptionVisitor gets visit_some *)
    pose proof (ty_all_here _ _ (proj1 (proj1 Hok))) as Hnl. apply negb_true_iff in Hnl.
    destruct (ser_not_none t' v x Hv Hnl Hser) as [Hn1 Hn2].
    cbn [de]. rewrite (Htop eq_refl), (IH t' Hv (ty_ok_for_child _ _ _ Hok (or_introl eq_refl)) DInner (fun _ => eq_refl) x Hser).
    destruct x; congruence || reflexivity.
  - (* TNewtype: read as such, or there is none *) cbn [de].
    destruct (own_newtype cv) eqn:E; [|discriminate (ty_all_here _ _ (proj2 Hok E))].
    rewrite (IH t' Hv (ty_ok_for_child _ _ _ Hok (or_introl eq_refl)) DInner (fun _ => eq_refl) x Hser). reflexivity.
  - (* TSeq *) apply ser_seq_ok in Hser as (xs & Hxs & ->).
    cbn [de]. rewrite (map_res_flip _ _ l xs Hxs); [reflexivity|].
    refine (Forall_mp _ _ _ (Forall_impl _ _ IH) Hl). intros a IHa Ha.
    exact (IHa t' Ha (ty_ok_for_child _ _ _ Hok (or_introl eq_refl)) DInner (fun _ => eq_refl)).
  - (* TTuple *) apply ser_tuple_ok in Hser as (xs & Hxs & ->).
    cbn [de]. rewrite (zip_res_flip _ _ l ts xs Hxs); [reflexivity|].
    refine (Forall2_impl_in _ _ _ _ _ Hl). intros a t Ha Ht Hat.
    exact (proj1 (Forall_forall _ _) IH a Ha t Hat (ty_ok_for_child _ _ _ Hok Ht) DInner (fun _ => eq_refl)).
  - (* TMap *) apply ser_map_ok in Hser as (es & Hes & ->).
    rewrite (build_map_distinct es).
    2:{ apply (ser_entries_distinct kt m es); [|exact Hnd|exact Hes].
        refine (Forall_impl _ _ Hm). intros e [Hk _]. exact Hk. }
    cbn [de]. rewrite (map_res_flip _ _ m es Hes); [reflexivity|].
    refine (Forall_mp _ _ _ (Forall_impl _ _ IH) Hm). intros [k v] [IHk IHv] [Hk Hv] [kk y] [Hkk Hy]. cbn [fst snd] in *.
    rewrite (IHk kt Hk (ty_ok_for_child _ _ _ Hok (or_introl eq_refl)) DInner (fun _ => eq_refl) _ (ser_key_ser _ _ Hkk)). cbn [res_bind].
    rewrite (IHv vt Hv (ty_ok_for_child _ _ _ Hok (or_intror (or_introl eq_refl))) DInner (fun _ => eq_refl) y Hy). reflexivity.
  - (* TStruct *)
    rewrite ser_struct_fields in Hser. apply res_bind_ret_ok in Hser as (es & Hes & ->).
    assert (Hn : map fst es = map fst fs).
    { rewrite <- (ser_fields_names xs es Hes). apply Forall2_map_eq.
      refine (Forall2_impl_in _ _ _ _ _ Hxf). intros a f _ _ [H _]. exact H. }
    pose proof (ty_all_here _ _ (proj2 (proj1 Hok))) as Hnames. cbn beta iota in Hnames. rewrite <- Hn in Hnames.
    rewrite (build_map_distinct _ (fields_distinct_keys es Hnames)).
    cbn [de]. rewrite field_keys_ident, (de_fields_in_order cv es Hnames fs es 0 (incl_refl es) Hn).
    apply ser_fields_ok in Hes. rewrite (zip_res_flip _ _ xs fs es Hes); [reflexivity|].
    refine (Forall2_impl_in _ _ _ _ _ Hxf). intros [n v] f Hx Hf [Hnf Hvt] [k y] [_ Hy]. cbn [fst snd] in Hnf, Hvt, Hy |- *.
    rewrite (proj1 (Forall_forall _ _) IH _ Hx _ Hvt (ty_ok_for_child _ _ _ Hok (in_map snd _ _ Hf)) DInner (fun _ => eq_refl) y Hy).
    rewrite <- Hnf. reflexivity.
  - (* TEnum *)
    pose proof (find_variant_in _ _ _ Hfind) as Hin.
    apply (de_variant_rt cv vs n k pt p x d (Htop eq_refl) Hfind); [|exact Hp|exact Hunit|exact Hser|].
    + exact (proj1 (forallb_forall _ _) (ty_all_here _ _ (proj2 (proj1 Hok))) _ Hin).
    + intros d' Hd'. apply (IH pt Hp); [|intros _; exact Hd'].
      exact (ty_ok_for_child _ _ _ Hok (in_map (fun vr => snd (snd vr)) _ _ Hin)).
Qed.

(* stronger than de_ser_roundtrip below: no condition on key types, only that ser succeeded, and
   for each of the three deserializers d, not just the two entry points *)
Theorem de_ser_roundtrip_strong : forall t v d x,
  no_none_like_under_option t = true -> names_ok t = true ->
  has_type v t -> ser v = ROk x -> de Fixed t d x = ROk v.
Proof.
  intros t v d x Hno Hnm Hty. apply (de_ser_typed Fixed v t Hty); [split; [split; assumption|discriminate]|].
  intros _. apply own_option_enum_fixed.
Qed.

Lemma key_type_admissible kt k : has_type k kt ->
  (key_ty_ok kt = true -> admissible_key k = true) /\ (key_ty_bad kt = true -> admissible_key k = false).
Proof.
  induction 1 as [ | | | | | | | | v t _ IH | v t _ IH | | | | | n k p pt vs Hfind _ _ _]; cbn;
    try (split; intro Hq; (discriminate Hq || reflexivity)).
  - (* TOption, Some: not among key_ty_ok; bad as its content is *) split; [discriminate|apply IH].
  - (* TNewtype *) exact IH.
  - (* TEnum *) apply find_variant_in in Hfind.
    split; intro Hq; apply (proj1 (forallb_forall _ _) Hq) in Hfind; destruct k; discriminate Hfind || reflexivity.
Qed.

Theorem ser_total : forall t v, keys_ok t = true -> has_type v t -> exists x, ser v = ROk x.
Proof.
  intros t v. revert t.
  induction v as [ | | | | | | | |v IH|v IH|l IH|l IH|m IH|fs IH|n k p IH] using sval_ind'; intros t Hk Hty;
    cbn [ser]; try (eexists; reflexivity);
    inversion Hty as [ | | | | | | | |? t' Hv|? t' Hv|? t' Hl|? ts Hl|? kt vt Hm _|? tfs Hxf|? ? ? pt vs Hfind Hp _];
    subst.
  1, 2: (* TOption Some, TNewtype *) exact (IH t' (ty_all_child _ _ _ Hk (or_introl eq_refl)) Hv).
  - (* TSeq *) apply bind_map_res_total. refine (Forall_mp _ _ _ (Forall_impl _ _ IH) Hl). intros a IHa Ha.
    exact (IHa t' (ty_all_child _ _ _ Hk (or_introl eq_refl)) Ha).
  - (* TTuple *)
    apply bind_map_res_total, Forall_forall. intros a Ha. destruct (Forall2_in_l _ _ _ _ Hl Ha) as (t & Ht & Hat).
    exact (proj1 (Forall_forall _ _) IH a Ha t (ty_all_child _ _ _ Hk Ht) Hat).
  - (* TMap: a key of an admitted key type is written by ser_key *)
    apply bind_map_res_total. refine (Forall_mp _ _ _ (Forall_impl _ _ IH) Hm). intros e [_ IHv] [Hkt Hvt].
    destruct (proj1 (ser_key_admissible _) (proj1 (key_type_admissible _ _ Hkt) (ty_all_here _ _ Hk))) as (kk & ->).
    destruct (IHv vt (ty_all_child _ _ vt Hk (or_intror (or_introl eq_refl))) Hvt) as (y & ->). eexists. reflexivity.
  - (* TStruct *)
    apply bind_map_res_total, Forall_forall. intros x Hx. destruct (Forall2_in_l _ _ _ _ Hxf Hx) as (f & Hf & _ & Hxt).
    destruct (proj1 (Forall_forall _ _) IH x Hx _ (ty_all_child _ _ _ Hk (in_map snd _ _ Hf)) Hxt) as (y & ->). eexists. reflexivity.
  - (* TEnum *)
    destruct (IH pt (ty_all_child _ (TEnum vs) pt Hk (in_map (fun vr => snd (snd vr)) _ _ (find_variant_in _ _ _ Hfind))) Hp) as (y & ->).
    destruct k; eexists; reflexivity.
Qed.

(* C19, first sentence, in the design's form *)
Theorem de_ser_roundtrip : forall e t v,
  has_type v t -> no_none_like_under_option t = true -> names_ok t = true -> keys_ok t = true ->
  res_bind (ser v) (de_entry Fixed e t) = ROk v.
Proof.
  intros e t v Hty Hno Hnm Hk. destruct (ser_total t v Hk Hty) as (x & Hx). rewrite Hx.
  exact (de_ser_roundtrip_strong t v (dkind_of e) x Hno Hnm Hty Hx).
Qed.

Theorem bad_key_refused : forall m k x,
  In (k, x) m -> admissible_key k = false -> exists e, ser (SMap m) = RErr e.
Proof.
  intros m k x Hin Hbad. destruct (ser (SMap m)) as [y|e] eqn:E; [exfalso|eauto].
  apply ser_map_ok in E as (es & Hes & _). destruct (Forall2_in_l _ _ _ _ Hes Hin) as (o & _ & Hk & _).
  assert (admissible_key k = true) by (apply ser_key_admissible; eauto). congruence.
Qed.

(* a non-empty map whose key type is a float, unit, sequence, tuple, map, struct (or a wrapper
   of one, or an enum without unit variants) is refused *)
Theorem bad_key_type_refused : forall m kt vt,
  has_type (SMap m) (TMap kt vt) -> key_ty_bad kt = true -> m <> [] -> exists e, ser (SMap m) = RErr e.
Proof.
  intros m kt vt Hty Hb Hne. destruct m as [|[k x] m]; [congruence|].
  inversion Hty as [ | | | | | | | | | | | | m' kt' vt' Hm _ | | ]; subst. apply Forall_inv in Hm as [Hk _].
  apply (bad_key_refused ((k, x) :: m) k x (or_introl eq_refl)). exact (proj2 (key_type_admissible kt k Hk) Hb).
Qed.

(* never an altered value: whatever ser returns for a map with an inadmissible key, it is not Ok *)
Corollary bad_key_never_ok : forall m k x y,
  In (k, x) m -> admissible_key k = false -> ser (SMap m) <> ROk y.
Proof. intros m k x y Hin Hb H. destruct (bad_key_refused m k x Hin Hb) as (e & He). congruence. Qed.

Fixpoint insert_all (xs : list (str * sval)) (c : ctx) : res ctx :=
  match xs with
  | [] => ROk c
  | f :: t => res_bind (insert (fst f) (snd f) c) (insert_all t)
  end.
Definition insert_value_all (es : list (str * value)) (c : ctx) : ctx :=
  fold_left (fun acc e => insert_value (fst e) (snd e) acc) es c.

Lemma ctx_of_field_entries : forall es c,
  ctx_of_entries (map field_entry es) c = insert_value_all es c.
Proof.
  unfold ctx_of_entries, insert_value_all. induction es as [|e es IH]; intro c; cbn; [reflexivity|]. apply IH.
Qed.

Lemma insert_all_fields : forall xs es c, ser_fields xs = ROk es -> insert_all xs c = ROk (insert_value_all es c).
Proof.
  intros xs es c H. apply ser_fields_ok in H. revert c.
  induction H as [|f e xs es [Hn Hy] _ IH]; intro c; cbn; [reflexivity|].
  unfold insert. rewrite Hy, Hn. cbn. apply IH.
Qed.

(* from_serialize of a struct = insert of each field = insert_value of each converted field *)
Theorem context_paths_agree : forall xs es,
  str_nodupb (map fst xs) = true -> ser_fields xs = ROk es ->
  from_serialize (SStruct xs) = ROk (insert_value_all es [])
  /\ insert_all xs [] = ROk (insert_value_all es []).
Proof.
  intros xs es Hnd Hs. split; [|apply insert_all_fields; exact Hs].
  unfold from_serialize. rewrite ser_struct_fields, Hs. cbn [res_bind].
  rewrite build_map_distinct, ctx_of_field_entries; [reflexivity|].
  apply fields_distinct_keys. rewrite <- (ser_fields_names xs es Hs). exact Hnd.
Qed.

Lemma from_serialize_needs_map : forall v x,
  ser v = ROk x -> (forall m, x <> VMap m) -> from_serialize v = RErr ErrMsg.
Proof. intros v x Hs Hm. unfold from_serialize. rewrite Hs. cbn. destruct x; try reflexivity. exfalso. eapply Hm; reflexivity. Qed.

(* D7: by reference, already the enum of one unit variant, read from the variant's name, is an error *)
Lemma D7_pinned_byref_enum_refuted : forall n,
  de_entry Pinned ByRef (TEnum [VUnit n]) (VStr n false) = RErr ErrMsg
  /\ de_entry Fixed ByRef (TEnum [VUnit n]) (VStr n false) = ROk (SVariant n VKUnit SUnit).
Proof. intro n. split; [reflexivity|]. cbn. rewrite str_eqb_refl. reflexivity. Qed.

(* D14: a newtype struct around [[]] comes back ALTERED through either entry point *)
Lemma D14_pinned_newtype_refuted :
  exists t v x w, has_type v t /\ no_none_like_under_option t = true /\ names_ok t = true /\ keys_ok t = true /\
                  ser v = ROk x /\ de_entry Pinned Owned t x = ROk w /\ de_entry Pinned ByRef t x = ROk w /\ w <> v.
Proof.
  exists (TNewtype (TSeq (TSeq (TInt false 8)))), (SNewtype (SSeq [SSeq []])), (VArr [VArr []]), (SNewtype (SSeq [])).
  repeat split; try reflexivity.
  - repeat constructor.
  - discriminate.
Qed.
