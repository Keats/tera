(* C04 — the VM model against the recursive specification: for a lineage function that is the
   specified one, [interp] (fixed code, any capture_block) computes exactly what [spec_node]
   says, with the SAME fuel on both sides. *)
From Coq Require Import List NArith Bool Arith Lia.
From TeraV Require Import Model.Lineage Spec.Inherit.
Import ListNotations.

Section NodeInd.
  Variable P : node -> Prop.
  Hypothesis HT : forall i, P (Text i).
  Hypothesis HS : P Super.
  Hypothesis HB : forall b body, Forall P body -> P (BlockDef b body).
  Hypothesis HF : forall k body, Forall P body -> P (FilterSection k body).
  Fixpoint node_ind' (n : node) : P n :=
    let fix go (l : list node) : Forall P l :=
      match l with
      | [] => Forall_nil P
      | x :: l' => Forall_cons x (node_ind' x) (go l')
      end in
    match n with
    | Text i => HT i
    | Super => HS
    | BlockDef b body => HB b body (go body)
    | FilterSection k body => HF k body (go body)
    end.
End NodeInd.

Section TreeInd.
  Variable P : otree -> Prop.
  Hypothesis HT : forall i, P (TText i).
  Hypothesis HO : P TOpen.
  Hypothesis HC : P TClose.
  Hypothesis HB : forall b body, Forall P body -> P (TBlock b body).
  Fixpoint otree_ind' (t : otree) : P t :=
    let fix go (l : list otree) : Forall P l :=
      match l with
      | [] => Forall_nil P
      | x :: l' => Forall_cons x (otree_ind' x) (go l')
      end in
    match t with
    | TText i => HT i
    | TOpen => HO
    | TClose => HC
    | TBlock b body => HB b body (go body)
    end.
End TreeInd.

(* text reaching the output / capture buffers when capture_block = cb: activations of cb are
   diverted to the block buffer *)
Fixpoint erase_node (cb : option name) (t : otree) : list out :=
  match t with
  | TText i => [OText i]
  | TOpen => [OOpen]
  | TClose => [OClose]
  | TBlock b body => if opt_name_eqb cb b then [] else flat_map (erase_node cb) body
  end.
Definition erase (cb : option name) (ts : list otree) : list out := flat_map (erase_node cb) ts.

(* content of block_buffer after the tree was produced, starting from d *)
Fixpoint lastw_node (cb : option name) (d : list out) (t : otree) : list out :=
  match t with
  | TBlock b body =>
      if opt_name_eqb cb b then erase cb body else fold_left (lastw_node cb) body d
  | _ => d
  end.
Definition lastw (cb : option name) (d : list out) (ts : list otree) : list out :=
  fold_left (lastw_node cb) ts d.

Lemma erase_none_flat_node : forall t, erase_node None t = flat_node t.
Proof.
  induction t using otree_ind'; cbn; auto.
  induction H; cbn; auto. now rewrite H, IHForall.
Qed.
Lemma erase_none_flat : forall ts, erase None ts = flat ts.
Proof. exact (flat_map_ext _ _ erase_none_flat_node). Qed.
Lemma lastw_none_node : forall t d, lastw_node None d t = d.
Proof.
  induction t using otree_ind'; cbn; auto.
  induction H; cbn; auto. intros d. now rewrite H, IHForall.
Qed.
Lemma lastw_none : forall ts d, lastw None d ts = d.
Proof.
  unfold lastw. induction ts; cbn; auto. intros d. now rewrite lastw_none_node, IHts.
Qed.

Lemma erase_app : forall cb a b, erase cb (a ++ b) = erase cb a ++ erase cb b.
Proof. intros. unfold erase. apply flat_map_app. Qed.
Lemma lastw_app : forall cb d a b, lastw cb d (a ++ b) = lastw cb (lastw cb d a) b.
Proof. intros. unfold lastw. apply fold_left_app. Qed.

Lemma erase_twrap : forall cb k tr, erase cb (twrap k tr) = wrap k (erase cb tr).
Proof.
  intros cb [] tr; auto. unfold erase, twrap, wrap. cbn [flat_map erase_node app].
  rewrite flat_map_app. reflexivity.
Qed.
Lemma lastw_twrap : forall cb k d tr, lastw cb d (twrap k tr) = lastw cb d tr.
Proof.
  intros cb [] d tr; auto. unfold lastw, twrap. cbn [fold_left lastw_node].
  rewrite fold_left_app. reflexivity.
Qed.

Lemma interp_nil : forall fx lin f st o, interp fx lin (S f) st [] o = Ok (st, o).
Proof. reflexivity. Qed.
Lemma interp_cons : forall fx lin f st i c o,
  interp fx lin (S f) st (i :: c) o =
  match i with
  | IText t => let '(st', o') := write st o [OText t] in interp fx lin (S f) st' c o'
  | ICapture => interp fx lin (S f) (set_caps st ([] :: st_caps st)) c o
  | IEndCapture k =>
      match st_caps st with
      | [] => Err EPanic
      | captured :: rest =>
          let '(st', o') := write (set_caps st rest) o (wrap k captured) in interp fx lin (S f) st' c o'
      end
  | IRenderBlock b =>
      match lin b with
      | None | Some [] => Err ENoLineage
      | Some ((ch0 :: _) as lineage) =>
          let st1 := set_current (set_blocks st ((b, lineage, 0) :: st_blocks st)) (Some b) in
          if opt_name_eqb (st_capture_block st) b then
            let st1' := if fx then set_caps st1 [] else st1 in
            match interp fx lin f st1' ch0 [] with
            | Err e => Err e
            | Ok (st2, buf) =>
                let st2' := if fx then set_caps st2 (st_caps st) else st2 in
                interp fx lin (S f)
                       (set_blocks (set_current (set_block_buffer st2' buf) (st_current st)) (tl (st_blocks st2')))
                       c o
            end
          else
            match interp fx lin f st1 ch0 o with
            | Err e => Err e
            | Ok (st2, o2) =>
                interp fx lin (S f) (set_blocks (set_current st2 (st_current st)) (tl (st_blocks st2))) c o2
            end
      end
  | ISuper =>
      match st_current st with
      | None => Err ESuperOutside
      | Some cur =>
          match find_entry cur (st_blocks st) with
          | None => Err EPanic
          | Some (pos, (lineage, level)) =>
              match nth_error lineage (S level) with
              | None => Err ESuperTop
              | Some ch =>
                  let st1 := set_caps (set_blocks st (set_level pos (S level) (st_blocks st))) [] in
                  match interp fx lin f st1 ch [] with
                  | Err e => Err e
                  | Ok (st2, sup) =>
                      let st3 := set_blocks (set_caps st2 (st_caps st)) (set_level pos level (st_blocks st2)) in
                      let '(st', o') := write st3 o sup in
                      interp fx lin (S f) st' c o'
                  end
              end
          end
      end
  end.
Proof. reflexivity. Qed.

Arguments interp : simpl never.
Arguments spec_node : simpl never.

Lemma spec_node_S : forall f ch cur n,
  spec_node (S f) ch cur n =
  match n with
  | Text i => Ok [TText i]
  | FilterSection k body => r <- list_bind (spec_node (S f) ch cur) body ;; Ok (twrap k r)
  | BlockDef b _ =>
      match resolve ch b with
      | None => Err ENoLineage
      | Some (body, anc) => r <- spec_list f ch (Some (b, anc)) body ;; Ok [TBlock b r]
      end
  | Super =>
      match cur with
      | None => Err ESuperOutside
      | Some (b, anc) =>
          match resolve anc b with
          | None => Err ESuperTop
          | Some (body, anc') => spec_list f ch (Some (b, anc')) body
          end
      end
  end.
Proof. destruct n; reflexivity. Qed.

Lemma list_bind_cons : forall A B (g : A -> rres (list B)) x l,
  list_bind g (x :: l) = (a <- g x ;; r <- list_bind g l ;; Ok (a ++ r)).
Proof. reflexivity. Qed.

Definition nonempty {A} (l : list A) : option (list A) :=
  match l with [] => None | _ => Some l end.

Lemma spec_lineage_resolve : forall ch b,
  spec_lineage ch b =
  match resolve ch b with
  | None => []
  | Some (body, anc) => body :: (if has_super body then spec_lineage anc b else [])
  end.
Proof.
  induction ch as [|t anc IH]; intros b; cbn; auto.
  destruct (defines t b); auto.
Qed.

Lemma has_super_code_node : forall n, calls_super (code_node n) = has_super_node n.
Proof.
  induction n using node_ind'; cbn; auto.
  unfold calls_super in *. cbn. rewrite existsb_app. cbn. rewrite orb_false_r.
  induction H; cbn; auto. rewrite existsb_app, H, IHForall. reflexivity.
Qed.
Lemma has_super_code : forall ns, calls_super (code_of ns) = has_super ns.
Proof.
  induction ns; cbn; auto. unfold calls_super, code_of, has_super in *. cbn.
  rewrite existsb_app. fold (calls_super (code_node a)). now rewrite has_super_code_node, IHns.
Qed.

(* final state and output after a tree was produced *)
Definition fin (st : vstate) (o : list out) (tr : list otree) : vstate * list out :=
  let '(st1, o1) := write st o (erase (st_capture_block st) tr) in
  (set_block_buffer st1 (lastw (st_capture_block st) (st_block_buffer st) tr), o1).

Lemma fin_nil : forall st o, fin st o [] = (st, o).
Proof. intros [bl cu [|top caps] cb bb] o; unfold fin, write; cbn; now rewrite app_nil_r. Qed.

Lemma fin_app : forall st o a b,
  fin st o (a ++ b) = let '(st1, o1) := fin st o a in fin st1 o1 b.
Proof.
  intros [bl cu [|top caps] cb bb] o a b; unfold fin, write; cbn;
    now rewrite erase_app, lastw_app, app_assoc.
Qed.

Lemma erase_block : forall cb b tr,
  erase cb [TBlock b tr] = if opt_name_eqb cb b then [] else erase cb tr.
Proof. intros. unfold erase. cbn. destruct (opt_name_eqb cb b); [reflexivity|apply app_nil_r]. Qed.

Lemma fin_text : forall st o i, fin st o [TText i] = write st o [OText i].
Proof. intros [bl cu [|top caps] cb bb] o i; reflexivity. Qed.

Lemma fin_super : forall st o tr b lineage level brest,
  st_blocks st = (b, lineage, level) :: brest ->
  fin st o tr =
  let '(st2, sup) := fin (set_caps (set_blocks st ((b, lineage, S level) :: brest)) []) [] tr in
  write (set_blocks (set_caps st2 (st_caps st)) (set_level 0 level (st_blocks st2))) o sup.
Proof. intros [bl cu [|top caps] cb bb] o tr b lineage level brest Hb; cbn in Hb; subst bl; reflexivity. Qed.

Lemma fin_block : forall st o b tr e,
  fin st o [TBlock b tr] =
  let st1 := set_current (set_blocks st (e :: st_blocks st)) (Some b) in
  if opt_name_eqb (st_capture_block st) b then
    let '(st2, buf) := fin (set_caps st1 []) [] tr in
    let st2' := set_caps st2 (st_caps st) in
    (set_blocks (set_current (set_block_buffer st2' buf) (st_current st)) (tl (st_blocks st2')), o)
  else
    let '(st2, o2) := fin st1 o tr in
    (set_blocks (set_current st2 (st_current st)) (tl (st_blocks st2)), o2).
Proof.
  intros [bl cu [|top caps] cb bb] o b tr e; unfold fin; rewrite erase_block; cbn;
    destruct (opt_name_eqb cb b); cbn; now rewrite ?app_nil_r.
Qed.

(* a filter section / set-capture *)
Lemma fin_capture : forall st o tr,
  fin (set_caps st ([] :: st_caps st)) o tr =
  (set_block_buffer (set_caps st (erase (st_capture_block st) tr :: st_caps st))
                    (lastw (st_capture_block st) (st_block_buffer st) tr), o).
Proof. reflexivity. Qed.

Lemma fin_twrap : forall st o k tr,
  fin st o (twrap k tr) =
  write (set_block_buffer st (lastw (st_capture_block st) (st_block_buffer st) tr)) o
        (wrap k (erase (st_capture_block st) tr)).
Proof.
  intros [bl cu [|top caps] cb bb] o k tr; unfold fin; rewrite erase_twrap, lastw_twrap; reflexivity.
Qed.

(* The specification's `cur` (the block being rendered and the ancestors above its current
   definition) against the VM state: same current block, and its entry on top of the block stack.
   What lies beyond the entry's level is tied to the specification only under `sup`: lineages are
   cut at the first definition without super() (`spec_lineage_resolve`), so the levels above are
   known exactly when the code about to run can still reach a super().  `sup` is instantiated with
   `has_super` of that code; it weakens from a list to its members (`cur_ok_weaken`). *)
Definition cur_ok (cur : option (name * chain)) (st : vstate) (sup : bool) : Prop :=
  match cur with
  | None => st_current st = None
  | Some (b, anc) =>
      st_current st = Some b /\
      exists lineage level rest,
        st_blocks st = (b, lineage, level) :: rest /\
        (sup = true -> skipn (S level) lineage = map code_of (spec_lineage anc b))
  end.

Lemma cur_ok_weaken : forall cur st s s', (s' = true -> s = true) -> cur_ok cur st s -> cur_ok cur st s'.
Proof.
  intros [[b anc]|] st s s' Hs; cbn; auto.
  intros [Hc (l & lv & r & Hb & Hk)]. split; auto. exists l, lv, r. split; auto.
Qed.

Lemma cur_ok_fin : forall cur st o tr s st' o',
  fin st o tr = (st', o') -> cur_ok cur st s -> cur_ok cur st' s.
Proof. intros cur [bl cu [|top caps] cb bb] o tr s st' o' [= <- _] H; exact H. Qed.

Lemma skipn_S_tl : forall A (l : list A) n, skipn (S n) l = tl (skipn n l).
Proof.
  induction l; intros [|n]; auto. apply IHl.
Qed.

Lemma nth_error_skipn_hd : forall A (l : list A) n, nth_error l n = hd_error (skipn n l).
Proof.
  induction l; intros [|n]; cbn; auto.
Qed.

Section Sim.
  Variable ch : chain.
  Variable lin : name -> option (list code).
  Hypothesis Hlin : forall b, lin b = nonempty (map code_of (spec_lineage ch b)).

  Definition call_ok (f : nat) : Prop :=
    forall cur st body o,
      cur_ok cur st (has_super body) ->
      interp true lin f st (code_of body) o =
      match spec_list f ch cur body with
      | Err e => Err e
      | Ok tr => Ok (fin st o tr)
      end.

  (* calls made by the node (block, super()) get fuel f, which is why `node_step` asks for `call_ok f` *)
  Definition node_ok (f : nat) (n : node) : Prop :=
    forall cur st rest o,
      cur_ok cur st (has_super_node n) ->
      interp true lin (S f) st (code_node n ++ rest) o =
      match spec_node (S f) ch cur n with
      | Err e => Err e
      | Ok tr => let '(st', o') := fin st o tr in interp true lin (S f) st' rest o'
      end.

  Lemma list_ok : forall f ns, Forall (node_ok f) ns ->
    forall cur st rest o,
      cur_ok cur st (has_super ns) ->
      interp true lin (S f) st (code_of ns ++ rest) o =
      match list_bind (spec_node (S f) ch cur) ns with
      | Err e => Err e
      | Ok tr => let '(st', o') := fin st o tr in interp true lin (S f) st' rest o'
      end.
  Proof.
    intros f ns HF. induction HF as [|n ns Hn _ IH]; intros cur st rest o Hc.
    - cbn [code_of flat_map app list_bind]. now rewrite fin_nil.
    - unfold code_of in *. cbn [flat_map]. rewrite <- app_assoc, list_bind_cons.
      rewrite (Hn cur st).
      2:{ eapply cur_ok_weaken; [|exact Hc]. unfold has_super. cbn. intros ->. reflexivity. }
      destruct (spec_node (S f) ch cur n) as [tr1|e]; cbn [rbind]; auto.
      destruct (fin st o tr1) as [st1 o1] eqn:Hf1.
      rewrite (IH cur st1).
      2:{ apply (cur_ok_fin _ _ _ _ _ _ _ Hf1). eapply cur_ok_weaken; [|exact Hc].
          unfold has_super. cbn. intros ->. apply orb_true_r. }
      destruct (list_bind (spec_node (S f) ch cur) ns) as [tr2|e]; cbn [rbind]; auto.
      rewrite fin_app, Hf1. reflexivity.
  Qed.

  Lemma node_step : forall f, call_ok f -> forall n, node_ok f n.
  Proof.
    intros f Hcall. induction n as [i| |b bd0 Hbd|k body Hbd] using node_ind'; unfold node_ok; intros cur st rest o Hc;
      cbn [code_node app]; rewrite interp_cons, spec_node_S; cbv iota.
    - now rewrite fin_text.
    - (* Super: sup = true here, so the level above is the specified one *)
      destruct cur as [[b anc]|]; unfold cur_ok in Hc.
      2:{ now rewrite Hc. }
      destruct Hc as [Hcu (lineage & level & brest & Hb & Hk)].
      rewrite Hcu, Hb. cbn [find_entry]. rewrite N.eqb_refl.
      specialize (Hk eq_refl). rewrite nth_error_skipn_hd, Hk.
      rewrite (spec_lineage_resolve anc b) in *.
      destruct (resolve anc b) as [[body anc']|]; cbn [map hd_error] in *; auto.
      cbn [set_level].
      rewrite (Hcall (Some (b, anc'))).
      2:{ unfold cur_ok. split; auto. exists lineage, (S level), brest. split; auto.
          intros Hs. rewrite Hs in Hk. now rewrite skipn_S_tl, Hk. }
      destruct (spec_list f ch (Some (b, anc')) body) as [tr|e]; auto.
      rewrite (fin_super st o tr b lineage level brest Hb).
      destruct (fin (set_caps (set_blocks st ((b, lineage, S level) :: brest)) []) [] tr). reflexivity.
    - (* BlockDef: a new entry at level 0; its upper levels are known iff the body has a super() *)
      rewrite Hlin.
      rewrite (spec_lineage_resolve ch b).
      destruct (resolve ch b) as [[body anc]|]; cbn [map nonempty]; auto.
      set (lineage := code_of body :: map code_of (if has_super body then spec_lineage anc b else [])).
      set (st1 := set_current (set_blocks st ((b, lineage, 0) :: st_blocks st)) (Some b)).
      assert (Hc1 : cur_ok (Some (b, anc)) st1 (has_super body)).
      { split; [reflexivity|]. exists lineage, 0, (st_blocks st). split; [reflexivity|].
        intros Hs. subst lineage. cbn. now rewrite Hs. }
      rewrite (Hcall (Some (b, anc)) (set_caps st1 [])), (Hcall (Some (b, anc)) st1) by exact Hc1.
      destruct (spec_list f ch (Some (b, anc)) body) as [tr|e]; cbn [rbind].
      2:{ now destruct (opt_name_eqb (st_capture_block st) b). }
      rewrite (fin_block st o b tr (b, lineage, 0)). cbv zeta. fold st1.
      destruct (opt_name_eqb (st_capture_block st) b);
        [destruct (fin (set_caps st1 []) [] tr)|destruct (fin st1 o tr)]; reflexivity.
    - (* FilterSection: the body runs on a fresh capture buffer, in front of the IEndCapture that wraps
         what was captured (fin_capture, fin_twrap) *)
      rewrite <- app_assoc.
      assert (HL := list_ok f body Hbd cur (set_caps st ([] :: st_caps st)) ([IEndCapture k] ++ rest) o).
      unfold code_of in HL. rewrite HL.
      2:{ destruct cur as [[b anc]|]; exact Hc. }
      destruct (list_bind (spec_node (S f) ch cur) body) as [tr|e]; cbn [rbind]; auto.
      rewrite fin_capture, fin_twrap. cbn [app]. rewrite interp_cons. reflexivity.
  Qed.

  Theorem sim : forall f, call_ok f.
  Proof.
    induction f as [|f IH]; unfold call_ok; intros cur st body o Hc.
    - reflexivity.
    - assert (HF : Forall (node_ok f) body).
      { apply Forall_forall. intros n _. now apply node_step. }
      assert (HL := list_ok f body HF cur st [] o Hc).
      rewrite app_nil_r in HL. rewrite HL. cbn [spec_list].
      destruct (list_bind (spec_node (S f) ch cur) body) as [tr|e]; auto.
      destruct (fin st o tr) as [st' o']. reflexivity.
  Qed.

  Corollary sim_top : forall f capture body,
    interp true lin f (init_state capture) (code_of body) [] =
    match spec_list f ch None body with
    | Err e => Err e
    | Ok tr => Ok (fin (init_state capture) [] tr)
    end.
  Proof.
    intros. apply sim. reflexivity.
  Qed.
End Sim.

(* When no activation of b lies inside another one, the block buffer after a run (`lastw`) is the
   text of b's last activation, `last (block_writes b ts)`: inside an activation of b there is none
   to erase (`erase_flat`).  LineageMain.render_block_slice_l rests on this. *)
Lemma last_app : forall A (l l' : list A) d, last (l ++ l') d = last l' (last l d).
Proof.
  intros A l l' d. induction l' as [|x l' _] using rev_ind.
  - now rewrite app_nil_r.
  - now rewrite app_assoc, !last_last.
Qed.

Lemma writes_nil_lastw_node : forall b t d,
  writes_node b t = [] -> lastw_node (Some b) d t = d.
Proof.
  intros b. induction t using otree_ind'; cbn; auto.
  intros d. destruct (N.eqb b b0); [discriminate|].
  intros Hw. revert d. induction H; cbn in *; auto.
  intros d. apply app_eq_nil in Hw. destruct Hw as [Hw1 Hw2]. rewrite H; auto.
Qed.

Lemma erase_flat_node : forall b t,
  self_nested_node true b t = false -> erase_node (Some b) t = flat_node t.
Proof.
  intros b. induction t using otree_ind'; cbn; auto.
  destruct (N.eqb b b0); cbn; [discriminate|].
  intros Hs. induction H; cbn in *; auto.
  apply orb_false_iff in Hs. destruct Hs as [Hs1 Hs2]. now rewrite H, IHForall.
Qed.
Lemma erase_flat : forall b ts,
  existsb (self_nested_node true b) ts = false -> erase (Some b) ts = flat ts.
Proof.
  induction ts; cbn; auto. intros Hs. apply orb_false_iff in Hs. destruct Hs.
  unfold erase, flat in *. cbn. now rewrite erase_flat_node, IHts.
Qed.

Lemma lastw_last_node : forall b t d,
  self_nested_node false b t = false ->
  lastw_node (Some b) d t = last (writes_node b t) d.
Proof.
  intros b. induction t using otree_ind'; cbn; auto.
  intros d. destruct (N.eqb b b0) eqn:E; cbn.
  - intros Hs. now apply erase_flat.
  - intros Hs. revert d. induction H; intros d; cbn in *; auto.
    apply orb_false_iff in Hs. destruct Hs as [Hs1 Hs2].
    rewrite H, IHForall, last_app by auto. reflexivity.
Qed.

Lemma lastw_last : forall b ts d,
  self_nested b ts = false -> lastw (Some b) d ts = last (block_writes b ts) d.
Proof.
  unfold self_nested, lastw, block_writes. induction ts; intros d Hs; cbn in *; auto.
  apply orb_false_iff in Hs. destruct Hs as [Hs1 Hs2].
  rewrite lastw_last_node, IHts, last_app by auto. reflexivity.
Qed.
