(* Facts about Model/Value.v that every part of the development needs: decidable string equality
   as an equivalence, and induction on the nested value tree. *)
From Coq Require Import List NArith Bool.
From TeraV Require Import Model.Value.
Import ListNotations.

Lemma str_eqb_eq (a b : str) : str_eqb a b = true <-> a = b.
Proof.
  unfold str_eqb. revert b.
  induction a as [|x a IH]; intros [|y b]; cbn; split; intros H; try discriminate; try reflexivity.
  - apply andb_true_iff in H as [Hx Ha]. apply N.eqb_eq in Hx. apply IH in Ha. congruence.
  - injection H as -> ->. rewrite N.eqb_refl. now apply IH.
Qed.

Lemma str_eqb_refl (a : str) : str_eqb a a = true.
Proof. now apply str_eqb_eq. Qed.

Lemma str_eqb_neq (a b : str) : str_eqb a b = false <-> a <> b.
Proof. rewrite <- str_eqb_eq. now destruct (str_eqb a b). Qed.

Lemma str_eqb_sym (a b : str) : str_eqb a b = str_eqb b a.
Proof. apply eq_true_iff_eq. rewrite !str_eqb_eq. split; congruence. Qed.

(* [value] is nested through lists of values and of key/value pairs: the generated principle
   gives no hypothesis for the elements *)
Lemma value_ind' (P : value -> Prop) :
  P VUndef -> P VNone -> (forall b, P (VBool b)) -> (forall r z, P (VInt r z)) ->
  (forall f, P (VFloat f)) -> (forall s b, P (VStr s b)) ->
  (forall l, Forall P l -> P (VArr l)) ->
  (forall m, Forall (fun kv : key * value => P (snd kv)) m -> P (VMap m)) ->
  (forall b, P (VBytes b)) -> forall v, P v.
Proof.
  intros H1 H2 H3 H4 H5 H6 H7 H8 H9. fix IH 1. intros [ | | b | r z | f | s b | l | m | b].
  - exact H1. - exact H2. - apply H3. - apply H4. - apply H5. - apply H6.
  - apply H7. revert l. fix IHl 1. intros [|x t]; constructor; [apply IH | apply IHl].
  - apply H8. revert m. fix IHm 1. intros [|[k x] t]; constructor; [apply IH | apply IHm].
  - apply H9.
Qed.
