(* C04 — source template sets and their compilation ([compiled]).  A chain of the source set is the
   anc_names chain of the compiled set and its spec_lineage the clin of LineageProofs; the orphan rule is
   spec_accepts.  With LineageRender.sim_top, the render theorems of an accepted registration; with
   LineageNoNest.no_self_nesting, render_block_slice_l.  Props/C04.v instantiates these. *)
From Coq Require Import List NArith Bool Arith Lia Permutation.
From TeraV Require Import Model.Lineage Spec.Inherit Proofs.ListFacts Proofs.LineageRender Proofs.LineageNoNest
  Proofs.LineageProofs.
Import ListNotations.

Definition tnames (ts : list template) : list name := map t_name ts.

Definition compiled (t : template) : ctemplate :=
  {| c_name := t_name t; c_extends := t_extends t; c_chunk := code_of (t_body t);
     c_blocks := map (fun '(b, body) => (b, code_of body)) (blocks_of (t_body t));
     c_top := top_of (t_body t) |}.

Lemma compile_all_ok : forall ts reg, compile_all ts = Ok reg ->
  reg = map compiled ts /\ forall t, In t ts -> NoDup (map fst (blocks_of (t_body t))).
Proof.
  induction ts as [|t ts IH]; cbn; intros reg H.
  - inversion H; subst. split; auto. intros t [].
  - unfold compile_template in H.
    destruct (nodupb (map fst (blocks_of (t_body t)))) eqn:E; [|discriminate]. apply nodupb_NoDup in E.
    cbn in H. destruct (compile_all ts) as [cs|] eqn:Ea; [|discriminate]. cbn in H. inversion H; subst.
    destruct (IH cs eq_refl) as [-> Hall]. split; [reflexivity|]. intros t' [<-|Hin]; auto.
Qed.

Lemma compile_all_complete : forall ts,
  (forall t, In t ts -> NoDup (map fst (blocks_of (t_body t)))) ->
  compile_all ts = Ok (map compiled ts).
Proof.
  induction ts as [|t ts IH]; cbn; intros H; auto.
  unfold compile_template.
  rewrite (proj2 (nodupb_NoDup _) (H t (or_introl eq_refl))). cbn. rewrite IH by auto. reflexivity.
Qed.

Lemma names_compiled : forall ts, names (map compiled ts) = tnames ts.
Proof. intros. unfold names, tnames. rewrite map_map. reflexivity. Qed.

Lemma fst_map_code : forall (bl : list (name * list node)),
  map fst (map (fun '(b, body) => (b, code_of body)) bl) = map fst bl.
Proof. induction bl as [|[b x] bl IH]; cbn; auto. now rewrite IH. Qed.

Lemma reg_wf_compiled : forall ts reg,
  NoDup (tnames ts) -> compile_all ts = Ok reg -> reg_wf reg.
Proof.
  intros ts reg Hnd H. destruct (compile_all_ok _ _ H) as [-> Hall]. split.
  - now rewrite names_compiled.
  - intros c Hin. apply in_map_iff in Hin. destruct Hin as (t & <- & Hin). cbn.
    rewrite fst_map_code. auto.
Qed.

Lemma find_def_node_eq : forall b n,
  find_def_node b n =
  match n with
  | BlockDef b' body => if N.eqb b b' then Some body else find_def b body
  | FilterSection _ body => find_def b body
  | _ => None
  end.
Proof.
  intros b [i|b' body| |k body]; try reflexivity; simpl; [destruct (N.eqb b b'); [reflexivity|]|];
    (induction body as [|x l IH]; [reflexivity|]; simpl; destruct (find_def_node b x); [reflexivity|exact IH]).
Qed.

Lemma blocks_find_list : forall b ns,
  Forall (fun n => NoDup (map fst (blocks_node n)) -> alookup b (blocks_node n) = find_def_node b n) ns ->
  NoDup (map fst (flat_map blocks_node ns)) -> alookup b (flat_map blocks_node ns) = find_def b ns.
Proof.
  intros b ns IH. induction IH as [|x l Hx _ IHl]; cbn; intros Hnd; auto.
  rewrite map_app in Hnd. apply NoDup_app_inv in Hnd. destruct Hnd as [Hl Hr].
  rewrite alookup_app, Hx, IHl by assumption. reflexivity.
Qed.

Lemma blocks_find_node : forall b n,
  NoDup (map fst (blocks_node n)) -> alookup b (blocks_node n) = find_def_node b n.
Proof.
  intros b. induction n as [i| |b' body IH|k body IH] using node_ind'; intros Hnd; auto.
  - cbn [blocks_node] in *. rewrite find_def_node_eq, alookup_app. rewrite map_app in Hnd.
    apply NoDup_remove in Hnd. rewrite app_nil_r in Hnd. destruct Hnd as [Hl Hfresh].
    assert (Hl' := blocks_find_list b body IH Hl).
    destruct (N.eqb b b') eqn:E.
    + apply N.eqb_eq in E. subst b'.
      destruct (alookup b (flat_map blocks_node body)) eqn:E2.
      * destruct Hfresh. apply in_keys_iff. cbn [fst]. congruence.
      * cbn. now rewrite N.eqb_refl.
    + rewrite Hl'. destruct (find_def b body); auto. cbn. now rewrite E.
  - cbn [blocks_node] in *. rewrite find_def_node_eq. now apply blocks_find_list.
Qed.

Lemma blocks_find : forall b ns,
  NoDup (map fst (blocks_of ns)) -> alookup b (blocks_of ns) = find_def b ns.
Proof.
  intros b ns. apply blocks_find_list, Forall_forall. intros n _. apply blocks_find_node.
Qed.

Lemma compiled_lookup : forall t b, NoDup (map fst (blocks_of (t_body t))) ->
  alookup b (c_blocks (compiled t)) = option_map code_of (defines t b).
Proof.
  intros. cbn. rewrite alookup_map, blocks_find by auto. reflexivity.
Qed.

Lemma top_of_spec_top : forall ns, top_of ns = spec_top ns.
Proof. reflexivity. Qed.

Lemma is_chain_in : forall ts ch, is_chain ts ch -> forall t, In t ch -> In t ts.
Proof.
  induction ch as [|t ch IH]; cbn; intros H x Hx; [contradiction|].
  destruct ch as [|p ch].
  - destruct Hx as [->|[]]. tauto.
  - destruct H as (Hin & _ & Hc). destruct Hx as [->|Hx]; auto.
Qed.

Lemma existsb_rev : forall A (g : A -> bool) l, existsb g (rev l) = existsb g l.
Proof.
  induction l; cbn; auto. rewrite existsb_app, IHl. cbn. rewrite orb_false_r. apply orb_comm.
Qed.

Lemma filter_nil_forallb : forall A (g : A -> bool) l, filter (fun x => negb (g x)) l = [] <-> forallb g l = true.
Proof.
  induction l; cbn; [tauto|]. destruct (g a); cbn.
  - exact IHl.
  - split; discriminate.
Qed.

Lemma is_chain_tail : forall ts t p anc, is_chain ts (t :: p :: anc) -> is_chain ts (p :: anc).
Proof. intros ts t p anc H. cbn in H. tauto. Qed.

Lemma orphans_perm_iff : forall reg P l l', Permutation l l' ->
  (flat_map (orphans_of reg P) l = [] <-> flat_map (orphans_of reg P) l' = []).
Proof.
  intros. split; apply orphans_perm; auto. now apply Permutation_sym.
Qed.

Section Source.
  Variable ts : list template.
  Hypothesis Hnd : NoDup (tnames ts).
  Hypothesis Hbl : forall t, In t ts -> NoDup (map fst (blocks_of (t_body t))).

  Lemma get_compiled : forall t, In t ts -> get_tpl (map compiled ts) (t_name t) = Some (compiled t).
  Proof.
    intros. change (t_name t) with (c_name (compiled t)). apply get_tpl_in.
    - now rewrite names_compiled.
    - now apply in_map.
  Qed.

  Lemma chain_anc : forall ch, is_chain ts ch ->
    match ch with
    | [] => False
    | t :: anc => anc_names (map compiled ts) (t_name t) (map t_name anc)
    end.
  Proof.
    induction ch as [|t ch IH]; cbn [is_chain]; auto.
    destruct ch as [|p ch].
    - intros [Hin He]. eapply AN_root; [apply get_compiled; eauto|]. exact He.
    - intros (Hin & He & Hc). cbn [map]. eapply AN_step; [apply get_compiled; eauto|exact He|].
      apply (IH Hc).
  Qed.

  (* tpl_parents keeps the ancestors root-first *)
  Lemma chain_parents : forall P T anc, parents_ok (map compiled ts) P -> is_chain ts (T :: anc) ->
    alookup (t_name T) P = Some (rev (map t_name anc)).
  Proof.
    intros P T anc HP Hc.
    assert (HinC : In (compiled T) (map compiled ts)) by (apply in_map; eapply is_chain_in; eauto; now left).
    destruct (parents_ok_lookup _ _ _ HP HinC) as (ps & E & Ha).
    rewrite <- (an_det _ _ _ Ha _ (chain_anc _ Hc)), rev_involutive. exact E.
  Qed.

  Lemma clin_spec : forall ch b, Forall (fun t => In t ts) ch ->
    clin (map compiled ts) (map t_name ch) b = map code_of (spec_lineage ch b).
  Proof.
    intros ch b. induction 1 as [|t ch Ht _ IH]; cbn [map clin spec_lineage]; auto.
    rewrite (get_compiled t Ht), (compiled_lookup t b (Hbl t Ht)).
    destruct (defines t b) as [body|]; cbn [option_map map]; auto.
    rewrite has_super_code. destruct (has_super body); cbn [map]; auto. now rewrite IH.
  Qed.

  Lemma orphans_spec : forall P T anc, parents_ok (map compiled ts) P -> is_chain ts (T :: anc) ->
    (orphans_of (map compiled ts) P (compiled T) = [] <->
     match anc with [] => true | _ => forallb (defined_in anc) (spec_top (t_body T)) end = true).
  Proof.
    intros P T anc HP Hc.
    unfold orphans_of. cbn [c_name compiled]. rewrite (chain_parents P T anc HP Hc).
    unfold orphan_blocks. destruct anc as [|p anc]; [cbn; tauto|].
    destruct (rev (map t_name (p :: anc))) eqn:Er.
    { apply (f_equal (@length _)) in Er. rewrite rev_length in Er. discriminate. }
    rewrite <- Er, <- filter_nil_forallb. cbn [c_top compiled]. rewrite top_of_spec_top.
    erewrite filter_ext; [reflexivity|]. intros b. cbv beta.
    rewrite existsb_rev. unfold defined_in. f_equal.
    assert (Hin : Forall (fun t => In t ts) (p :: anc)).
    { apply Forall_forall. intros t Ht. eapply is_chain_in; eauto. now right. }
    clear -Hin Hnd Hbl. induction Hin as [|t l Ht _ IH]; cbn [map existsb]; auto.
    rewrite (get_compiled t Ht), IH. f_equal.
    unfold amem. rewrite (compiled_lookup t b (Hbl t Ht)).
    destruct (defines t b); reflexivity.
  Qed.

  Lemma no_orphans_accepts : forall P, parents_ok (map compiled ts) P ->
    flat_map (orphans_of (map compiled ts) P) (map compiled ts) = [] -> forall ch, is_chain ts ch -> spec_accepts ch = true.
  Proof.
    intros P HP Horph. induction ch as [|T anc IH]; intros Hc; [reflexivity|].
    cbn [spec_accepts]. apply andb_true_iff. split.
    - apply (orphans_spec P T anc HP Hc).
      apply (proj1 (flat_map_nil _ _ _ _) Horph), in_map. eapply is_chain_in; eauto. now left.
    - destruct anc as [|p anc]; [reflexivity|]. apply IH. eapply is_chain_tail; eauto.
  Qed.

  Section Chains.
    Variable ord : orders.
    Hypothesis Hord : orders_ok ord.
    Hypothesis Hchains : forall t, In t ts -> exists anc, is_chain ts (t :: anc).

    Lemma wf_chains : reg_wf (map compiled ts).
    Proof. eapply reg_wf_compiled; eauto. now apply compile_all_complete. Qed.

    Lemma loop1_chains : exists P,
      loop1 (map compiled ts) (map compiled ts) = Ok P /\ parents_ok (map compiled ts) P.
    Proof.
      destruct wf_chains as [Hn _].
      assert (Hs := loop1_spec (map compiled ts) (map compiled ts) Hn (incl_refl _)).
      destruct (loop1 (map compiled ts) (map compiled ts)) as [P|e]; [now exists P|].
      destruct Hs as (c & Hc & Hno). apply in_map_iff in Hc. destruct Hc as (t & <- & Hin).
      destruct (Hchains t Hin) as [anc Hch]. destruct (Hno _ (chain_anc _ Hch)).
    Qed.

    (* every template's chain passes the rule (nested new blocks are not looked at) => not
       rejected by the orphan rule: what is left is the block-cycle check on the lineage *)
    Theorem chains_ok_accepted :
      (forall ch, is_chain ts ch -> spec_accepts ch = true) ->
      exists P tb, tb_full (map compiled ts) P tb /\
        register ord ts =
        (cyc <- cycle_pass (map compiled ts) tb ;;
         match cyc with
         | [] => Ok {| f_tpls := map compiled ts; f_parents := P; f_lineage := tb |}
         | _ :: _ => Err EBlockCycle
         end).
    Proof.
      intros Hacc. unfold register. rewrite compile_all_complete by auto. cbn [rbind].
      destruct loop1_chains as (P & HP & HPok). exists P.
      assert (A := finalize_after_loop1 ord _ P Hord wf_chains HP).
      rewrite (proj2 (flat_map_nil _ _ _ _)) in A; [exact A|].
      intros c Hc. apply in_map_iff in Hc. destruct Hc as (T & <- & HinT).
      destruct (Hchains T HinT) as [anc Hch].
      apply (orphans_spec P T anc HPok Hch).
      specialize (Hacc _ Hch). cbn [spec_accepts] in Hacc. now apply andb_true_iff in Hacc.
    Qed.

    Corollary chains_ok_only_cycle_rejection :
      (forall ch, is_chain ts ch -> spec_accepts ch = true) ->
      forall e, register ord ts = Err e -> e = EBlockCycle \/ e = EPanic \/ e = EOutOfFuel.
    Proof.
      intros Hacc e He. destruct (chains_ok_accepted Hacc) as (P & tb & Hf & Hr). rewrite Hr in He.
      destruct (cycle_pass (map compiled ts) tb) as [[|c cyc]|e'] eqn:E; cbn [rbind] in He.
      - discriminate.
      - inversion He. auto.
      - inversion He; subst. right. eapply cycle_pass_errors; eauto.
    Qed.

    Theorem chain_bad_rejected : forall ch, is_chain ts ch -> spec_accepts ch = false ->
      register ord ts = Err EOrphanBlock.
    Proof.
      intros ch Hch Hbad. unfold register. rewrite compile_all_complete by auto. cbn [rbind].
      destruct loop1_chains as (P & HP & HPok).
      assert (A := finalize_after_loop1 ord _ P Hord wf_chains HP).
      destruct (flat_map (orphans_of (map compiled ts) P) (map compiled ts)) eqn:E; [|exact A].
      rewrite (no_orphans_accepts P HPok E ch Hch) in Hbad. discriminate.
    Qed.
  End Chains.
End Source.

Section Registered.
  Variable ord : orders.
  Variable ts : list template.
  Variable fr : freg.
  Hypothesis Hord : orders_ok ord.
  Hypothesis Hnd : NoDup (tnames ts).
  Hypothesis Hreg : register ord ts = Ok fr.

  Let reg := map compiled ts.

  Lemma register_ok_inv :
    (forall t, In t ts -> NoDup (map fst (blocks_of (t_body t)))) /\ finalized reg fr.
  Proof.
    unfold register in Hreg. destruct (compile_all ts) as [r|] eqn:E; [|discriminate].
    destruct (compile_all_ok _ _ E) as [-> Hall]. split; [exact Hall|].
    apply (finalize_ok ord); auto. eapply reg_wf_compiled; eauto.
  Qed.

  Lemma registered_chain : forall T anc, is_chain ts (T :: anc) ->
    alookup (t_name T) (f_parents fr) = Some (rev (map t_name anc)) /\
    (forall b, lineage_of fr (t_name T) b = nonempty (map code_of (spec_lineage (T :: anc) b))) /\
    get_tpl (f_tpls fr) (t_name T) = Some (compiled T).
  Proof.
    intros T anc Hc. destruct register_ok_inv as (Hbl & Htp & HP & _ & _ & Hlin).
    assert (HinT : In T ts) by (eapply is_chain_in; eauto; now left).
    assert (Hpar := chain_parents ts Hnd _ T anc HP Hc).
    split; auto. split.
    - intros b. assert (Hb := Hlin _ (in_map compiled _ _ HinT) b). cbn [c_name compiled] in Hb.
      rewrite Hb, (ancl_some _ _ _ Hpar), rev_involutive.
      change (t_name T :: map t_name anc) with (map t_name (T :: anc)).
      unfold reg. rewrite clin_spec; auto. apply Forall_forall, (is_chain_in ts _ Hc).
    - rewrite Htp. now apply get_compiled.
  Qed.

  Theorem render_to_spec : forall fuel T anc capture, is_chain ts (T :: anc) ->
    interp true (lineage_of fr (t_name T)) fuel (init_state capture)
           (code_of (t_body (last (T :: anc) {| t_name := 0%N; t_extends := None; t_body := [] |}))) [] =
    match spec_render fuel (T :: anc) with
    | Err e => Err e
    | Ok tr => Ok (fin (init_state capture) [] tr)
    end.
  Proof.
    intros fuel T anc capture Hc. destruct (registered_chain T anc Hc) as (_ & Hlin & _).
    unfold spec_render. apply sim_top. exact Hlin.
  Qed.

  (* render_to starts from the chunk of the chain's last template, the root ancestor *)
  Theorem render_to_chain : forall fuel T anc block, is_chain ts (T :: anc) ->
    render_to true fuel fr (t_name T) block =
    rmap (fun tr => match block with Some _ => lastw block [] tr | None => flat tr end)
         (spec_render fuel (T :: anc)).
  Proof.
    intros fuel T anc block Hc. unfold render_to.
    destruct (registered_chain T anc Hc) as (-> & _ & ->). destruct register_ok_inv as (_ & -> & _).
    set (d := {| t_name := 0%N; t_extends := None; t_body := [] |}).
    assert (Hroot : match rev (map t_name anc) with
                    | base :: _ => match get_tpl reg base with Some bt => Ok (c_chunk bt) | None => Err ENoTemplate end
                    | [] => Ok (c_chunk (compiled T))
                    end = Ok (code_of (t_body (last (T :: anc) d)))).
    { destruct anc as [|root anc _] using rev_ind; [reflexivity|].
      rewrite map_app. cbn [map]. rewrite rev_unit, app_comm_cons, last_last. unfold reg.
      rewrite get_compiled by (auto; apply (is_chain_in ts _ Hc); right; apply in_or_app; right; now left).
      reflexivity. }
    rewrite Hroot. subst d. cbn [rbind]. rewrite (render_to_spec fuel T anc block Hc).
    destruct (spec_render fuel (T :: anc)) as [tr|e]; [|reflexivity].
    destruct block; cbn; [reflexivity|]. now rewrite erase_none_flat.
  Qed.

  (* `_l`: over the registration of this section; Props/C04.v states the closed forms under the names
     without the suffix *)
  Theorem render_chain_spec_l : forall fuel T anc, is_chain ts (T :: anc) ->
    render_model fuel fr (t_name T) = rmap flat (spec_render fuel (T :: anc)).
  Proof. intros fuel T anc Hc. exact (render_to_chain fuel T anc None Hc). Qed.

  Theorem render_block_spec_l : forall fuel T anc b, is_chain ts (T :: anc) ->
    render_block_model fuel fr (t_name T) b =
    match resolve (T :: anc) b with
    | None => Err EBlockNotFound
    | Some _ => rmap (lastw (Some b) []) (spec_render fuel (T :: anc))
    end.
  Proof.
    intros fuel T anc b Hc. unfold render_block_model, render_block_gen.
    destruct (registered_chain T anc Hc) as (_ & Hlin & Hg). rewrite Hg, Hlin.
    rewrite (spec_lineage_resolve (T :: anc) b).
    destruct (resolve (T :: anc) b) as [[body anc']|]; cbn [nonempty map]; auto.
    exact (render_to_chain fuel T anc (Some b) Hc).
  Qed.

  (* the block buffer holds the last activation's text (lastw_last: no activation of b lies
     inside another one, no_self_nesting) *)
  Theorem render_block_slice_l : forall fuel T anc b, is_chain ts (T :: anc) ->
    match resolve (T :: anc) b with
    | None => render_block_model fuel fr (t_name T) b = Err EBlockNotFound
    | Some _ =>
        match spec_render fuel (T :: anc) with
        | Ok tr => render_model fuel fr (t_name T) = Ok (flat tr) /\
                   render_block_model fuel fr (t_name T) b = Ok (last (block_writes b tr) [])
        | Err e => render_model fuel fr (t_name T) = Err e /\
                   render_block_model fuel fr (t_name T) b = Err e
        end
    end.
  Proof.
    intros fuel T anc b Hc.
    rewrite (render_chain_spec_l fuel T anc Hc), (render_block_spec_l fuel T anc b Hc).
    destruct (resolve (T :: anc) b); auto.
    destruct (spec_render fuel (T :: anc)) as [tr|e] eqn:E; cbn [rmap]; auto.
    split; auto. rewrite lastw_last; auto. eapply no_self_nesting; eauto.
  Qed.

  Theorem accepted_chain_ok : forall ch, is_chain ts ch -> spec_accepts ch = true.
  Proof.
    destruct register_ok_inv as (Hbl & _ & HP & Horph & _).
    exact (no_orphans_accepts ts Hnd Hbl _ HP Horph).
  Qed.
End Registered.

Theorem register_order_independent : forall ord ord' ts,
  orders_ok ord -> orders_ok ord' -> NoDup (tnames ts) ->
  rmap (fun _ => tt) (register ord ts) = rmap (fun _ => tt) (register ord' ts) /\
  forall fr fr', register ord ts = Ok fr -> register ord' ts = Ok fr' ->
    f_tpls fr = f_tpls fr' /\
    forall t, In t ts ->
      ancl (f_parents fr) (t_name t) = ancl (f_parents fr') (t_name t) /\
      forall b, lineage_of fr (t_name t) b = lineage_of fr' (t_name t) b.
Proof.
  intros ord ord' ts Ho Ho' Hnd. split.
  - unfold register. destruct (compile_all ts) as [reg|e] eqn:E; cbn [rbind]; auto.
    apply finalize_class_indep; auto. eapply reg_wf_compiled; eauto.
  - intros fr fr' H H'.
    destruct (register_ok_inv ord ts fr Ho Hnd H) as (_ & Htp & HP & _ & _ & Hlin).
    destruct (register_ok_inv ord' ts fr' Ho' Hnd H') as (_ & Htp' & HP' & _ & _ & Hlin').
    split; [congruence|]. intros t Hin.
    assert (HinC : In (compiled t) (map compiled ts)) by now apply in_map.
    assert (Heq := an_det _ _ _ (parents_ok_anc _ _ _ HP HinC) _ (parents_ok_anc _ _ _ HP' HinC)).
    split; [exact Heq|]. intros b. change (t_name t) with (c_name (compiled t)).
    rewrite (Hlin _ HinC b), (Hlin' _ HinC b), Heq. reflexivity.
Qed.
