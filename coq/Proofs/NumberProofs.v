(* Lemmas for C13, part 1: integer arithmetic of Model/Number.v against Spec/Arith.v.
   (Part 2, numeric comparison, is Proofs/NumCmpProofs.v.) *)
From TeraV Require Import Model.Value Model.Number Spec.Arith.
From TeraV Require Proofs.IntRange.

Ltac range_unfold :=
  unfold fits_i128, in_i128, in_u128, i128_min, i128_max, u128_max, two127, two128, u32_max in *.

(* Spec.Arith writes the bounds as - 2 ^ 127 and 2 ^ 127 - 1: the same numbers *)
Lemma in_i128_fits : forall z, in_i128 z = true <-> fits_i128 z.
Proof. exact IntRange.in_i128_iff. Qed.

Lemma in_i128_false : forall z, in_i128 z = false <-> ~ fits_i128 z.
Proof.
  intro z. rewrite <- in_i128_fits. destruct (in_i128 z); split; congruence.
Qed.

Lemma as_number_int : forall r z,
  as_number (VInt r z) = if in_i128 z then Some (NInt z) else None.
Proof. intros. cbn [as_number as_i128]. destruct (in_i128 z); reflexivity. Qed.

Lemma with_numbers_int ra a rb b k :
  with_numbers (VInt ra a) (VInt rb b) k = if in_i128 a && in_i128 b then k (NInt a) (NInt b) else m_err.
Proof. unfold with_numbers. rewrite !as_number_int. destruct (in_i128 a), (in_i128 b); reflexivity. Qed.

Lemma math_int : forall iop fop ra a rb b,
  math iop fop (VInt ra a) (VInt rb b) =
    if in_i128 a && in_i128 b
    then match iop a b with Some z => Some (ROk (VInt I128 z)) | None => Some (RErr ErrMsg) end
    else Some (RErr ErrMsg).
Proof.
  intros. unfold math. rewrite with_numbers_int.
  destruct (in_i128 a && in_i128 b); [|reflexivity].
  cbn [num_is_float orb]. destruct (iop a b); reflexivity.
Qed.

Definition exact_or_error (a b r : Z) : mres :=
  if in_i128 a && in_i128 b && in_i128 r then Some (ROk (VInt I128 r)) else Some (RErr ErrMsg).

Lemma checked_fits z : fits_i128 z -> checked z = Some z.
Proof. intros H. unfold checked. apply in_i128_fits in H. rewrite H. reflexivity. Qed.

Lemma checked_not_fits z : ~ fits_i128 z -> checked z = None.
Proof. intros H. unfold checked. apply in_i128_false in H. rewrite H. reflexivity. Qed.

(* every binary operation first converts its operands (an integer outside i128 is refused), and
   on two integers returns what its checked i128 operation returns: to be exact or an error it
   only has to compute `checked r` on operands that fit *)
Lemma int_op_exact ra a rb b k r :
  (fits_i128 a -> fits_i128 b ->
   k (NInt a) (NInt b) = match checked r with Some z => m_ok (value_of_int z) | None => m_err end) ->
  with_numbers (VInt ra a) (VInt rb b) k = exact_or_error a b r.
Proof.
  intros H. rewrite with_numbers_int. unfold exact_or_error.
  destruct (in_i128 a) eqn:Ha; [|reflexivity]. destruct (in_i128 b) eqn:Hb; [|reflexivity].
  rewrite H by (apply in_i128_fits; assumption). unfold checked.
  destruct (in_i128 r); reflexivity.
Qed.

Lemma math_checked : forall g fop ra a rb b,
  math (fun x y => checked (g x y)) fop (VInt ra a) (VInt rb b) = exact_or_error a b (g a b).
Proof. intros. apply int_op_exact. reflexivity. Qed.

Lemma neg_exact : forall ra a,
  num_negate (VInt ra a) = exact_or_error a a (- a).
Proof.
  intros. unfold num_negate, exact_or_error. rewrite as_number_int.
  destruct (in_i128 a); cbn [andb]; [|reflexivity].
  unfold checked_neg, checked. destruct (in_i128 (- a)); reflexivity.
Qed.

Lemma exact_or_error_ok : forall a b r v,
  exact_or_error a b r = Some (ROk v) <->
  fits_i128 a /\ fits_i128 b /\ v = VInt I128 r /\ fits_i128 r.
Proof.
  intros. unfold exact_or_error. rewrite <- !in_i128_fits.
  destruct (in_i128 a), (in_i128 b), (in_i128 r); cbn [andb]; split; intro H;
    try discriminate; try (decompose [and] H; discriminate).
  - inversion H. auto.
  - decompose [and] H. subst. reflexivity.
Qed.

Lemma exact_or_error_total : forall a b r,
  exact_or_error a b r = Some (ROk (VInt I128 r)) \/ exact_or_error a b r = Some (RErr ErrMsg).
Proof. intros. unfold exact_or_error. destruct (_ && _ && _); auto. Qed.

Lemma euclid_spec_is_euclid : forall a b,
  b <> 0 -> is_euclid a b (euclid_div a b) (euclid_mod a b).
Proof.
  intros a b Hb. split; [|apply Z.mod_pos_bound; lia].
  unfold euclid_div, euclid_mod. pose proof (Z.div_mod a (Z.abs b) ltac:(lia)) as Hdm.
  rewrite <- (Z.sgn_abs b) in Hdm at 1. lia.
Qed.

(* two remainders below |b| differ by less than |b|, and by a multiple of b *)
Lemma is_euclid_unique a b q r q' r' : is_euclid a b q r -> is_euclid a b q' r' -> q = q' /\ r = r'.
Proof. intros [Hq Hr] [Hq' Hr']. assert (q = q') by nia. subst. lia. Qed.

Lemma euclid_unique : forall a b q r,
  b <> 0 -> is_euclid a b q r -> q = euclid_div a b /\ r = euclid_mod a b.
Proof. intros a b q r Hb H. exact (is_euclid_unique a b _ _ _ _ H (euclid_spec_is_euclid a b Hb)). Qed.

(* std's div_euclid / rem_euclid (over truncating division) are the Euclidean pair *)
Lemma std_euclid : forall a b,
  b <> 0 -> is_euclid a b (div_euclid a b) (rem_euclid a b).
Proof.
  intros a b Hb. unfold is_euclid, div_euclid, rem_euclid.
  pose proof (Z.quot_rem' a b) as Hqr.
  pose proof (Z.rem_bound_abs a b Hb) as Hbound.
  set (Q := Z.quot a b) in *. set (R := Z.rem a b) in *.
  destruct (R <? 0) eqn:HR; [apply Z.ltb_lt in HR | apply Z.ltb_ge in HR].
  - destruct (0 <? b) eqn:Hb0; [apply Z.ltb_lt in Hb0 | apply Z.ltb_ge in Hb0]; lia.
  - lia.
Qed.

Lemma div_euclid_spec : forall a b, b <> 0 -> div_euclid a b = euclid_div a b.
Proof. intros. apply (euclid_unique a b _ _ H (std_euclid a b H)). Qed.
Lemma rem_euclid_spec : forall a b, b <> 0 -> rem_euclid a b = euclid_mod a b.
Proof. intros. apply (euclid_unique a b _ _ H (std_euclid a b H)). Qed.

(* What holds of a range [-M, M-1] whatever M is.  fits_i128 is `fits` at M := 2^127, by conversion;
   with M a variable lia and nia never see the 39-digit numeral. *)
Section Bound.
  Variable M : Z.
  Let fits (z : Z) : Prop := - M <= z <= M - 1.

  Lemma euclid_mod_fits a b : b <> 0 -> fits b -> fits (euclid_mod a b).
  Proof. intros Hb Hf. destruct (euclid_spec_is_euclid a b Hb) as [_ Hr]. unfold fits in *. lia. Qed.

  Lemma euclid_div_fits a b : b <> 0 -> fits a -> fits b ->
    (fits (euclid_div a b) <-> ~ (a = - M /\ b = -1)).
  Proof.
    intros Hb Ha Hbf. unfold fits in *. split.
    - intros Hf [-> ->]. unfold euclid_div in Hf. cbn [Z.abs Z.sgn] in Hf. rewrite Z.div_1_r in Hf. lia.
    - (* |q| <= |a| leaves M as the only quotient out of range, and q = M turns
         q * b + r = a, 0 <= r < |b| into a = - M, b = -1 *)
      intro Hn. destruct (euclid_spec_is_euclid a b Hb) as [Hq Hr]. nia.
  Qed.

  Lemma not_fits_scale x p : ~ fits x -> 1 <= p -> ~ fits (x * p).
  Proof. unfold fits. nia. Qed.

  Lemma big_not_fits c q : c <> 0 -> M < q -> ~ fits (c * q).
  Proof. unfold fits. nia. Qed.
End Bound.

Lemma checked_div_euclid_spec a b : b <> 0 -> fits_i128 a -> fits_i128 b ->
  checked_div_euclid a b = checked (euclid_div a b).
Proof.
  intros Hb Ha Hbf. pose proof (euclid_div_fits two127 a b Hb Ha Hbf) as Hfit.
  unfold checked_div_euclid. rewrite (proj2 (Z.eqb_neq b 0) Hb). cbn [orb].
  destruct ((a =? i128_min) && (b =? -1)) eqn:Hc.
  - apply andb_true_iff in Hc. rewrite !Z.eqb_eq in Hc.
    symmetry. apply checked_not_fits. intros F%Hfit. auto.
  - rewrite checked_fits, div_euclid_spec; trivial. apply Hfit. intros [-> ->]. discriminate.
Qed.

Lemma floor_div_exact : forall ra a rb b,
  b <> 0 ->
  num_floor_div (VInt ra a) (VInt rb b) = exact_or_error a b (euclid_div a b).
Proof.
  intros ra a rb b Hb. apply int_op_exact. intros Ha Hbf.
  cbn [num_is_zero num_is_float orb]. rewrite (proj2 (Z.eqb_neq b 0) Hb).
  rewrite checked_div_euclid_spec; trivial.
Qed.

Lemma wrapping_rem_euclid_spec : forall a b, b <> 0 -> wrapping_rem_euclid a b = euclid_mod a b.
Proof.
  intros a b Hb. unfold wrapping_rem_euclid.
  destruct (b =? -1) eqn:E.
  - apply Z.eqb_eq in E. subst. unfold euclid_mod. cbn [Z.abs]. symmetry. apply Z.mod_1_r.
  - apply rem_euclid_spec; assumption.
Qed.

Lemma rem_exact : forall ra a rb b,
  b <> 0 ->
  num_rem (VInt ra a) (VInt rb b) = exact_or_error a b (euclid_mod a b).
Proof.
  intros ra a rb b Hb. apply int_op_exact. intros _ Hbf.
  cbn [num_is_zero num_is_float orb]. rewrite (proj2 (Z.eqb_neq b 0) Hb).
  rewrite checked_fits, wrapping_rem_euclid_spec; trivial. apply (euclid_mod_fits two127); trivial.
Qed.

Lemma zero_divisor_errors a b r : as_number b = Some r -> num_is_zero r = true ->
  num_floor_div a b = Some (RErr ErrMsg) /\
  num_rem a b = Some (RErr ErrMsg) /\
  num_div a b = Some (RErr ErrMsg).
Proof.
  intros Hb Hz. unfold num_floor_div, num_rem, num_rem_with, num_div, with_numbers.
  rewrite Hb. destruct (as_number a); rewrite ?Hz; auto.
Qed.

Lemma checked_pow_spec : forall a e, 0 <= e -> checked_pow a e = checked (a ^ e).
Proof.
  intros a e He. unfold checked_pow.
  destruct (Z.abs a <=? 1) eqn:Ha.
  - apply Z.leb_le in Ha.
    destruct (e =? 0) eqn:E0.
    + apply Z.eqb_eq in E0. subst. reflexivity.
    + apply Z.eqb_neq in E0.
      assert (Hcases : a = 0 \/ a = 1 \/ a = -1) by lia.
      destruct Hcases as [->|[->| ->]].
      * rewrite Z.pow_0_l by lia. reflexivity.
      * rewrite Z.pow_1_l by lia. reflexivity.
      * cbn [Z.eqb]. change ((-1) ^ e) with (Z.opp 1 ^ e). destruct (Z.even e) eqn:Ev.
        -- apply Z.even_spec in Ev. rewrite Z.pow_opp_even, Z.pow_1_l by (trivial; lia). reflexivity.
        -- rewrite <- Z.negb_odd in Ev. apply negb_false_iff, Z.odd_spec in Ev.
           rewrite Z.pow_opp_odd, Z.pow_1_l by (trivial; lia). reflexivity.
  - apply Z.leb_gt in Ha.
    destruct (127 <? e) eqn:E.
    + apply Z.ltb_lt in E.
      assert (Hbig : 2 ^ 128 <= Z.abs (a ^ e)).
      { rewrite Z.abs_pow. apply Z.le_trans with (2 ^ e).
        - apply Z.pow_le_mono_r; lia.
        - apply Z.pow_le_mono_l. lia. }
      symmetry. apply checked_not_fits. range_unfold.
      change (2 ^ 128) with 340282366920938463463374607431768211456 in Hbig. lia.
    + reflexivity.
Qed.

(* a square that does not fit is at least 2^127, which is not a square: its integer square root,
   squared, falls short of it (by evaluation) *)
Lemma sq_not_fits : forall b, ~ fits_i128 (b * b) -> 2 ^ 127 < b * b.
Proof.
  intros b H. pose proof (Z.square_nonneg b) as P.
  enough (b * b <> 2 ^ 127) by (unfold fits_i128 in H; lia).
  intro E. pose proof (Z.sqrt_square (Z.abs b) (Z.abs_nonneg b)) as S.
  rewrite Z.abs_square, E in S. rewrite <- Z.abs_square, <- S in E. discriminate E.
Qed.

Lemma pow_ge_base : forall q h, 1 <= q -> 1 <= h -> q <= q ^ h.
Proof.
  intros q h Hq Hh. replace h with (Z.succ (h - 1)) by lia. rewrite Z.pow_succ_r by lia.
  assert (1 <= q ^ (h - 1)).
  { change 1 with (q ^ 0) at 1. apply Z.pow_le_mono_r; lia. }
  nia.
Qed.

(* std's square-and-multiply loop computes the checked power.  The loop stops with `Some None` at the
   first square of the base or partial product that overflows, before the whole product is formed;
   that is `checked` of the whole product because what remains to be multiplied in has size >= 1
   (not_fits_scale, big_not_fits).  The invariant `base = 0 \/ acc <> 0` excludes the one case where
   this fails: acc = 0 makes the whole product 0, which fits, while a square of the base overflows. *)
Lemma pow_loop_spec : forall fuel base acc exp,
  1 <= exp < 2 ^ Z.of_nat fuel -> fits_i128 base -> fits_i128 acc -> (base = 0 \/ acc <> 0) ->
  pow_loop fuel base acc exp = Some (checked (acc * base ^ exp)).
Proof.
  induction fuel as [|f IH]; intros base acc exp He Hb Ha Hinv.
  - cbn in He. lia.
  - rewrite Nat2Z.inj_succ, Z.pow_succ_r in He by lia.
    cbn [pow_loop]. unfold checked_mul.
    pose proof (Z.div_mod exp 2 ltac:(lia)) as Hdm. rewrite Zmod_odd in Hdm.
    set (h := exp / 2) in *.
    (* squaring the base and going on with the halved exponent *)
    assert (Sq : forall acc', 1 <= h -> fits_i128 acc' -> (base = 0 \/ acc' <> 0) ->
              match checked (base * base) with
              | None => Some None
              | Some base' => pow_loop f base' acc' h
              end = Some (checked (acc' * (base * base) ^ h))).
    { intros acc' Hh Ha' Hinv'. unfold checked at 1. destruct (in_i128 (base * base)) eqn:E3.
      - apply in_i128_fits in E3. apply IH; trivial; [destruct (Z.odd exp); lia|].
        destruct Hinv' as [->|]; auto.
      - apply in_i128_false, sq_not_fits in E3.
        assert (Hacc : acc' <> 0) by (destruct Hinv' as [->|]; [cbn in E3; lia | assumption]).
        f_equal. symmetry. apply checked_not_fits, (big_not_fits (2 ^ 127)); trivial.
        apply Z.lt_le_trans with (base * base); [assumption | apply pow_ge_base; lia]. }
    assert (Hsq : forall k, (base * base) ^ k = base ^ (2 * k)).
    { intros k. destruct (Z_lt_le_dec k 0); [rewrite !Z.pow_neg_r by lia; reflexivity|].
      rewrite Z.pow_mul_r by lia. f_equal. lia. }
    destruct (Z.odd exp).
    + (* exp = 2h + 1 *)
      assert (Hpow : acc * base ^ exp = (acc * base) * (base * base) ^ h).
      { rewrite Hdm, Hsq, Z.pow_add_r, Z.pow_1_r by lia. ring. }
      unfold checked at 1. destruct (in_i128 (acc * base)) eqn:E1.
      * apply in_i128_fits in E1. destruct (exp =? 1) eqn:E2.
        -- apply Z.eqb_eq in E2. rewrite E2, Z.pow_1_r, checked_fits; trivial.
        -- apply Z.eqb_neq in E2. rewrite Hpow. apply Sq; trivial; [lia|].
           destruct Hinv as [->|Hacc]; [auto|]. destruct (Z.eq_dec base 0) as [->|Hb0]; [auto | right; nia].
      * apply in_i128_false in E1.
        assert (Hb0 : base <> 0) by (intros ->; apply E1; rewrite Z.mul_0_r; range_unfold; lia).
        rewrite Hpow. f_equal. symmetry. apply checked_not_fits, (not_fits_scale (2 ^ 127)); [assumption|].
        rewrite <- (Z.pow_1_l h) by lia. apply Z.pow_le_mono_l. nia.
    + (* exp = 2h *)
      rewrite Hdm, Z.add_0_r, <- Hsq. apply Sq; trivial. lia.
Qed.

Lemma checked_pow_loop_spec : forall a e,
  fits_i128 a -> 0 <= e <= u32_max ->
  checked_pow_loop a e = Some (checked (a ^ e)).
Proof.
  intros a e Ha He. unfold checked_pow_loop.
  destruct (e =? 0) eqn:E0.
  - apply Z.eqb_eq in E0. subst. reflexivity.
  - apply Z.eqb_neq in E0. rewrite pow_loop_spec; try assumption.
    + rewrite Z.mul_1_l. reflexivity.
    + unfold u32_max in He. change (2 ^ Z.of_nat 32) with 4294967296. lia.
    + range_unfold. lia.
    + right. lia.
Qed.

(* KnownClass of D4: exponent above u32::MAX *)
Definition pow_exponent_above_u32 (b : Z) : Prop := u32_max < b.

Lemma pow_exact : forall ra a rb b,
  0 <= b -> ~ pow_exponent_above_u32 b ->
  num_pow (VInt ra a) (VInt rb b) = exact_or_error a b (a ^ b).
Proof.
  intros ra a rb b Hb Hk. unfold pow_exponent_above_u32 in Hk. apply int_op_exact. intros Ha _.
  cbn [num_is_float orb]. rewrite (proj2 (Z.ltb_ge b 0) Hb), (proj2 (Z.leb_le 0 b) Hb).
  rewrite (proj2 (Z.leb_le b u32_max)) by lia. cbn [andb].
  rewrite (checked_pow_loop_spec a b Ha) by lia. reflexivity.
Qed.

Lemma pow_above_u32_errors : forall ra a rb b,
  pow_exponent_above_u32 b -> num_pow (VInt ra a) (VInt rb b) = Some (RErr ErrMsg).
Proof.
  intros ra a rb b Hk. unfold pow_exponent_above_u32 in Hk.
  unfold num_pow. rewrite with_numbers_int. destruct (in_i128 a && in_i128 b); [|reflexivity].
  cbn [num_is_float orb]. rewrite (proj2 (Z.ltb_ge b 0)), (proj2 (Z.leb_gt b u32_max) Hk), andb_false_r.
  - reflexivity.
  - unfold u32_max in Hk. lia.
Qed.

Lemma div_is_float : forall a b l r,
  as_number a = Some l -> as_number b = Some r ->
  num_div a b =
    if num_is_zero r then Some (RErr ErrMsg)
    else Some (ROk (VFloat (SFdiv 53 1024 (into_float l) (into_float r)))).
Proof.
  intros a b l r Ha Hb. unfold num_div, with_numbers. rewrite Ha, Hb. reflexivity.
Qed.

Lemma float_operand_promotes : forall a b l r,
  as_number a = Some l -> as_number b = Some r ->
  num_is_float l || num_is_float r = true ->
  num_add a b = Some (ROk (VFloat (SFadd 53 1024 (into_float l) (into_float r)))) /\
  num_sub a b = Some (ROk (VFloat (SFsub 53 1024 (into_float l) (into_float r)))) /\
  num_mul a b = Some (ROk (VFloat (SFmul 53 1024 (into_float l) (into_float r)))).
Proof.
  intros a b l r Ha Hb Hf. unfold num_add, num_sub, num_mul, math, with_numbers.
  rewrite Ha, Hb, Hf. auto.
Qed.

Lemma int_operands_int_result : forall iop fop ra a rb b v,
  math iop fop (VInt ra a) (VInt rb b) = Some (ROk v) -> exists z, v = VInt I128 z.
Proof.
  intros until v. rewrite math_int.
  destruct (in_i128 a && in_i128 b); [|discriminate].
  destruct (iop a b); [|discriminate]. intro H. inversion H. eauto.
Qed.

(* operands that are numbers but not usable (u128 above i128::MAX) are an error, never a
   truncated value *)
Lemma oversize_operand_errors : forall op ra a b,
  in_i128 a = false ->
  num_binop op (VInt ra a) b = Some (RErr ErrMsg) /\ num_binop op b (VInt ra a) = Some (RErr ErrMsg).
Proof.
  intros op ra a b Ha.
  assert (E : as_number (VInt ra a) = None) by (rewrite as_number_int, Ha; reflexivity).
  destruct op; cbn [num_binop];
    unfold num_add, num_sub, num_mul, math, num_div, num_floor_div, num_rem, num_rem_with, num_pow,
      with_numbers; rewrite E; split; try reflexivity; destruct (as_number b); reflexivity.
Qed.

Lemma num_pow_no_panic : forall a b, num_pow a b <> Some (RErr ErrPanic).
Proof.
  intros a b. unfold num_pow, with_numbers, m_err, m_ok, m_unmodelled.
  destruct (as_number a) as [[x|f]|] eqn:Ea; destruct (as_number b) as [[y|g]|] eqn:Eb;
    cbn [num_is_float orb]; try discriminate.
  destruct (y <? 0); cbn [orb]; [discriminate|].
  destruct ((0 <=? y) && (y <=? u32_max)) eqn:Ey; [|discriminate].
  apply andb_true_iff in Ey. destruct Ey as [Ey1 Ey2]. apply Z.leb_le in Ey1. apply Z.leb_le in Ey2.
  assert (Hx : fits_i128 x).
  { destruct a; try discriminate. cbn [as_number as_i128] in Ea.
    destruct (in_i128 z) eqn:E; [|discriminate]. inversion Ea. subst. apply in_i128_fits. exact E. }
  rewrite (checked_pow_loop_spec x y Hx) by lia.
  destruct (checked (x ^ y)); discriminate.
Qed.

Lemma num_binop_no_panic : forall op a b, num_binop op a b <> Some (RErr ErrPanic).
Proof.
  intros op a b.
  destruct op; cbn [num_binop]; try apply num_pow_no_panic;
    unfold num_add, num_sub, num_mul, math, num_div, num_floor_div, num_rem, num_rem_with,
      with_numbers, m_err, m_ok, m_unmodelled;
    destruct (as_number a) as [[x|f]|]; destruct (as_number b) as [[y|g]|];
    cbn [num_is_float num_is_zero orb];
    repeat match goal with
           | |- context [if ?c then _ else _] => destruct c
           | |- context [match ?c with Some _ => _ | None => _ end] => destruct c
           end; discriminate.
Qed.

Lemma vm_binop_no_panic : forall op a b, vm_binop op a b <> Some (RErr ErrPanic).
Proof.
  intros op a b. unfold vm_binop.
  destruct (negb (is_number a) || negb (is_number b)); [discriminate|].
  pose proof (num_binop_no_panic op a b) as H.
  unfold to_render. destruct (num_binop op a b) as [[v|[]]|]; congruence.
Qed.

Lemma vm_negative_no_panic : forall a, vm_negative a <> Some (RErr ErrPanic).
Proof.
  intro a. unfold vm_negative, num_negate, to_render, m_ok, m_err.
  destruct (as_number a) as [[z|f]|]; try discriminate.
  destruct (checked_neg z); discriminate.
Qed.

Lemma vm_binop_int : forall op ra a rb b,
  vm_binop op (VInt ra a) (VInt rb b) = to_render (num_binop op (VInt ra a) (VInt rb b)).
Proof. reflexivity. Qed.
