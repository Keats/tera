(* Basic facts about the concrete VM model (Model/VM.v): the scope chain, the loop counters, set
   variables (C03), and equations shared by the proofs over `run`. *)
From Coq Require Import List.
From TeraV Require Import Model.Value Model.Instr Model.VM.
From TeraV Require Export Proofs.ValueFacts.
Local Open Scope nat_scope.

(* independent statement of the lookup order: the first source that binds the name wins *)
Definition first_some {A} (l : list (option A)) : option A :=
  fold_right (fun o acc => match o with Some x => Some x | None => acc end) None l.

Definition defined_opt (v : value) : option value := if is_undefined v then None else Some v.

Definition lookup_spec (loops : list loop_frame) (setvars : ctx) (from_parent : value)
           (context : ctx) (global : option ctx) (n : str) : value :=
  match first_some (map (fun f => lf_get f n) loops
                    ++ [ctx_get setvars n; defined_opt from_parent; ctx_get context n;
                        match global with Some g => ctx_get g n | None => None end]) with
  | Some v => v
  | None => VUndef
  end.

Lemma first_some_app {A} (a b : list (option A)) :
  first_some (a ++ b) = match first_some a with Some x => Some x | None => first_some b end.
Proof.
  induction a as [|o a IH]; [reflexivity|]. cbn. destruct o; [reflexivity|exact IH].
Qed.

Lemma loops_get_first_some ls n : loops_get ls n = first_some (map (fun f => lf_get f n) ls).
Proof. induction ls as [|f t IH]; [reflexivity|]. cbn. destruct (lf_get f n); [reflexivity|exact IH]. Qed.

Theorem scope_chain : forall loops setvars parent context global n,
  scope_get (Scope loops setvars parent context global) n =
  lookup_spec loops setvars (match parent with Some p => scope_get p n | None => VUndef end)
              context global n.
Proof.
  intros. cbn [scope_get]. unfold lookup_spec. rewrite first_some_app, <- loops_get_first_some.
  destruct (loops_get loops n); [reflexivity|]. cbn [first_some fold_right].
  destruct (ctx_get setvars n); [reflexivity|].
  unfold defined_opt.
  destruct (is_undefined (match parent with Some p => scope_get p n | None => VUndef end)) eqn:E;
    cbn [negb].
  - destruct (ctx_get context n); [reflexivity|]. destruct global as [g|]; [|reflexivity].
    destruct (ctx_get g n); reflexivity.
  - reflexivity.
Qed.

(* loop counters: ForLoop::advance and the `end_ip != 0` convention.
   `advance_n k f e` is the frame f after k executions of Iterate e. *)
Fixpoint advance_n (k : nat) (f : loop_frame) (e : nat) : loop_frame :=
  match k with O => f | S k' => advance_n k' (lf_advance f e) e end.

Lemma advance_n_S k f e : advance_n (S k) f e = lf_advance (advance_n k f e) e.
Proof. revert f. induction k as [|k IH]; intros f; [reflexivity|]. cbn [advance_n] in *. rewrite IH. reflexivity. Qed.

(* Iterate number k+1 on a fresh loop: the first one only fills lf_current (end_ip was still 0, so
   nothing is bumped), every later one bumps the counters and clears the context. *)
Lemma advance_n_closed k : forall items comp e x, e <> 0 -> nth_error items k = Some x ->
  advance_n (S k) (new_loop items comp) e =
  {| lf_rest := skipn (S k) items; lf_index0 := k; lf_first := Nat.eqb k 0;
     lf_last := Nat.eqb (S k) (length items); lf_length := length items; lf_end_ip := e;
     lf_context := []; lf_value_name := []; lf_key_name := None; lf_current := x;
     lf_iterated := true; lf_is_comp := comp |}.
Proof.
  intros items comp e x He. revert x. induction k as [|k IH]; intros x Hx.
  - destruct items as [|y r]; [discriminate|]. injection Hx as ->. cbn. rewrite Nat.eqb_sym. reflexivity.
  - destruct (nth_error items k) as [y|] eqn:Hy.
    2: { apply nth_error_None in Hy. assert (nth_error items (S k) = None) by (apply nth_error_None; lia). congruence. }
    rewrite advance_n_S, (IH y eq_refl). unfold lf_advance. cbn [lf_rest lf_end_ip].
    assert (Hs : skipn (S k) items = x :: skipn (S (S k)) items).
    { clear - Hx. revert k Hx. induction items as [|a items IHi]; intros k Hx; [discriminate|].
      destruct k; [destruct items; [discriminate|injection Hx as ->; reflexivity]|]. apply (IHi k Hx). }
    rewrite Hs. apply Nat.eqb_neq in He. rewrite He. reflexivity.
Qed.

Theorem loop_counters : forall items comp e k,
  e <> 0 -> 1 <= k <= length items ->
  let f := advance_n k (new_loop items comp) e in
  lf_index0 f = k - 1 /\
  lf_first f = Nat.eqb k 1 /\
  lf_last f = Nat.eqb k (length items) /\
  lf_length f = length items /\
  nth_error items (k - 1) = Some (lf_current f) /\
  lf_rest f = skipn k items /\
  lf_iterated f = true /\
  lf_end_ip f = e /\
  (2 <= k -> lf_context f = []).
Proof.
  intros items comp e [|k] He [Hk1 Hk2]; [lia|].
  destruct (nth_error items k) as [x|] eqn:Hx; [|apply nth_error_None in Hx; lia].
  cbv zeta. rewrite (advance_n_closed k items comp e x He Hx). cbn [Nat.sub]. rewrite Nat.sub_0_r.
  repeat split; try reflexivity. exact Hx.
Qed.

Theorem loop_counters_need_nonzero_end_ip : forall items comp k,
  lf_index0 (advance_n k (new_loop items comp) 0) = 0.
Proof.
  intros items comp k.
  assert (H : forall f, lf_index0 f = 0 -> lf_end_ip f = 0 -> lf_index0 (advance_n k f 0) = 0).
  { induction k as [|k IH]; intros f H0 He; [exact H0|]. cbn [advance_n]. apply IH.
    - unfold lf_advance. destruct (lf_rest f); cbn; [exact H0|]. rewrite He. cbn. exact H0.
    - unfold lf_advance. destruct (lf_rest f); reflexivity. }
  apply H; reflexivity.
Qed.

Theorem store_local_in_loop : forall s f t n v,
  loops s = f :: t ->
  loops (store_local s n v) = lf_store f n v :: t /\ setvars (store_local s n v) = setvars s.
Proof. intros s f t n v H. unfold store_local. rewrite H. split; reflexivity. Qed.

Theorem store_local_outside_loop : forall s n v,
  loops s = [] -> store_local s n v = store_global s n v.
Proof. intros s n v H. unfold store_local. rewrite H. reflexivity. Qed.

Lemma pop1_some s v s1 : pop1 s = Some (v, s1) -> exists t, stack s = v :: t /\ s1 = upd_stack s t.
Proof. unfold pop1. destruct (stack s) as [|x t]; [discriminate|]. intros E. injection E as <- <-. eauto. Qed.

Lemma pop2_some s a b s1 : pop2 s = Some (a, b, s1) -> exists t, stack s = b :: a :: t /\ s1 = upd_stack s t.
Proof. unfold pop2. destruct (stack s) as [|y [|x t]]; try discriminate. intros E. injection E as <- <- <-. eauto. Qed.

Lemma emit_some W wr s o t s1 o1 : emit W wr s o t = Some (s1, o1) ->
  (caps s = [] /\ s1 = s /\ sink_write W wr o t = Some o1) \/
  (exists c ct, caps s = c :: ct /\ s1 = upd_caps s ((c ++ t) :: ct) /\ o1 = o).
Proof.
  unfold emit. destruct (caps s) as [|c ct].
  - destruct (sink_write W wr o t); [|discriminate]. intros E. injection E as <- <-. auto.
  - intros E. injection E as <- <-. right. eauto.
Qed.

Lemma write_value_emit W wr wd ae s o v :
  write_value W wr wd ae s o v =
  emit W wr s o (if negb ae || value_is_safe v then w_format wd v else w_escape wd (w_format wd v)).
Proof. unfold write_value. destruct (negb ae || value_is_safe v); reflexivity. Qed.

Lemma assoc_get_in {A} (l : list (str * A)) n x : assoc_get l n = Some x -> In (n, x) l.
Proof.
  induction l as [|[k v] t IH]; cbn; [discriminate|].
  destruct (str_eqb k n) eqn:E; intros H.
  - apply str_eqb_eq in E as ->. injection H as ->. now left.
  - right. now apply IH.
Qed.

Lemma ctx_get_set_same c n v : ctx_get (ctx_set c n v) n = Some v.
Proof. unfold ctx_set. cbn [ctx_get]. rewrite str_eqb_refl. reflexivity. Qed.

Theorem set_global_persists : forall s n v, get_value (store_global s n v) n = v \/ exists f, In f (loops s) /\ lf_get f n <> None.
Proof.
  intros s n v. unfold get_value, scope_of, store_global. cbn [loops setvars upd_setvars scope_get].
  destruct (loops_get (loops s) n) eqn:E.
  - right. clear - E. induction (loops s) as [|f t IH]; [discriminate|]. cbn in E.
    destruct (lf_get f n) eqn:Ef; [exists f; split; [left; reflexivity|congruence]|].
    destruct (IH E) as (g & Hg & Hn). exists g. split; [right; exact Hg|exact Hn].
  - left. rewrite ctx_get_set_same. reflexivity.
Qed.
