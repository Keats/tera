(* C19: a converted Value sent through serde again (`impl Serialize for Value` / `for Key`,
   Model/Serde.v `reser`) comes back as itself. *)
From TeraV Require Import Model.Value Model.Format Model.Serde Proofs.ValueFacts Proofs.SerdeProofs.

Lemma map_fixed : forall {A} (f : A -> A) l, Forall (fun a => f a = a) l -> map f l = l.
Proof. intros A f l H. induction H; cbn; congruence. Qed.

Lemma Forall2_Forall_r : forall {A B} (R : A -> B -> Prop) (Q : B -> Prop) l out,
  Forall2 R l out -> Forall (fun a => forall b, R a b -> Q b) l -> Forall Q out.
Proof. intros A B R Q l out H HQ. induction H; inversion HQ; subst; constructor; eauto. Qed.

Lemma fold_left_inv : forall {A B} (f : A -> B -> A) (I : A -> Prop) (Q : B -> Prop) l a,
  (forall a b, I a -> Q b -> I (f a b)) -> Forall Q l -> I a -> I (fold_left f l a).
Proof. intros A B f I Q l a Hf H. revert a. induction H; cbn; auto. Qed.

Lemma fkey_eqb_rekey : forall a b, fkey_eqb (rekey a) (rekey b) = fkey_eqb a b.
Proof. destruct a as [x|r x|s o], b as [y|r' y|t o']; reflexivity. Qed.

Lemma key_same_rekey : forall k, key_same (rekey k) k = true.
Proof.
  destruct k as [x|r x|s o]; cbn.
  - destruct x; reflexivity.
  - rewrite Z.eqb_refl. destruct r; reflexivity.
  - apply str_eqb_refl.
Qed.

Lemma distinct_keys_map : forall (g : key * value -> key * value) l,
  (forall a b, fkey_eqb (fst (g a)) (fst (g b)) = fkey_eqb (fst a) (fst b)) ->
  distinct_keys l -> distinct_keys (map g l).
Proof.
  intros g l Hg H. induction H as [|e l Hf _ IH]; cbn; constructor; [|exact IH].
  apply Forall_map. eapply Forall_impl; [|exact Hf]. intros b Hb. cbn. rewrite Hg. exact Hb.
Qed.

(* map_insert k x m puts x under the first key of m equal to k, or appends (k, x) *)
Lemma map_insert_Forall : forall (P : key * value -> Prop) k x m,
  P (k, x) -> (forall k' x', P (k', x') -> P (k', x)) -> Forall P m -> Forall P (map_insert k x m).
Proof.
  intros P k x m Hk Hrep Hm. induction Hm as [|[k' x'] t Hh Ht IH]; cbn.
  - constructor; [exact Hk|constructor].
  - destruct (fkey_eqb k' k); constructor; eauto.
Qed.

Lemma map_insert_distinct : forall k x m, distinct_keys m -> distinct_keys (map_insert k x m).
Proof.
  intros k x m H. induction H as [|[k' x'] t Hf Ht IH]; cbn.
  - constructor; constructor.
  - destruct (fkey_eqb k' k) eqn:E; constructor; try assumption.
    apply map_insert_Forall; auto.
Qed.

Lemma build_map_inv : forall (P : value -> Prop) es,
  Forall (fun b : key * value => P (snd b)) es ->
  distinct_keys (build_map es) /\ Forall (fun b : key * value => P (snd b)) (build_map es).
Proof.
  intros P es H.
  apply (fold_left_inv _ (fun acc => distinct_keys acc /\ Forall (fun b => P (snd b)) acc) _ es [])
    with (2 := H).
  - intros acc e [Hd Hp] He. split; [apply map_insert_distinct; exact Hd|apply map_insert_Forall; auto].
  - split; constructor.
Qed.

(* what a Map can hold: no two equal keys, at any depth *)
Inductive wfv : value -> Prop :=
| WF_undef : wfv VUndef | WF_none : wfv VNone | WF_bool b : wfv (VBool b) | WF_int r z : wfv (VInt r z)
| WF_float f : wfv (VFloat f) | WF_str s f : wfv (VStr s f) | WF_bytes b : wfv (VBytes b)
| WF_arr l : Forall wfv l -> wfv (VArr l)
| WF_map m : distinct_keys m -> Forall (fun e => wfv (snd e)) m -> wfv (VMap m).

(* every well-formed value (bytes, 128-bit integers, undefined, safe strings, every key kind
   included) is re-serialised without error, to `renorm` of itself *)
Theorem reser_renorm : forall v, wfv v -> reser v = ROk (renorm v).
Proof.
  induction v using value_ind'; intro Hwf; inversion Hwf as [| | | | | | |l' Hl|m' Hd Hm]; subst;
    try reflexivity; cbn [reser renorm].
  - rewrite (map_res_pure reser renorm); [reflexivity|]. exact (Forall_mp _ _ _ H Hl).
  - rewrite (map_res_pure _ (fun e : key * value => (rekey (fst e), renorm (snd e)))).
    + cbn. rewrite build_map_distinct; [reflexivity|].
      apply distinct_keys_map; [|exact Hd]. intros a b. apply fkey_eqb_rekey.
    + eapply Forall_impl; [|exact (Forall_mp _ _ _ H Hm)]. intros e He. cbn beta. rewrite He. reflexivity.
Qed.

(* the kinds that are NOT fixed points, exactly: undefined (becomes none), safe strings (the flag is
   dropped), borrowed string keys (become owned keys — the same key for Eq/Hash/Ord/Display) *)
Inductive fixedv : value -> Prop :=
| FX_none : fixedv VNone | FX_bool b : fixedv (VBool b) | FX_int r z : fixedv (VInt r z)
| FX_float f : fixedv (VFloat f) | FX_str s : fixedv (VStr s false) | FX_bytes b : fixedv (VBytes b)
| FX_arr l : Forall fixedv l -> fixedv (VArr l)
| FX_map m : Forall (fun e => rekey (fst e) = fst e /\ fixedv (snd e)) m -> fixedv (VMap m).

Lemma renorm_fixed : forall v, fixedv v -> renorm v = v.
Proof.
  induction v using value_ind'; intro Hf; inversion Hf as [| | | | | |l' Hl|m' Hm]; subst;
    try reflexivity; cbn [renorm]; f_equal; apply map_fixed.
  - exact (Forall_mp _ _ _ H Hl).
  - refine (Forall_mp _ _ _ (Forall_impl _ _ H) Hm).
    intros [k x] IHx [Hk Hx]. cbn in *. rewrite Hk, (IHx Hx). reflexivity.
Qed.

Example reser_undefined : reser VUndef = ROk VNone. Proof. reflexivity. Qed.
Example reser_safe_string : forall s, reser (VStr s true) = ROk (VStr s false). Proof. reflexivity. Qed.
Example reser_bytes : forall b, reser (VBytes b) = ROk (VBytes b). Proof. reflexivity. Qed.
Example reser_bool_key : forall b x, reser (VMap [(KBool b, VInt U128 x)]) = ROk (VMap [(KBool b, VInt U128 x)]).
Proof. reflexivity. Qed.

(* converted values: no undefined, no safe string, no bytes, no two equal keys *)
Inductive imgv : value -> Prop :=
| IM_none : imgv VNone | IM_bool b : imgv (VBool b) | IM_int r z : imgv (VInt r z)
| IM_float f : imgv (VFloat f) | IM_str s : imgv (VStr s false)
| IM_arr l : Forall imgv l -> imgv (VArr l)
| IM_map m : distinct_keys m -> Forall (fun e => imgv (snd e)) m -> imgv (VMap m).

Lemma imgv_build_map : forall es, Forall (fun b : key * value => imgv (snd b)) es -> imgv (VMap (build_map es)).
Proof. intros es H. destruct (build_map_inv imgv es H). constructor; assumption. Qed.

(* whatever type it came from (typed or not), a converted value is well-formed and clean *)
Theorem ser_image : forall sv x, ser sv = ROk x -> imgv x.
Proof.
  induction sv using sval_ind'; intros x Hs; try (inversion Hs; subst; constructor; fail).
  1, 2: exact (IHsv _ Hs).
  - apply ser_seq_ok in Hs as (xs & Hxs & ->). constructor. exact (Forall2_Forall_r _ _ _ _ Hxs H).
  - apply ser_tuple_ok in Hs as (xs & Hxs & ->). constructor. exact (Forall2_Forall_r _ _ _ _ Hxs H).
  - apply ser_map_ok in Hs as (es & Hes & ->). apply imgv_build_map.
    refine (Forall2_Forall_r _ _ _ _ Hes (Forall_impl _ _ H)). intros e [_ He] o [_ Ho]. exact (He _ Ho).
  - rewrite ser_struct_fields in Hs. apply res_bind_ret_ok in Hs as (es & Hes & ->).
    apply ser_fields_ok in Hes. apply imgv_build_map, Forall_map.
    refine (Forall2_Forall_r _ _ _ _ Hes (Forall_impl _ _ H)). intros e He o [_ Ho]. exact (He _ Ho).
  - destruct k; [inversion Hs; subst; constructor|..];
      (cbn [ser] in Hs; apply res_bind_ret_ok in Hs as (y & Hy & ->));
      apply (imgv_build_map [(KStr n false, y)]); repeat constructor; cbn; eauto.
Qed.

Lemma imgv_wfv : forall v, imgv v -> wfv v.
Proof.
  induction v using value_ind'; intro Hi; inversion Hi as [| | | | |l' Hl|m' Hd Hm]; subst; constructor; auto.
  - exact (Forall_mp _ _ _ H Hl).
  - exact (Forall_mp _ _ _ H Hm).
Qed.

Lemma all2v_refl_map : forall {A} (g : A -> A) (f : A -> A -> bool) l,
  Forall (fun a => f (g a) a = true) l -> all2v f (map g l) l = true.
Proof. intros A g f l H. induction H as [|a l Ha _ IH]; cbn; [reflexivity|]. rewrite Ha, IH. reflexivity. Qed.

Lemma value_same_refl_leaf : forall s, str_eqb s s = true.
Proof. exact str_eqb_refl. Qed.

Lemma sf_eqb_syn_refl : forall f, sf_eqb_syn f f = true.
Proof.
  destruct f; cbn; try reflexivity; try (destruct s; reflexivity).
  rewrite Pos.eqb_refl, Z.eqb_refl. destruct s; reflexivity.
Qed.

(* on a converted value re-serialisation changes nothing but String-vs-Str of keys *)
Lemma renorm_same : forall v, imgv v -> value_same (renorm v) v = true.
Proof.
  induction v using value_ind'; intro Hi; inversion Hi as [| | | | |l' Hl|m' Hd Hm]; subst;
    cbn [renorm value_same]; try reflexivity.
  - destruct b; reflexivity.
  - rewrite Z.eqb_refl. destruct r; reflexivity.
  - apply sf_eqb_syn_refl.
  - rewrite str_eqb_refl. reflexivity.
  - apply all2v_refl_map. exact (Forall_mp _ _ _ H Hl).
  - apply (all2v_refl_map (fun e : key * value => (rekey (fst e), renorm (snd e)))).
    eapply Forall_impl; [|exact (Forall_mp _ _ _ H Hm)]. intros e He. cbn. rewrite key_same_rekey. exact He.
Qed.

Theorem reserialize_identity : forall sv x,
  ser sv = ROk x -> exists y, reser x = ROk y /\ value_same y x = true.
Proof.
  intros sv x Hs. pose proof (ser_image sv x Hs) as Hi.
  exists (renorm x). split; [apply reser_renorm, imgv_wfv; exact Hi|apply renorm_same; exact Hi].
Qed.

Lemma key_same_fmt : forall sd a b, key_same a b = true -> fmt_key sd a = fmt_key sd b /\ fkey_cmp a = fkey_cmp b.
Proof.
  intros sd a b H. destruct a as [x|r x|s o], b as [y|r' y|t o']; cbn in H; try discriminate.
  - apply Bool.eqb_prop in H. subst. auto.
  - apply andb_true_iff in H. destruct H as [_ H]. apply Z.eqb_eq in H. subst. auto.
  - apply str_eqb_eq in H. subst. auto.
Qed.

(* no Bytes at any depth (to_sval has no term for them); BF_int asks moreover that an integer lies
   in its representation's range, which reser_is_ser does not use *)
Inductive bytes_free : value -> Prop :=
| BF_undef : bytes_free VUndef | BF_none : bytes_free VNone | BF_bool b : bytes_free (VBool b)
| BF_int r z : rep_ok r z = true -> bytes_free (VInt r z)
| BF_float f : bytes_free (VFloat f) | BF_str s f : bytes_free (VStr s f)
| BF_arr l : Forall bytes_free l -> bytes_free (VArr l)
| BF_map m : Forall (fun e => bytes_free (snd e)) m -> bytes_free (VMap m).

Lemma ser_irep : forall r z, ser (irep_sval r z) = ROk (VInt r z).
Proof. destruct r; reflexivity. Qed.
Lemma ser_key_of_key : forall k, ser_key (key_to_sval k) = ROk (rekey k).
Proof. destruct k as [x|r x|s o]; try reflexivity. destruct r; reflexivity. Qed.

Theorem reser_is_ser : forall v, bytes_free v -> reser v = ser (to_sval v).
Proof.
  induction v using value_ind'; intro Hb; inversion Hb as [| | | | | |l' Hl|m' Hm]; subst; try reflexivity.
  - cbn [to_sval reser]. rewrite ser_irep. reflexivity.
  - cbn [to_sval reser ser]. rewrite map_res_map. f_equal.
    apply map_res_ext_in, Forall_forall. exact (Forall_mp _ _ _ H Hl).
  - cbn [to_sval reser ser]. rewrite map_res_map. f_equal.
    apply map_res_ext_in, Forall_forall. eapply Forall_impl; [|exact (Forall_mp _ _ _ H Hm)].
    intros e He. cbn. rewrite ser_key_of_key, He. reflexivity.
Qed.
