(* C07 format_is_utf8, at the level of Unicode scalar values: every scalar that
   Model/VFormat.format_value (Value::format, value/mod.rs 490-555) or escape_html
   (utils.rs 108-131) emits is either a scalar of a string stored inside the value (payloads,
   string keys; Bytes are printed by the model as they are) or an ASCII character. The Rust
   code assembles the same pieces as bytes of valid UTF-8 strings, whole strings at a time, so
   the `from_utf8_unchecked` sites (interpreter.rs 350-354, 878-882; value/mod.rs 127-133) see valid
   UTF-8 whenever the strings inside the value are. *)
From TeraV Require Import Model.Value Model.VFormat Proofs.ValueFacts Proofs.Numeral.

Definition key_scalars (k : key) : list N := match k with KStr s _ => s | _ => [] end.

Fixpoint value_scalars (v : value) : list N :=
  match v with
  | VStr s _ => s
  | VBytes b => b
  | VArr l => flat_map value_scalars l
  | VMap m => flat_map (fun kv => key_scalars (fst kv) ++ value_scalars (snd kv)) m
  | _ => []
  end.

Definition ascii (c : N) : Prop := (c < 128)%N.

Definition src_or_ascii (src : list N) (c : N) : Prop := In c src \/ ascii c.

Lemma only_ascii src l : Forall ascii l -> Forall (src_or_ascii src) l.
Proof. apply Forall_impl. intros c H. right. exact H. Qed.

Lemma ascii_lit src (l : str) : forallb (fun d => d <? 128)%N l = true -> Forall (src_or_ascii src) l.
Proof.
  intros H. apply only_ascii, Forall_forall. intros c Hc.
  rewrite forallb_forall in H. apply N.ltb_lt, H, Hc.
Qed.

Lemma src_itself src : Forall (src_or_ascii src) src.
Proof. apply Forall_forall. intros c Hc. left. exact Hc. Qed.

Lemma src_incl src src' l : incl src src' -> Forall (src_or_ascii src) l -> Forall (src_or_ascii src') l.
Proof. intros Hi. apply Forall_impl. intros c [H|H]; [left; exact (Hi _ H)|right; exact H]. Qed.

Lemma flat_map_scalars (f : N -> str) s :
  (forall x, Forall (src_or_ascii [x]) (f x)) -> Forall (src_or_ascii s) (flat_map f s).
Proof.
  intros Hf. apply Forall_flat_map, Forall_forall. intros x Hx.
  apply src_incl with [x]; [|apply Hf]. intros y [<-|[]]. exact Hx.
Qed.

Lemma bracketed src (a b : N) body :
  ascii a -> ascii b -> Forall (src_or_ascii src) body -> Forall (src_or_ascii src) ([a] ++ body ++ [b]).
Proof.
  intros Ha Hb H. apply Forall_app; split; [|apply Forall_app; split; [exact H|]];
    (constructor; [right; assumption|constructor]).
Qed.

Lemma join_with_Forall (R : N -> Prop) sep l :
  Forall R sep -> Forall (Forall R) l -> Forall R (join_with sep l).
Proof.
  intros Hs Hl. induction Hl as [|x t Hx Ht IH]; [constructor|].
  cbn [join_with]. destruct t; [exact Hx|].
  apply Forall_app; split; [exact Hx|]. apply Forall_app; split; [exact Hs|exact IH].
Qed.

Lemma insert_entry_Forall {A} (R : key * A -> Prop) e l :
  R e -> Forall R l -> Forall R (insert_entry e l).
Proof.
  intros He Hl. induction Hl as [|x t Hx Ht IH]; cbn [insert_entry]; [constructor; [exact He|constructor]|].
  destruct (key_cmp (fst e) (fst x)).
  1, 2: constructor; [exact He|constructor; [exact Hx|exact Ht]].
  constructor; [exact Hx|exact IH].
Qed.

Lemma sort_entries_Forall {A} (R : key * A -> Prop) m : Forall R m -> Forall R (sort_entries m).
Proof.
  intros Hm. induction Hm as [|e t He Ht IH]; [constructor|]. apply insert_entry_Forall; assumption.
Qed.

Lemma pos_digits_digits fuel : forall n acc,
  (N.log2 n < N.of_nat fuel)%N -> pos_digits fuel n acc = digits n ++ acc.
Proof.
  induction fuel as [|f IH]; intros n acc Hf; [lia|].
  cbn [pos_digits]. rewrite digits_eq, <- app_assoc. cbn [app].
  destruct (N.ltb_spec n 10) as [H|H].
  - now rewrite N.div_small.
  - destruct (N.eqb_spec (n / 10) 0) as [E|_]; [apply N.div_small_iff in E; lia|].
    apply IH. pose proof (log2_div10 n H). lia.
Qed.

Lemma n_to_str_digits n : n_to_str n = digits n.
Proof. unfold n_to_str. rewrite pos_digits_digits by lia. apply app_nil_r. Qed.

Lemma z_to_str_chars z : Forall (fun c => c = 45 \/ 48 <= c <= 57)%N (z_to_str z).
Proof.
  assert (H : forall n, Forall (fun c => c = 45 \/ 48 <= c <= 57)%N (n_to_str n)).
  { intros n. rewrite n_to_str_digits. eapply Forall_impl; [|apply digits_spec]. cbv beta. auto. }
  destruct z; cbn [z_to_str]; [constructor; [right; lia|constructor]|apply H|constructor; [left; reflexivity|apply H]].
Qed.

Lemma z_to_str_ascii z : Forall ascii (z_to_str z).
Proof. eapply Forall_impl; [|apply z_to_str_chars]. unfold ascii. cbv beta. lia. Qed.

Lemma esc_lookup_find tbl c :
  esc_lookup tbl c = match find (fun e : N * list N => N.eqb (fst e) c) tbl with Some e => snd e | None => [c] end.
Proof. induction tbl as [|[k r] t IH]; cbn; trivial. destruct (N.eqb k c); trivial. Qed.

Lemma debug_char_scalars x : Forall (src_or_ascii [x]) (debug_char x).
Proof.
  unfold debug_char. do 6 (destruct (_ =? _)%N; [apply ascii_lit; reflexivity|]). apply src_itself.
Qed.

Lemma debug_str_scalars s : Forall (src_or_ascii s) (debug_str s).
Proof.
  apply (bracketed s 34 34); [reflexivity..|]. apply flat_map_scalars, debug_char_scalars.
Qed.

Lemma format_key_scalars k : Forall (src_or_ascii (key_scalars k)) (format_key k).
Proof.
  destruct k as [b|r z|s o]; cbn [format_key key_scalars].
  - destruct b; apply ascii_lit; reflexivity.
  - apply only_ascii, z_to_str_ascii.
  - apply debug_str_scalars.
Qed.

(* `elem` and `entries_of` name the local `let elem` / `let fix entries` of format_value, so that its
   array and map arms can be stated as equations (format_value_arr, format_value_map) *)
Definition elem (x : value) : str := match x with VStr s _ => debug_str s | _ => format_value x end.

Lemma elem_scalars x :
  Forall (src_or_ascii (value_scalars x)) (format_value x) -> Forall (src_or_ascii (value_scalars x)) (elem x).
Proof. intros H. destruct x; try exact H. apply debug_str_scalars. Qed.

Definition entries_of (m : list (key * value)) : list (key * str) := map (fun kx => (fst kx, elem (snd kx))) m.

Lemma format_value_arr l : format_value (VArr l) = [91%N] ++ join_with s_comma_sp (map elem l) ++ [93%N].
Proof. reflexivity. Qed.

Lemma format_value_map m :
  format_value (VMap m) =
  [123%N] ++ join_with s_comma_sp
               (map (fun kx => format_key (fst kx) ++ s_colon_sp ++ snd kx) (sort_entries (entries_of m)))
          ++ [125%N].
Proof.
  cbn [format_value]. do 5 f_equal. unfold entries_of.
  induction m as [|[k x] t IH]; [reflexivity|]. cbn [map fst snd]. rewrite <- IH. destruct x; reflexivity.
Qed.

Lemma format_value_Forall v : Forall (src_or_ascii (value_scalars v)) (format_value v).
Proof.
  induction v as [| |b|r z|f|s safe|l IH|m IH|b] using value_ind'.
  - constructor.
  - constructor.
  - destruct b; apply ascii_lit; reflexivity.
  - apply only_ascii, z_to_str_ascii.
  - (* VFloat: VFormat prints every float as one placeholder text *) apply ascii_lit. reflexivity.
  - apply src_itself.
  - rewrite format_value_arr. apply bracketed; [reflexivity..|].
    apply join_with_Forall; [apply ascii_lit; reflexivity|]. apply Forall_map.
    rewrite Forall_forall in IH |- *. intros x Hx.
    apply src_incl with (value_scalars x); [|exact (elem_scalars x (IH x Hx))].
    intros c Hc. cbn [value_scalars]. apply in_flat_map. exists x. split; assumption.
  - rewrite format_value_map. apply bracketed; [reflexivity..|].
    apply join_with_Forall; [apply ascii_lit; reflexivity|].
    apply Forall_map, sort_entries_Forall, Forall_map.
    rewrite Forall_forall in IH |- *. intros [k x] Hkx. cbn [fst snd].
    apply src_incl with (key_scalars k ++ value_scalars x).
    { intros c Hc. cbn [value_scalars]. apply in_flat_map. exists (k, x). split; assumption. }
    apply Forall_app; split; [|apply Forall_app; split].
    + apply src_incl with (key_scalars k); [apply incl_appl, incl_refl|apply format_key_scalars].
    + apply ascii_lit. reflexivity.
    + apply src_incl with (value_scalars x); [apply incl_appr, incl_refl|exact (elem_scalars x (IH _ Hkx))].
  - apply src_itself.
Qed.

Lemma format_value_scalars : forall v c, In c (format_value v) -> In c (value_scalars v) \/ (c < 128)%N.
Proof. intro v. apply Forall_forall, format_value_Forall. Qed.

Lemma esc_lookup_scalars : forall tbl x,
  forallb (fun kr => forallb (fun d => d <? 128)%N (snd kr)) tbl = true ->
  Forall (src_or_ascii [x]) (esc_lookup tbl x).
Proof.
  intros tbl x Ht. rewrite esc_lookup_find. destruct (find _ tbl) as [e|] eqn:F; [|apply src_itself].
  rewrite forallb_forall in Ht. apply ascii_lit, Ht, (find_some _ _ F).
Qed.

(* the generated byte map (utils.rs escape_html, re-extracted on every run) only emits ASCII *)
Lemma escape_html_scalars s c : In c (escape_html s) -> In c s \/ (c < 128)%N.
Proof.
  revert c. apply Forall_forall, flat_map_scalars. intro x. apply esc_lookup_scalars. reflexivity.
Qed.
