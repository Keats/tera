(* The decimal numeral of a natural number, as characters, most significant digit first: Coq's own
   (N.to_uint), through Format.str_of_uint.  digits_eq says how it is made by division by ten, which is
   how the model's printers (VFormat.n_to_str, Builtins.dec_nonneg, Codec.dec_digits) make theirs, in
   at most S (log2 n) rounds (log2_div10); digits_ind is the induction that goes with it.
   Format.dec prints it by definition. *)
From Coq Require Import List NArith Lia Decimal DecimalPos.
From TeraV Require Import Model.Value Model.Format.
Import ListNotations.
Local Open Scope N_scope.

Definition digits (n : N) : list N := str_of_uint (N.to_uint n).

Lemma str_of_revapp d : forall v, str_of_uint (revapp d v) = List.rev (str_of_uint d) ++ str_of_uint v.
Proof. induction d; intros v; cbn [revapp str_of_uint List.rev]; rewrite ?IHd, <- ?app_assoc; reflexivity. Qed.

Lemma digits_lu n : digits n = List.rev (str_of_uint (Unsigned.to_lu n)).
Proof. unfold digits. rewrite <- (app_nil_r (List.rev _)). destruct n; [reflexivity | apply str_of_revapp]. Qed.

Lemma to_lu_iter k m : Unsigned.to_lu (Nat.iter k N.succ m) = Nat.iter k Little.succ (Unsigned.to_lu m).
Proof. induction k as [|k IH]; [reflexivity|]. now rewrite !Unsigned.nat_iter_S, Unsigned.to_lu_succ, IH. Qed.

(* Coq makes its numerals by doubling; that the last digit is the remainder by ten is read off
   Unsigned.to_ldec_tenfold (the numeral of 10 * q is a 0 before that of q) by counting up from there *)
Lemma digits_step r : r < 10 ->
  digits r = [48 + r] /\ forall q, q <> 0 -> digits (10 * q + r) = digits q ++ [48 + r].
Proof.
  intros H.
  assert (C : r = 0 \/ r = 1 \/ r = 2 \/ r = 3 \/ r = 4 \/ r = 5 \/ r = 6 \/ r = 7 \/ r = 8 \/ r = 9) by lia.
  split; [destruct C as [->|[->|[->|[->|[->|[->|[->|[->|[->| ->]]]]]]]]]; reflexivity|].
  intros [|p] Q; [contradiction|].
  rewrite N.add_comm, !digits_lu, Unsigned.Nadd_alt, to_lu_iter, Unsigned.to_ldec_tenfold.
  destruct C as [->|[->|[->|[->|[->|[->|[->|[->|[->| ->]]]]]]]]]; reflexivity.
Qed.

Lemma digits_eq n : digits n = (if n <? 10 then [] else digits (n / 10)) ++ [48 + n mod 10].
Proof.
  pose proof (N.div_mod' n 10) as E. pose proof (N.mod_lt n 10) as R.
  destruct (N.ltb_spec n 10) as [H|H].
  - rewrite N.mod_small by exact H. now apply digits_step.
  - pose proof (N.div_str_pos n 10). rewrite E at 1. apply digits_step; lia.
Qed.

(* induction on the numeral, with quotient and remainder named so that lia never sees / or mod *)
Lemma digits_ind (P : N -> list N -> Prop) :
  (forall r, r < 10 -> P r [48 + r]) ->
  (forall q r l, q <> 0 -> r < 10 -> P q l -> P (10 * q + r) (l ++ [48 + r])) ->
  forall n, P n (digits n).
Proof.
  intros H0 H1. induction n as [n IH] using (well_founded_induction N.lt_wf_0).
  rewrite digits_eq. pose proof (N.div_mod' n 10) as E. pose proof (N.mod_lt n 10) as R.
  destruct (N.ltb_spec n 10) as [H|H].
  - rewrite N.mod_small by exact H. now apply H0.
  - rewrite E at 1. apply H1; [| lia | apply IH]; pose proof (N.div_str_pos n 10); pose proof (N.div_lt n 10); lia.
Qed.

Lemma digits_spec n :
  Forall (fun c => 48 <= c <= 57) (digits n) /\ fold_left (fun a c => a * 10 + (c - 48)) (digits n) 0 = n /\
  digits n <> [] /\ (n <> 0 -> hd 0 (digits n) <> 48).
Proof.
  apply digits_ind; [intros r R | intros q r l Q R (F & V & E & Z)]; repeat split.
  - constructor; [lia | constructor].
  - cbn [fold_left]. lia.
  - discriminate.
  - cbn [hd]. lia.
  - apply Forall_app. split; [exact F | constructor; [lia | constructor]].
  - rewrite fold_left_app, V. cbn [fold_left]. lia.
  - now destruct l.
  - intros _. destruct l; [contradiction | exact (Z Q)].
Qed.

(* a digit costs more than three bits: S (log2 n) rounds of division by 10 always suffice *)
Lemma log2_div10 n : 10 <= n -> N.log2 (n / 10) < N.log2 n.
Proof.
  intros Hn. destruct (N.log2_spec n ltac:(lia)) as [_ U]. rewrite N.pow_succ_r' in U.
  apply N.log2_lt_pow2; [apply N.div_str_pos; lia|]. apply N.div_lt_upper_bound; lia.
Qed.
