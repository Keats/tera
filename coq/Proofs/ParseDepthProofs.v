(* C06 — the native call depth of the modelled parser (Model/ParseDepth.v) is at most
   7 * MAX_RECURSION_DEPTH + MAX_ELIF_DEPTH + 7 for every token list and every outcome.  Every
   component runs at a fixed offset (at most 7) within its nesting level; `counted` starts a new
   level, `elif_counted` pays for its frame with the elif counter. *)
From Coq Require Import List Arith Bool ZArith Lia.
From TeraV Require Import Model.ParseDepth Proofs.ParseDepthEqs.
Import ListNotations.
Local Open Scope nat_scope.

Section Native.
Variable C : cfg.
Variable L : nat.
Hypothesis HL : c_elif_limit C = Some L.

Definition KN := 7.
Definition BN := KN * c_max_rd C + L + 7.

(* the invariant at the entry of a component whose offset within its level is `off` *)
Definition pre (off : nat) (s : st) : Prop :=
  native s <= KN * rd s + el s + off /\ rd s <= c_max_rd C /\ el s <= L /\ peak s <= BN.

Definition post {A} (s : st) (r : res A) : Prop :=
  match r with
  | ROk _ s' => rd s' = rd s /\ el s' = el s /\ native s' = native s /\ peak s' <= BN
  | RErr s' => peak s' <= BN
  | RPanic s' => peak s' <= BN
  | RFuel => True
  end.

Definition good {A} (off : nat) (m : M A) : Prop := forall s, pre off s -> post s (m s).

Lemma good_mono : forall A o o' (m : M A), o <= o' -> good o' m -> good o m.
Proof.
  intros A o o' m Hle H s (H1 & H2 & H3 & H4). apply H. unfold pre. repeat split; try assumption. lia.
Qed.

Lemma good_ret : forall A o (a : A), good o (ret a).
Proof. intros A o a s (H1 & H2 & H3 & H4). simpl. auto. Qed.
Lemma good_err : forall A o, good o (@err A).
Proof. intros A o s (H1 & H2 & H3 & H4). simpl. auto. Qed.
Lemma good_panic : forall A o, good o (@panic A).
Proof. intros A o s (H1 & H2 & H3 & H4). simpl. auto. Qed.

Lemma good_bind : forall A B o (m : M A) (k : A -> M B),
  good o m -> (forall a, good o (k a)) -> good o (bind m k).
Proof.
  intros A B o m k Hm Hk s Hp. unfold bind. specialize (Hm s Hp).
  destruct (m s) as [a s'| s' | s' |]; simpl in *; auto.
  destruct Hm as (E1 & E2 & E3 & E4). destruct Hp as (H1 & H2 & H3 & H4).
  assert (Hp' : pre o s') by (unfold pre; rewrite E1, E2, E3; auto).
  specialize (Hk a s' Hp'). destruct (k a s') as [b s''| s'' | s'' |]; simpl in *; auto.
  destruct Hk as (F1 & F2 & F3 & F4). repeat split; congruence || auto.
Qed.

Lemma good_silent : forall A o (m : M A), silent m -> good o m.
Proof.
  intros A o m Hm s (H1 & H2 & H3 & H4). specialize (Hm s).
  destruct (m s); [|contradiction ..]. destruct Hm as (_ & E1 & E2 & _ & E3 & E4). simpl. rewrite E4. auto.
Qed.

Lemma good_next : forall o, good o next_or_error.
Proof.
  intros o s (H1 & H2 & H3 & H4). unfold next_or_error. destruct (toks s) as [|t r]; simpl; auto.
  destruct t; simpl; auto.
Qed.
Lemma good_bump : forall o, good o (bump C).
Proof.
  intros o s (H1 & H2 & H3 & H4). unfold bump. destruct (c_expr_limit C) as [lim|]; simpl; auto.
  destruct (lim <? S (ht s)); simpl; auto.
Qed.

Lemma good_expect : forall o p, good o (expect p).
Proof.
  intros o p. unfold expect. apply good_bind; [apply good_next|].
  intro t. destruct (p t); [apply good_ret | apply good_err].
Qed.
Lemma good_expect_ident : forall o, good o expect_ident.
Proof.
  intro o. unfold expect_ident. apply good_bind; [apply good_next|].
  intro t. destruct t; try apply good_err. apply good_ret.
Qed.
(* the side conditions are boolean: on closed offsets they hold by computation *)
Lemma good_call : forall A o o' (m : M A), (o <? o') = true -> (o' <=? 7) = true -> good o' m -> good o (call m).
Proof.
  intros A o o' m Ho%Nat.ltb_lt Ho'%Nat.leb_le Hm s (H1 & H2 & H3 & H4).
  assert (Hp : pre o' (enter s)).
  { unfold pre, BN, KN in *. cbn [enter native rd el peak].
    split; [lia|]. split; [assumption|]. split; [assumption|].
    apply Nat.max_lub; [assumption|lia]. }
  specialize (Hm (enter s) Hp). unfold call.
  destruct (m (enter s)) as [a s'| s' | s' |]; simpl in *; auto.
  destruct Hm as (E1 & E2 & E3 & E4). repeat split; auto. rewrite E3. reflexivity.
Qed.

(* recursion_depth += 1 ... -= 1 around a body that sits 7 offsets lower in the next level *)
Lemma good_counted : forall A o (m : M A), o <= 7 -> good 0 m -> good o (counted C m).
Proof.
  intros A o m Ho Hm s (H1 & H2 & H3 & H4). unfold counted. cbn [rd set_rd].
  destruct (c_max_rd C <? S (rd s)) eqn:Hc; simpl; auto.
  apply Nat.ltb_ge in Hc.
  assert (Hp : pre 0 (set_rd (S (rd s)) s)).
  { unfold pre, BN, KN in *. cbn [set_rd native rd el peak].
    split; [lia|]. split; [assumption|]. split; assumption. }
  specialize (Hm _ Hp).
  destruct (m (set_rd (S (rd s)) s)) as [a s'| s' | s' |]; simpl in *; auto.
  destruct Hm as (E1 & E2 & E3 & E4). rewrite E1. simpl. auto.
Qed.

Lemma good_sub_height : forall A o (m : M A), good o m -> good o (sub_height m).
Proof.
  intros A o m Hm s Hp. unfold sub_height.
  assert (Hp' : pre o (set_ht 0 s)) by exact Hp.
  specialize (Hm _ Hp'). destruct (m (set_ht 0 s)) as [a s'| s' | s' |]; simpl in *; auto.
Qed.

(* elif_depth += 1 ... -= 1: the body is one frame deeper, paid for by the counter *)
Lemma good_elif_counted : forall A o (m : M A), o <= 7 -> good o m -> good o (elif_counted C (call m)).
Proof.
  intros A o m Ho Hm s (H1 & H2 & H3 & H4). unfold elif_counted. rewrite HL. cbn [el set_el].
  destruct (L <? S (el s)) eqn:Hc; [exact H4|].
  apply Nat.ltb_ge in Hc.
  assert (Hp : pre o (enter (set_el (S (el s)) s))).
  { unfold pre, BN, KN in *. cbn [enter set_el native rd el peak].
    split; [lia|]. split; [assumption|]. split; [assumption|].
    apply Nat.max_lub; [assumption|lia]. }
  specialize (Hm _ Hp). unfold call.
  destruct (m (enter (set_el (S (el s)) s))) as [a s'| s' | s' |]; simpl in *; auto.
  destruct Hm as (E1 & E2 & E3 & E4). rewrite E2, E3. simpl. auto.
Qed.

(* An offset bounds how many frames a component sits above the start of its nesting level; a call
   needs a strictly larger offset for its callee.  The longest chain inside one level is
   until_loop 1 < parse_tag 2 < parse_set 3 (set_filters_loop runs in its frame) < parse_filter 4 <
   parse_kwargs 5 < parse_expression 6 < inner_parse_expression 7, whose `counted` opens the next
   level: hence 7 frames per level (KN) and the final + 7. *)
Definition off (c : comp) : nat :=
  match c with
  | C_inner_parse_expression _ => 7
  | C_parse_expression _ => 6
  | C_parse_kwargs | C_kwargs_loop _ _ => 5
  | C_parse_filter _ | C_parse_until _ => 4
  | C_parse_subscript _ | C_parse_list_comprehension _ | C_parse_for_loop | C_parse_if | C_parse_set
  | C_set_filters_loop _ => 3
  | C_parse_ident | C_ident_loop _ | C_parse_map | C_map_loop _ _ | C_parse_array | C_array_loop _ _
  | C_parse_tag => 2
  | C_parse_expr_bp _ | C_bp_loop _ _ _ | C_until_loop _ _ => 1
  end.

Ltac gstep :=
  lazymatch goal with
  | |- good _ (ret _) => apply good_ret
  | |- good _ err => apply good_err
  | |- good _ panic => apply good_panic
  | |- good _ (expect_tok _) => apply good_expect
  | |- good _ expect_ident => apply good_expect_ident
  | |- good _ next_or_error => apply good_next
  | |- good _ (bump _) => apply good_bump
  | |- good _ (bind _ _) => apply good_bind; [|intro]
  | |- good _ (counted _ _) => apply good_counted; [lia|]
  | |- good _ (sub_height _) => apply good_sub_height
  | |- good _ (elif_counted _ (call _)) => apply good_elif_counted; [lia|]
  (* on a token already taken apart: the table decides, not both arms for each of bp_loop's 41 tokens *)
  | |- good _ (match binop_of _ with _ => _ end) => cbn [binop_of]
  | |- good _ (match ?x with _ => _ end) => destruct x
  | |- good _ (if ?x then _ else _) => destruct x
  | IH : forall c, good (off c) (?R c) |- good ?o (call (?R ?c)) =>
      exact (good_call _ o (off c) _ eq_refl eq_refl (IH c))
  | IH : forall c, good (off c) (?R c) |- good _ (?R ?c) => apply (IH c)
  | |- good _ _ => apply good_silent; silent_prim
  end.

Lemma all_good : forall f c, good (off c) (run C f c).
Proof.
  apply (block_ind C (fun c => good (off c))).
  - intros c s _. exact I.
  - intros R IH c. destruct c; cbn [body off rty]; cbv zeta; repeat gstep.
Qed.

Theorem native_depth_bounded : forall fuel ts,
  match parse C fuel ts with
  | ROk _ s => peak s <= BN
  | RErr s => peak s <= BN
  | RPanic s => peak s <= BN
  | RFuel => True
  end.
Proof.
  intros fuel ts. unfold parse.
  assert (Hg : good 2 (call (call (parse_until C fuel (fun _ => false))))).
  { apply (good_call _ _ 3), (good_call _ _ 4), (all_good fuel (C_parse_until _)); reflexivity. }
  assert (Hp : pre 2 (init ts)).
  { unfold pre, BN, KN, init. cbn [native rd el peak]. repeat split; lia. }
  specialize (Hg _ Hp).
  destruct (call (call (parse_until C fuel (fun _ => false))) (init ts)); simpl in *; tauto.
Qed.

End Native.
