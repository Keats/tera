(* C07 second tier: the chunk compiled from any statement list (break/continue only inside a for
   body and not across a capture) has a table that check_table accepts; what that means for tera
   is said at Props.C07.C07_compile_always_checks. By induction on expressions and statements with
   the invariant "a statement placed at position p leaves the abstract state (value stack, loop
   stack, capture count) as it found it; an expression pushes one slot". *)
From TeraV Require Import Model.Value Model.Instr Model.VM Model.StackCheck
  Proofs.CompileChecks Proofs.CompileFrag.
From TeraV Require Import Spec.Stmt Model.Compile Proofs.CompileEqs Proofs.RunStep Proofs.StackBuild Proofs.StackCheckProofs.
Local Open Scope nat_scope.

Definition pushA (t : aty) (a : astate) : astate := mkA (t :: a_stack a) (a_loops a) (a_caps a).

(* Below, a fragment comes with its table segment left to be chosen (`exists sg, Frag ..`); Fs_weaken
   is CompileFrag.F_weaken in that form. A primed lemma (kwargs_frag') has as a premise the fact about
   the subexpressions that expr_frag later discharges for the unprimed one. *)
Lemma F_goto p i a t a' aout ext :
  astep i p a = Some [(t, a')] -> In (t, a') ext -> exists sg, Frag p [i] sg a aout ext.
Proof. intros H Hi. exists [a]. apply (F_instr p i a aout ext _ H). intros e [<-|[]]. right. exact Hi. Qed.

Lemma F_branch p i a a1 t a' ext :
  astep i p a = Some [(S p, a1); (t, a')] -> In (t, a') ext -> exists sg, Frag p [i] sg a a1 ext.
Proof.
  intros H Hi. exists [a]. apply (F_instr p i a a1 ext _ H). intros e [<-|[<-|[]]].
  - left. split; [reflexivity|apply astate_sub_refl].
  - right. exact Hi.
Qed.

Lemma F_one p i a a1 ext : astep i p a = Some [(S p, a1)] -> exists sg, Frag p [i] sg a a1 ext.
Proof.
  intros H. exists [a]. apply (F_instr p i a a1 ext _ H). intros e [<-|[]]. left.
  split; [reflexivity|apply astate_sub_refl].
Qed.

Lemma F_app p c1 c2 a0 a1 a2 ext :
  (exists sg, Frag p c1 sg a0 a1 ext) -> (exists sg, Frag (p + length c1) c2 sg a1 a2 ext) ->
  exists sg, Frag p (c1 ++ c2) sg a0 a2 ext.
Proof. intros (s1 & F1) (s2 & F2). exists (s1 ++ s2). exact (F_seq _ _ _ _ _ _ _ _ _ _ F1 F2 eq_refl). Qed.

Lemma F_snoc p c a0 a1 a2 i ext :
  (exists sg, Frag p c sg a0 a1 ext) -> astep i (p + length c) a1 = Some [(S (p + length c), a2)] ->
  exists sg, Frag p (c ++ [i]) sg a0 a2 ext.
Proof. intros F H. exact (F_app _ _ _ _ _ _ _ F (F_one _ _ _ _ _ H)). Qed.

Lemma F_cons p i c a0 a1 a2 ext :
  (exists sg, Frag p [i] sg a0 a1 ext) -> (exists sg, Frag (S p) c sg a1 a2 ext) ->
  exists sg, Frag p (i :: c) sg a0 a2 ext.
Proof.
  intros (s1 & F1) (s2 & F2). exists (s1 ++ s2).
  exact (F_seq _ _ _ _ _ _ _ _ _ _ F1 F2 (eq_sym (Nat.add_1_r p))).
Qed.

Lemma F_any p c a0 t a ext :
  (exists sg, Frag p c sg a0 (pushA t a) ext) -> exists sg, Frag p c sg a0 (pushA TAny a) ext.
Proof. intros (sg & F). exists sg. destruct a as [st lo ca]. exact (F_exit_weaken _ _ _ _ _ _ _ F (sub_top_any lo ca t st)). Qed.

Lemma F_const p v a ext : exists sg, Frag p [LoadConst v] sg a (pushA TAny a) ext.
Proof. apply (F_any _ _ _ (ty_of_value v)), F_one. destruct a; reflexivity. Qed.

Lemma Fs_weaken p c a0 a1 ext ext' : (exists sg, Frag p c sg a0 a1 ext) -> incl ext ext' -> exists sg, Frag p c sg a0 a1 ext'.
Proof. intros (sg & F) Hi. exists sg. exact (F_weaken _ _ _ _ _ _ _ F Hi). Qed.

Lemma F_mid p c1 c2 a0 a1 a2 al t ext :
  t = p + length c1 -> astate_sub al a1 = true -> (exists sg, Frag p c1 sg a0 a1 ((t, al) :: ext)) ->
  (exists sg, Frag t c2 sg a1 a2 ((t, al) :: ext)) -> exists sg, Frag p (c1 ++ c2) sg a0 a2 ext.
Proof. intros Ht Hs (s1 & F1) (s2 & F2). exists (s1 ++ s2). exact (F_junction _ _ _ _ _ _ _ _ _ _ _ F1 F2 Ht Hs). Qed.

Lemma F_end p c a0 a1 al t ext :
  t = p + length c -> astate_sub al a1 = true -> (exists sg, Frag p c sg a0 a1 ((t, al) :: ext)) ->
  exists sg, Frag p c sg a0 a1 ext.
Proof.
  intros Ht Hs F. rewrite <- (app_nil_r c).
  apply (F_mid _ _ [] _ _ _ _ _ _ Ht Hs F). exists []. apply F_nil.
Qed.

(* ca; j end; cb; end:  where j falls through in state af or jumps in the exit state (and, or, an if
   without else) *)
Lemma F_short p ca j cb a0 am af a1 ext :
  (exists sg, Frag p ca sg a0 am ext) ->
  (exists sg, Frag (p + length ca + 1) cb sg af a1 ext) ->
  astep j (p + length ca) am = Some [(S (p + length ca), af); (p + length ca + 1 + length cb, a1)] ->
  exists sg, Frag p (ca ++ [j] ++ cb) sg a0 a1 ext.
Proof.
  intros Ha Hb Hj. set (t := p + length ca + 1 + length cb) in *.
  apply (F_end _ _ _ _ a1 t); [unfold t; rewrite !app_length; cbn [length]; lia|apply astate_sub_refl|].
  apply (F_app _ _ _ _ am); [exact (Fs_weaken _ _ _ _ _ _ Ha (incl_tl _ (incl_refl _)))|].
  apply (F_app _ [j] _ _ af); [|exact (Fs_weaken _ _ _ _ _ _ Hb (incl_tl _ (incl_refl _)))].
  apply (F_branch _ _ _ af t a1 _ Hj). left. reflexivity.
Qed.

(* cc; PopJumpIfFalse else; ca; Jump end; else: cb; end:  (the ternary, an if with else) *)
Lemma F_ite p cc ca cb a0 ac aa a1 ext :
  let b1 := p + length cc + 1 in
  let b2 := b1 + length ca + 1 in
  (exists sg, Frag p cc sg a0 ac ext) ->
  (exists sg, Frag b1 ca sg aa a1 ext) ->
  (exists sg, Frag b2 cb sg aa a1 ext) ->
  astep (PopJumpIfFalse b2) (p + length cc) ac = Some [(S (p + length cc), aa); (b2, aa)] ->
  exists sg, Frag p (cc ++ [PopJumpIfFalse b2] ++ ca ++ [Jump (b2 + length cb)] ++ cb) sg a0 a1 ext.
Proof.
  intros b1 b2 Hc Ha Hb Hj. set (tend := b2 + length cb).
  pose proof (incl_tl (b2, aa) (incl_tl (tend, a1) (incl_refl ext))) as Hi.
  apply (F_end _ _ _ _ a1 tend); [unfold tend, b2, b1; rewrite !app_length; cbn [length]; lia|apply astate_sub_refl|].
  replace (cc ++ [PopJumpIfFalse b2] ++ ca ++ [Jump tend] ++ cb) with ((cc ++ [PopJumpIfFalse b2] ++ ca ++ [Jump tend]) ++ cb)
    by (rewrite <- !app_assoc; reflexivity).
  apply (F_mid _ _ _ _ aa _ aa b2); [unfold b2, b1; rewrite !app_length; cbn [length]; lia|apply astate_sub_refl|
                                     |exact (Fs_weaken _ _ _ _ _ _ Hb Hi)].
  apply (F_app _ _ _ _ ac); [exact (Fs_weaken _ _ _ _ _ _ Hc Hi)|].
  apply (F_app _ [_] _ _ aa); [apply (F_branch _ _ _ aa b2 aa _ Hj); left; reflexivity|].
  apply (F_app _ _ _ _ a1); [exact (Fs_weaken _ _ _ _ _ _ Ha Hi)|].
  apply (F_goto _ _ _ tend a1); [reflexivity|right; left; reflexivity].
Qed.

Definition EF (e : expr) : Prop :=
  forall p a ext, exists sg, Frag p (compile_expr p e) sg a (pushA TAny a) ext.

Lemma drop_add : forall n m l r, drop n l = Some r -> drop (n + m) l = drop m r.
Proof.
  induction n as [|n IH]; intros m l r H; cbn in *; [injection H as <-; reflexivity|].
  destruct l; [discriminate|]. exact (IH _ _ _ H).
Qed.

Fixpoint pushN (n : nat) (a : astate) : astate :=
  match n with O => a | S k => pushN k (pushA TAny a) end.

Lemma pushN_shape n : forall a, a_loops (pushN n a) = a_loops a /\ a_caps (pushN n a) = a_caps a.
Proof. induction n as [|n IH]; intros a; [auto|]. cbn [pushN]. destruct (IH (pushA TAny a)). auto. Qed.

Lemma pushN_drop n : forall a, drop n (a_stack (pushN n a)) = Some (a_stack a).
Proof.
  induction n as [|n IH]; intros a; [reflexivity|]. cbn [pushN].
  replace (S n) with (n + 1) by lia. rewrite (drop_add _ 1 _ _ (IH _)). reflexivity.
Qed.

(* the six instructions that rebuild the top of the stack, on as many pushed slots as they take *)
Lemma build_pushN i p a0 : is_stackop i = true ->
  astep i p (pushN (stackop_pops i) a0) = Some [(S p, pushA (stackop_ty i) a0)].
Proof.
  intros K. rewrite (astep_stackop _ _ _ K), pushN_drop. destruct (pushN_shape (stackop_pops i) a0) as [-> ->]. reflexivity.
Qed.

Lemma kws_frag kw : Forall (fun ke => EF (snd ke)) kw ->
  forall p a ext, exists sg, Frag p (compile_kws compile_expr p kw) sg a (pushN (2 * length kw) a) ext.
Proof.
  induction 1 as [|[k e] t He _ IH]; intros p a ext.
  - exists []. apply F_nil.
  - cbn [snd] in He. rewrite compile_kws_cons. cbn [length].
    replace (2 * S (length t)) with (2 + 2 * length t) by lia.
    exact (F_app _ _ _ _ _ _ _ (F_cons _ _ _ _ _ _ _ (F_const p _ a ext) (He _ _ ext)) (IH _ _ ext)).
Qed.

Lemma kwargs_frag' kw : Forall (fun ke => EF (snd ke)) kw ->
  forall p a ext, exists sg, Frag p (compile_kwargs p kw) sg a (pushA TMap a) ext.
Proof.
  intros H p a ext. apply (F_snoc _ _ _ _ _ _ _ (kws_frag kw H p a ext)).
  exact (build_pushN (BuildMap _) _ _ eq_refl).
Qed.

Lemma opt_frag (o : option expr) (d : value) :
  match o with Some x => EF x | None => True end ->
  forall p a ext, exists sg,
    Frag p (match o with Some x => compile_expr p x | None => [LoadConst d] end) sg a (pushA TAny a) ext.
Proof.
  intros H p a ext. destruct o as [x|]; [apply H|apply F_const].
Qed.

Lemma items_frag items : Forall (fun ie => EF (snd ie)) items ->
  forall p a ext, exists sg, Frag p (compile_items compile_expr p items) sg a (pushN (length items) a) ext.
Proof.
  induction 1 as [|[sp e] t He _ IH]; intros p a ext.
  - exists []. apply F_nil.
  - cbn [snd] in He. rewrite compile_items_cons. cbn [length pushN].
    exact (F_app _ _ _ _ _ _ _ (He p a ext) (IH _ (pushA TAny a) ext)).
Qed.

Lemma need_map_cons b fl : need_map (b :: fl) = (if b then 1 else 2) + need_map fl.
Proof. reflexivity. Qed.

Lemma need_map_nospread es : existsb is_spread es = false -> need_map (map is_spread es) = 2 * length es.
Proof.
  induction es as [|x t IH]; [reflexivity|]. cbn [existsb map length]. intros H.
  apply orb_false_elim in H as [H1 H2]. rewrite need_map_cons, H1, (IH H2). lia.
Qed.

Lemma entries_frag es : Forall (fun ke => EF (snd ke)) es ->
  forall p a ext, exists sg, Frag p (compile_entries compile_expr p es) sg a (pushN (need_map (map is_spread es)) a) ext.
Proof.
  induction 1 as [|[[k|] e] t He _ IH]; intros p a ext.
  - exists []. apply F_nil.
  - cbn [snd] in He. rewrite compile_entries_some.
    exact (F_app _ _ _ _ _ _ _ (F_cons _ _ _ _ _ _ _ (F_const p k a ext) (He _ _ ext)) (IH _ _ ext)).
  - cbn [snd] in He. rewrite compile_entries_none.
    exact (F_app _ _ _ _ _ _ _ (He p a ext) (IH _ (pushA TAny a) ext)).
Qed.

Theorem expr_frag : forall e, EF e.
Proof.
  induction e using expr_ind'; intros p a0 ext.
  (* attribute, not, unary minus, optional attribute: the operand, then one instruction on its slot *)
  4,5,12,14: (apply (F_snoc _ _ _ _ _ _ _ (IHe p a0 ext)); destruct a0; reflexivity).
  (* and, or (goals 4-5 of those then left): the right operand is skipped with the left one's value
     as the result *)
  4-5: (apply (F_short p _ _ _ a0 (pushA TAny a0) a0 (pushA TAny a0) ext (IHe1 p a0 ext) (IHe2 _ a0 ext));
        destruct a0; reflexivity).
  - (* constant *) apply F_const.
  - (* variable *) apply F_one. destruct a0; reflexivity.
  - (* loop field *) apply F_one. destruct a0; reflexivity.
  - (* eq *)
    apply (F_app _ _ _ _ _ _ _ (IHe1 p a0 ext)), (F_snoc _ _ _ _ _ _ _ (IHe2 _ (pushA TAny a0) ext)). destruct a0; reflexivity.
  - (* test *)
    apply (F_app _ _ _ _ _ _ _ (IHe p a0 ext)), (F_app _ [BuildMap 0] [RunTest n] _ (pushA TMap (pushA TAny a0)));
      apply F_one; destruct a0; reflexivity.
  - (* filter *) cbn [compile_expr]. rewrite <- compile_kwargs_snoc.
    apply (F_app _ _ _ _ _ _ _ (IHe p a0 ext)), (F_snoc _ _ _ _ _ _ _ (kwargs_frag' kw H _ (pushA TAny a0) ext)).
    destruct a0; reflexivity.
  - (* binary operator *)
    apply (F_app _ _ _ _ _ _ _ (IHe1 p a0 ext)), (F_snoc _ _ _ _ _ _ _ (IHe2 _ (pushA TAny a0) ext)). destruct a0, op; reflexivity.
  - (* ternary *)
    apply (F_ite p _ _ _ a0 (pushA TAny a0) a0 (pushA TAny a0) ext (IHe1 p a0 ext) (IHe2 _ a0 ext) (IHe3 _ a0 ext)).
    destruct a0; reflexivity.
  - (* subscript *)
    apply (F_app _ _ _ _ _ _ _ (IHe1 p a0 ext)), (F_snoc _ _ _ _ _ _ _ (IHe2 _ (pushA TAny a0) ext)). destruct a0, opt; reflexivity.
  - (* slice *) cbn [compile_expr].
    apply (F_app _ _ _ _ _ _ _ (IHe p a0 ext)), (F_app _ _ _ _ _ _ _ (opt_frag sa VNone H _ (pushA TAny a0) ext)),
          (F_app _ _ _ _ _ _ _ (opt_frag sb VNone H0 _ (pushA TAny (pushA TAny a0)) ext)),
          (F_snoc _ _ _ _ _ _ _ (opt_frag sc (VInt I64 1) H1 _ (pushA TAny (pushA TAny (pushA TAny a0))) ext)).
    destruct a0, opt; reflexivity.
  - (* function call *) cbn [compile_expr]. rewrite <- compile_kwargs_snoc.
    apply (F_snoc _ _ _ _ _ _ _ (kwargs_frag' kw H p a0 ext)). destruct a0; reflexivity.
  - (* array literal *) cbn [compile_expr].
    apply (F_any _ _ _ TArr), (F_snoc _ _ _ _ _ _ _ (items_frag items H p a0 ext)).
    destruct (existsb fst items).
    + rewrite <- (map_length fst items). exact (build_pushN (BuildListWithSpreads _) _ _ eq_refl).
    + exact (build_pushN (BuildList _) _ _ eq_refl).
  - (* map literal *) cbn [compile_expr].
    apply (F_any _ _ _ TMap), (F_snoc _ _ _ _ _ _ _ (entries_frag es H p a0 ext)).
    destruct (existsb is_spread es) eqn:Es.
    + exact (build_pushN (BuildMapWithSpreads _) _ _ eq_refl).
    + rewrite (need_map_nospread es Es). exact (build_pushN (BuildMap _) _ _ eq_refl).
Qed.

Lemma kwargs_frag kw p a ext : exists sg, Frag p (compile_kwargs p kw) sg a (pushA TMap a) ext.
Proof. apply kwargs_frag', Forall_forall. intros ke _. apply expr_frag. Qed.

Lemma filters_frag : forall fs p a ext,
  exists sg, Frag p (compile_filters p fs) sg (pushA TAny a) (pushA TAny a) ext.
Proof.
  induction fs as [|[name kw] t IH]; intros p a ext.
  - exists []. apply F_nil.
  - cbn [compile_filters]. apply (F_app _ _ _ _ (pushA TAny a)); [|apply IH].
    apply (F_snoc _ _ _ _ _ _ _ (kwargs_frag kw p (pushA TAny a) ext)). destruct a; reflexivity.
Qed.

(* where break / continue are allowed: the innermost loop's Iterate position and end target are
   labels of the environment, and the abstract state is the loop body's *)
Definition Ctx (brk : bool) (lp : option nat) (a : astate) (ext : list (nat * astate)) : Prop :=
  brk = true -> exists start lend lo',
    lp = Some start /\ a_loops a = Some lend :: lo' /\ In (start, a) ext /\ In (lend, a) ext.

Lemma Ctx_false lp a ext : Ctx false lp a ext.
Proof. intros H. discriminate. Qed.

Definition SF (s : stmt) : Prop :=
  forall brk, brk_stmt brk s = true ->
  forall p lp a ext, Ctx brk lp a ext -> exists sg, Frag p (compile_node p lp s) sg a a ext.

Lemma seq_frag body : Forall SF body ->
  forall brk, forallb (brk_stmt brk) body = true ->
  forall p lp a ext, Ctx brk lp a ext ->
  exists sg, Frag p (compile_seq compile_node p lp body) sg a a ext.
Proof.
  induction 1 as [|s t Hs _ IH]; intros brk Hwf p lp a ext HC.
  - exists []. apply F_nil.
  - cbn [forallb] in Hwf. apply andb_prop in Hwf as [H1 H2]. rewrite compile_seq_cons.
    exact (F_app _ _ _ _ _ _ _ (Hs brk H1 p lp a ext HC) (IH brk H2 _ lp a ext HC)).
Qed.

(* the abstract state after Capture, after StartIterate (end_ip not yet known), and inside the body
   of the loop whose end is lend *)
Definition capA (a : astate) : astate := mkA (a_stack a) (a_loops a) (S (a_caps a)).
Definition itA (a : astate) : astate := mkA (a_stack a) (None :: a_loops a) (a_caps a).
Definition bodyA (lend : nat) (a : astate) : astate := mkA (a_stack a) (Some lend :: a_loops a) (a_caps a).

Lemma sub_body_it lend a : astate_sub (bodyA lend a) (itA a) = true.
Proof.
  destruct a as [st lo ca]. unfold astate_sub, bodyA, itA. cbn [a_stack a_loops a_caps all2 lp_sub].
  rewrite (all2_refl ty_sub ty_sub_refl), (all2_refl lp_sub lp_sub_refl), Nat.eqb_refl. reflexivity.
Qed.

(* Capture; body; EndCapture; filters; i  where i consumes the filtered capture (a set block, a
   filter section) *)
Lemma capture_frag body : Forall SF body -> forallb (brk_stmt false) body = true ->
  forall p lp fs i a ext, (forall q, astep i q (pushA TAny a) = Some [(S q, a)]) ->
  let cb := compile_seq compile_node (S p) lp body in
  exists sg, Frag p ([Capture] ++ cb ++ [EndCapture] ++ compile_filters (S p + length cb + 1) fs ++ [i]) sg a a ext.
Proof.
  intros Hb Hwb p lp fs i a ext Hi cb. rewrite Nat.add_1_r.
  apply (F_cons _ _ _ _ (capA a)); [apply F_one; destruct a; reflexivity|].
  apply (F_app _ _ _ _ _ _ _ (seq_frag body Hb false Hwb _ lp (capA a) ext (Ctx_false _ _ _))).
  apply (F_cons _ _ _ _ (pushA TAny a)); [apply F_one; destruct a; reflexivity|].
  exact (F_snoc _ _ _ _ _ _ _ (filters_frag fs _ a ext) (Hi _)).
Qed.

(* target; StartIterate; StoreLocal..; Iterate; body; Jump; tail — a for loop, with break /
   continue / the Iterate exit resolved; the tail starts at the loop's end target *)
Lemma for_head body : Forall SF body ->
  forallb (brk_stmt true) body = true ->
  forall (key : option str) (val : str) (target : expr) p a ext tail,
  let ct := compile_expr p target in
  let hdr := [StartIterate (is_some key); StoreLocal val] ++ match key with Some k => [StoreLocal k] | None => [] end in
  let start := p + length ct + length hdr in
  let cb := compile_seq compile_node (S start) (Some start) body in
  let lend := S (S start + length cb) in
  (exists sg, Frag lend tail sg (itA a) a ext) ->
  exists sg, Frag p (ct ++ hdr ++ [Iterate lend] ++ cb ++ [Jump start] ++ tail) sg a a ext.
Proof.
  intros Hb Hwb key val target p a ext tail ct hdr start cb lend Ft.
  set (a_it := itA a). set (a_b := bodyA lend a).
  assert (HL : lend = start + length ([Iterate lend] ++ cb ++ [Jump start])) by (rewrite !app_length; cbn [length]; lia).
  replace (ct ++ hdr ++ [Iterate lend] ++ cb ++ [Jump start] ++ tail)
    with ((ct ++ hdr) ++ ([Iterate lend] ++ cb ++ [Jump start]) ++ tail) by (rewrite <- !app_assoc; reflexivity).
  apply (F_mid _ _ _ _ a_it _ a_b start); [unfold start; rewrite app_length; lia|exact (sub_body_it _ _)| |].
  - apply (F_app _ _ _ _ _ _ _ (expr_frag target p a _)). unfold hdr. destruct key as [k|]; cbn [app];
      (apply (F_cons _ _ _ _ a_it); [apply F_one; destruct a; reflexivity|]).
    + apply (F_cons _ _ _ _ a_it); apply F_one; destruct a; reflexivity.
    + apply F_one. destruct a; reflexivity.
  - apply (F_app _ _ _ _ a_it); [|rewrite <- HL; exact (Fs_weaken _ _ _ _ _ _ Ft (incl_tl _ (incl_refl _)))].
    apply (F_end _ _ _ _ a_b lend _ HL (sub_body_it _ _)), (F_end _ _ _ _ a_it lend _ HL (astate_sub_refl _)).
    apply (F_cons _ _ _ _ a_b).
    + apply (F_branch _ _ _ a_b lend a_it); [destruct a; reflexivity|left; reflexivity].
    + apply (F_app _ _ _ _ a_b).
      * apply (seq_frag body Hb true Hwb). intros _. exists start, lend, (a_loops a).
        repeat split; [right; right; left; reflexivity|right; left; reflexivity].
      * apply (F_goto _ _ _ start a_b); [reflexivity|right; right; left; reflexivity].
Qed.

(* what follows a loop's Jump: PopLoop, or the else body guarded by StoreDidNotIterate *)
Lemma for_exit_frag els : Forall SF els -> forall brk, forallb (brk_stmt brk) els = true ->
  forall le lp a ext, Ctx brk lp a ext -> exists sg, Frag le (for_exit le lp els) sg (itA a) a ext.
Proof.
  intros He brk Hwe le lp a ext HC. destruct els as [|e0 els']; [apply F_one; destruct a; reflexivity|].
  cbn [for_exit]. replace (3 + le) with (S le + length [PopLoop] + 1) by (cbn [length]; lia).
  apply (F_cons _ _ _ _ (pushA TAny (itA a))); [apply F_one; destruct a; reflexivity|].
  apply (F_short (S le) [PopLoop] _ _ _ (pushA TAny a) a a ext).
  - apply F_one. destruct a; reflexivity.
  - exact (seq_frag _ He brk Hwe _ lp a ext HC).
  - destruct a; reflexivity.
Qed.

Theorem stmt_frag : forall s, SF s.
Proof.
  induction s using stmt_ind'; intros brk Hwf p lp a ext HC.
  - (* text *) apply F_one. destruct a; reflexivity.
  - (* print *) apply (F_snoc _ _ _ _ _ _ _ (expr_frag e p a ext)). destruct a; reflexivity.
  - (* if *) cbn [brk_stmt] in Hwf. apply andb_prop in Hwf as [Hwb Hwe].
    pose proof (fun q => seq_frag b H brk Hwb q lp a ext HC) as Fb.
    destruct e as [|e0 els']; cbn [compile_node].
    + apply (F_short p _ _ _ a (pushA TAny a) a a ext (expr_frag c p a ext) (Fb _)). destruct a; reflexivity.
    + apply (F_ite p _ _ _ a (pushA TAny a) a a ext (expr_frag c p a ext) (Fb _) (seq_frag _ H0 brk Hwe _ lp a ext HC)).
      destruct a; reflexivity.
  - (* for *) cbn [brk_stmt] in Hwf. apply andb_prop in Hwf as [Hwb Hwe]. rewrite compile_for_eq.
    exact (for_head b H Hwb k v t p a ext _ (for_exit_frag e H0 brk Hwe _ lp a ext HC)).
  - (* assign *) apply (F_snoc _ _ _ _ _ _ _ (expr_frag e p a ext)). destruct g, a; reflexivity.
  - (* set block *) apply (capture_frag b H Hwf). intros q. destruct g, a; reflexivity.
  - (* filter section *) cbn [compile_node]. rewrite compile_filters_single.
    apply (capture_frag b H Hwf). intros q. destruct a; reflexivity.
  - (* include *) apply F_one. destruct a; reflexivity.
  - (* break *) cbn [brk_stmt] in Hwf. destruct (HC Hwf) as (start & lend & lo' & _ & Hl & _ & Hin).
    apply (F_goto _ _ _ lend a); [|exact Hin].
    destruct a as [st lo ca]. cbn in Hl. subst lo. reflexivity.
  - (* continue *) cbn [brk_stmt] in Hwf. destruct (HC Hwf) as (start & lend & lo' & -> & _ & Hin & _).
    apply (F_goto _ _ _ start a); [reflexivity|exact Hin].
Qed.

Theorem compile_always_checks : forall ss, brk_body ss = true ->
  exists tbl, check_table (compile ss) a_empty tbl = true.
Proof.
  intros ss Hwf. unfold compile.
  assert (HF : Forall SF ss) by (apply Forall_forall; intros s _; apply stmt_frag).
  destruct (seq_frag ss HF false Hwf 0 None a_empty [] (Ctx_false _ _ _)) as (sg & F).
  exists (map Some (sg ++ [a_empty])). exact (Frag_check_table _ _ F).
Qed.

(* wf_stmt (the hypothesis of C03's compile_correct) implies brk_stmt *)
Lemma wf_brk_list (l : list stmt) :
  Forall (fun s => forall okn lex brk, wf_stmt okn lex brk s = true -> brk_stmt brk s = true) l ->
  forall okn lex brk, forallb (wf_stmt okn lex brk) l = true -> forallb (brk_stmt brk) l = true.
Proof.
  induction 1 as [|s t Hs _ IH]; intros okn lex brk Hw; [reflexivity|]. cbn [forallb] in *.
  apply andb_prop in Hw as [H1 H2]. rewrite (Hs _ _ _ H1), (IH _ _ _ H2). reflexivity.
Qed.

Lemma wf_brk : forall s okn lex brk, wf_stmt okn lex brk s = true -> brk_stmt brk s = true.
Proof.
  induction s using stmt_ind'; intros okn lex brk Hwf; cbn [wf_stmt brk_stmt] in *; try reflexivity; try exact Hwf.
  (* if and for: the two bodies *)
  1-2: (apply andb_prop in Hwf as [Hwf H2]; apply andb_prop in Hwf as [_ H1];
        rewrite (wf_brk_list _ H _ _ _ H1), (wf_brk_list _ H0 _ _ _ H2); reflexivity).
  - apply andb_prop in Hwf as [H1 _]. exact (wf_brk_list _ H _ _ _ H1).
  - apply andb_prop in Hwf as [_ H1]. exact (wf_brk_list _ H _ _ _ H1).
Qed.

Lemma wf_body_brk okn ss : wf_body okn ss = true -> brk_body ss = true.
Proof.
  unfold wf_body, brk_body. apply wf_brk_list. apply Forall_forall. intros s _. apply wf_brk.
Qed.

(* compiled code never underflows and ends balanced: the validator's soundness theorem
   (StackCheckProofs.table_sound) at the table found above *)

Theorem compiled_sound :
  forall (W : Type) (wr : W -> str -> option W) (wd : world) (reg : registry),
  world_respects wd reg -> world_checked reg wd = true ->
  forall ss, brk_body ss = true -> refs_resolved reg wd (compile ss) = true ->
  forall fuel tpl ae depth s o,
  template_good reg wd tpl = true -> blocks_good wd reg s ->
  match run W wr wd fuel tpl ae depth (compile ss) 0 s o with
  | RFail e => e <> ErrPanic /\ e <> ErrOther
  | ROutOfFuel => True
  | RDone s' o' =>
      stack s' = stack s /\ map lf_end_ip (loops s') = map lf_end_ip (loops s) /\
      length (caps s') = length (caps s) /\ blocks s' = blocks s /\ cur_block s' = cur_block s
  end.
Proof.
  intros W wr wd reg Hreg Hwd ss Hwf Hrefs fuel tpl ae depth s o HT HB.
  destruct (compile_always_checks ss Hwf) as (tbl & Htbl).
  exact (table_sound W wr wd reg Hreg Hwd fuel tpl ae depth (compile ss) tbl s o HT Htbl Hrefs HB).
Qed.
