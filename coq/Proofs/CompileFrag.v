(* C07 second tier: a small assembly calculus for "this code fragment, placed at position p,
   is accepted by check_table under ANY global table that holds the fragment's own segment,
   a suitable entry after it, and suitable entries at the external labels it jumps to".
   Fragments compose sequentially; a label is resolved where the sequence is formed at whose
   junction it stands (the end of the sequence, when nothing follows). Used by Proofs/CompileAlwaysChecks.v. *)
From TeraV Require Import Model.Value Model.Instr Model.VM Model.StackCheck Proofs.CompileChecks.
Local Open Scope nat_scope.

Definition ext_ok (T : table) (ext : list (nat * astate)) : Prop :=
  forall t a, In (t, a) ext -> exists b, nth_error T t = Some (Some b) /\ astate_sub a b = true.

(* the state a fragment is entered in refines its first table entry; an empty fragment has none,
   and what it is entered in is what it is left in, so ain must refine aout (F_seq with an empty side) *)
Definition entry_ok (sg : list astate) (ain aout : astate) : Prop :=
  match sg with [] => astate_sub ain aout = true | a0 :: _ => astate_sub ain a0 = true end.

Definition Frag (p : nat) (code : list instr) (sg : list astate) (ain aout : astate)
           (ext : list (nat * astate)) : Prop :=
  length sg = length code /\ entry_ok sg ain aout /\
  forall T b, agree T p sg -> nth_error T (p + length code) = Some (Some b) ->
    astate_sub aout b = true -> ext_ok T ext ->
    forall k i, nth_error code k = Some i -> instr_ok T (p + k) i = true.

Lemma F_nil p a ext : Frag p [] [] a a ext.
Proof.
  split; [reflexivity|split; [apply astate_sub_refl|]]. intros T b _ _ _ _ k i H. destruct k; discriminate.
Qed.

Lemma F_instr p i a aout ext edges :
  astep i p a = Some edges ->
  (forall e, In e edges -> (fst e = S p /\ astate_sub (snd e) aout = true) \/ In e ext) ->
  Frag p [i] [a] a aout ext.
Proof.
  intros HA HE. split; [reflexivity|split; [apply astate_sub_refl|]].
  intros T b Hag Hexit Hsub Hext k j Hk. destruct k as [|k]; [|destruct k; discriminate]. injection Hk as <-.
  rewrite Nat.add_0_r. pose proof (Hag 0 a eq_refl) as H0. rewrite Nat.add_0_r in H0.
  unfold instr_ok. rewrite H0, HA. apply forallb_forall. intros [t a'] Hin. unfold edge_ok. cbn [fst snd].
  destruct (HE _ Hin) as [[Ht Hs]|Hl]; cbn [fst snd] in *.
  - subst t. replace (S p) with (p + length [i]) by (cbn; lia). rewrite Hexit. exact (astate_sub_trans _ _ _ Hs Hsub).
  - destruct (Hext _ _ Hl) as (b' & Hb & Hs). rewrite Hb. exact Hs.
Qed.

Lemma F_seq p c1 s1 a0 a1 c2 s2 a2 ext p2 :
  Frag p c1 s1 a0 a1 ext -> Frag p2 c2 s2 a1 a2 ext -> p2 = p + length c1 ->
  Frag p (c1 ++ c2) (s1 ++ s2) a0 a2 ext.
Proof.
  intros (L1 & E1 & K1) (L2 & E2 & K2) ->. split; [rewrite !app_length; lia|split].
  - destruct s1 as [|x s1]; [|exact E1]. cbn [app]. destruct c1; [|discriminate]. cbn in E1.
    destruct s2; cbn in *; exact (astate_sub_trans _ _ _ E1 E2).
  - intros T b Hag Hexit Hsub Hext k i Hk.
    destruct (agree_app _ _ _ _ Hag) as [Ha1 Ha2]. rewrite L1 in Ha2.
    rewrite app_length in Hexit. rewrite Nat.add_assoc in Hexit.
    destruct (Nat.lt_ge_cases k (length c1)) as [Hl|Hl];
      [rewrite nth_error_app1 in Hk by exact Hl|rewrite nth_error_app2 in Hk by exact Hl].
    + (* in c1: the entry after c1 is the head of s2, or b *)
      destruct s2 as [|y s2]; cbn [entry_ok] in E2.
      * destruct c2; [|discriminate]. cbn [length] in Hexit. rewrite Nat.add_0_r in Hexit.
        exact (K1 T b Ha1 Hexit (astate_sub_trans _ _ _ E2 Hsub) Hext k i Hk).
      * pose proof (Ha2 0 y eq_refl) as Hm. rewrite Nat.add_0_r in Hm.
        exact (K1 T y Ha1 Hm E2 Hext k i Hk).
    + replace (p + k) with (p + length c1 + (k - length c1)) by lia.
      exact (K2 T b Ha2 Hexit Hsub Hext _ i Hk).
Qed.

(* a label that names the junction of a sequence is resolved by the sequence: its table entry is the
   first of the second part, or what follows the whole when that part is empty *)
Lemma F_junction p c1 s1 a0 a1 c2 s2 a2 al t ext :
  Frag p c1 s1 a0 a1 ((t, al) :: ext) -> Frag t c2 s2 a1 a2 ((t, al) :: ext) -> t = p + length c1 ->
  astate_sub al a1 = true -> Frag p (c1 ++ c2) (s1 ++ s2) a0 a2 ext.
Proof.
  intros F1 F2 Ht Hs. destruct (F_seq _ _ _ _ _ _ _ _ _ _ F1 F2 Ht) as (L & E & K).
  split; [exact L|split; [exact E|]]. intros T b Hag Hexit Hsub Hext. apply (K T b Hag Hexit Hsub).
  intros t' a [H|Hin]; [injection H as <- <-|exact (Hext _ _ Hin)].
  destruct F1 as (L1 & _), F2 as (L2 & E2 & _). destruct s2 as [|y s2]; cbn [entry_ok] in E2.
  - exists b. destruct c2; [|discriminate]. rewrite app_nil_r, <- Ht in Hexit.
    split; [exact Hexit|exact (astate_sub_trans _ _ _ Hs (astate_sub_trans _ _ _ E2 Hsub))].
  - exists y. split; [|exact (astate_sub_trans _ _ _ Hs E2)].
    rewrite Ht, <- L1. apply Hag. rewrite nth_error_app2, Nat.sub_diag by lia. reflexivity.
Qed.

Lemma F_weaken p c sg a0 a1 ext ext' : Frag p c sg a0 a1 ext -> incl ext ext' -> Frag p c sg a0 a1 ext'.
Proof.
  intros (L & E & K) Hi. split; [exact L|split; [exact E|]]. intros T b Hag Hexit Hsub Hext.
  apply (K T b Hag Hexit Hsub). intros t a Hin. exact (Hext t a (Hi _ Hin)).
Qed.

Lemma F_entry_weaken p c sg a0 a0' a1 ext :
  Frag p c sg a0 a1 ext -> astate_sub a0' a0 = true -> Frag p c sg a0' a1 ext.
Proof.
  intros (L & E & K) Hs. split; [exact L|split; [|exact K]].
  destruct sg; cbn in *; exact (astate_sub_trans _ _ _ Hs E).
Qed.

Lemma F_exit_weaken p c sg a0 a1 a1' ext :
  Frag p c sg a0 a1 ext -> astate_sub a1 a1' = true -> Frag p c sg a0 a1' ext.
Proof.
  intros (L & E & K) Hs. split; [exact L|split].
  - destruct sg; cbn in *; [exact (astate_sub_trans _ _ _ E Hs)|exact E].
  - intros T b Hag Hexit Hsub Hext. exact (K T b Hag Hexit (astate_sub_trans _ _ _ Hs Hsub) Hext).
Qed.

Theorem Frag_check_table code sg :
  Frag 0 code sg a_empty a_empty [] ->
  check_table code a_empty (map Some (sg ++ [a_empty])) = true.
Proof.
  intros (L & E & K). unfold check_table.
  assert (Hget : forall k a, nth_error (sg ++ [a_empty]) k = Some a ->
                 nth_error (map Some (sg ++ [a_empty])) k = Some (Some a)).
  { intros k a H. rewrite nth_error_map, H. reflexivity. }
  assert (Hexit : nth_error (map Some (sg ++ [a_empty])) (length code) = Some (Some a_empty)).
  { apply Hget. rewrite nth_error_app2 by lia. rewrite L, Nat.sub_diag. reflexivity. }
  rewrite map_length, app_length, L. cbn [length]. replace (length code + 1) with (S (length code)) by lia.
  rewrite Nat.eqb_refl. cbn [andb].
  assert (H0 : exists a, nth_error (map Some (sg ++ [a_empty])) 0 = Some (Some a) /\ astate_sub a_empty a = true).
  { destruct sg as [|x sg]; cbn in *; eauto. }
  destruct H0 as (a & Ha & Hs). rewrite Ha, Hs, Hexit, astate_sub_refl. cbn [andb]. rewrite andb_true_r.
  apply all_from_intro. intros k i Hk. cbn [Nat.add].
  apply (K _ a_empty); [|exact Hexit|apply astate_sub_refl|intros t x []|exact Hk].
  intros j x Hj. cbn [Nat.add]. apply Hget. rewrite nth_error_app1; [exact Hj|]. apply nth_error_Some. congruence.
Qed.
