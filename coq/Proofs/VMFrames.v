(* What the soundness proof of the stack validator (StackCheckProofs, StackBuild), the autoescape
   invariant (AutoescapeProofs) and the simulation proof of the fusion pass (OptWorldBase,
   OptWorldProofs) share about Model/VM.v and Model/StackCheck.v: the end_ip of a loop frame under
   the frame updates, the slots a map literal with spreads takes (need_map), what astate_sub and
   check_table establish (`all2_Forall2` carries a typing of the stacks along astate_sub), and the
   tactic `crack` that splits a successful astep. *)
From TeraV Require Import Model.Value Model.Instr Model.VM Model.StackCheck.
From TeraV Require Export Proofs.VMProofs.
Local Open Scope nat_scope.

Lemma end_store_local f n : lf_end_ip (lf_store_local f n) = lf_end_ip f.
Proof. unfold lf_store_local. destruct (lf_key_name f), (lf_value_name f); reflexivity. Qed.

Lemma end_advance f e : lf_end_ip (lf_advance f e) = e.
Proof. unfold lf_advance. destruct (lf_rest f); reflexivity. Qed.

Lemma need_map_app a b : need_map (a ++ b) = need_map a + need_map b.
Proof. induction a as [|x a IH]; cbn; [reflexivity|]. unfold need_map in *. cbn. rewrite IH. lia. Qed.

Lemma need_map_rev fl : need_map (rev fl) = need_map fl.
Proof. induction fl as [|x fl IH]; [reflexivity|]. cbn [rev]. rewrite need_map_app, IH. unfold need_map. cbn. lia. Qed.

Lemma lp_sub_spec a b : lp_sub a b = true -> b = None \/ a = b.
Proof.
  destruct b as [t|]; [|left; reflexivity]. destruct a as [t'|]; [|discriminate].
  intros H. apply Nat.eqb_eq in H. right. congruence.
Qed.

Lemma all2_Forall2 {A B} (R : B -> A -> Prop) (f : A -> A -> bool) :
  (forall x a b, f a b = true -> R x a -> R x b) ->
  forall xs l l', Forall2 R xs l -> all2 f l l' = true -> Forall2 R xs l'.
Proof.
  intros Hf xs l l' H. revert l'. induction H as [|x a xs l Hx _ IH]; intros l' Ha.
  - destruct l'; [constructor|discriminate].
  - destruct l' as [|b l']; [discriminate|]. cbn in Ha. apply andb_prop in Ha. destruct Ha as [H1 H2].
    constructor; [exact (Hf _ _ _ H1 Hx)|exact (IH _ H2)].
Qed.

Lemma astate_sub_spec a b : astate_sub a b = true ->
  all2 ty_sub (a_stack a) (a_stack b) = true /\ all2 lp_sub (a_loops a) (a_loops b) = true /\
  a_caps a = a_caps b.
Proof.
  unfold astate_sub. intros H. apply andb_prop in H. destruct H as [H H3].
  apply andb_prop in H. destruct H as [H1 H2]. apply Nat.eqb_eq in H3. auto.
Qed.

Lemma check_table_spec c a0 tbl : check_table c a0 tbl = true ->
  length tbl = S (length c) /\
  (exists a, nth_error tbl 0 = Some (Some a) /\ astate_sub a0 a = true) /\
  (forall ip i, nth_error c ip = Some i -> instr_ok tbl ip i = true) /\
  (forall a, nth_error tbl (length c) = Some (Some a) -> astate_sub a a_empty = true).
Proof.
  assert (Hall : forall c ip0 ip i,
            all_from tbl ip0 c = true -> nth_error c ip = Some i -> instr_ok tbl (ip0 + ip) i = true).
  { clear c. induction c as [|x c IH]; intros ip0 ip i H N; [destruct ip; discriminate|].
    cbn [all_from] in H. apply andb_prop in H. destruct H as [H1 H2].
    destruct ip as [|ip]; cbn in N.
    - injection N as <-. rewrite Nat.add_0_r. exact H1.
    - replace (ip0 + S ip) with (S ip0 + ip) by lia. exact (IH _ _ _ H2 N). }
  unfold check_table. intros H.
  apply andb_prop in H. destruct H as [H H4]. apply andb_prop in H. destruct H as [H H3].
  apply andb_prop in H. destruct H as [H1 H2]. apply Nat.eqb_eq in H1.
  split; [exact H1|split; [|split]].
  - destruct (nth_error tbl 0) as [[a|]|]; try discriminate. exists a. auto.
  - intros ip i N. exact (Hall c 0 ip i H3 N).
  - intros a E. rewrite E in H4. exact H4.
Qed.

(* splits a hypothesis `match .. with .. end = Some _` (an astep that succeeded) along the
   matches that decide it *)
Ltac crack A := repeat (match type of A with
  | match (match ?x with _ => _ end) with _ => _ end = Some _ => destruct x
  | match ?x with _ => _ end = Some _ => destruct x
  end; cbn in A; try discriminate A).
