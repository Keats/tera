(* Proofs about printing (C19, Model/Format.v): the key order is a strict total order on distinct
   keys, the entry list a map is printed from does not depend on the internal order of its entries,
   printing a canonicalised value changes nothing, integers print as their decimal numeral.
   Format.v has its own key order (fkey_cmp) and insertion sort (ksort), written from key.rs apart
   from Model/Order.v.  Both port the same Key::cmp: fkey_cmp is OrderProofs.nkey_cmp on
   Order.key_norm of the keys (fkey_cmp_norm, by computation), and ksort is OrderProofs.gsort by
   that comparison (ksort_gsort).  The laws of the order and of the sort are carried along the two. *)
From TeraV Require Import Model.Value Model.Format Proofs.ValueFacts.
From TeraV Require Model.Order Proofs.OrderProofs.
From Coq Require Import Permutation Sorted Decimal DecimalPos.

Lemma fkey_cmp_norm a b : fkey_cmp a b = OrderProofs.nkey_cmp (Order.key_norm a) (Order.key_norm b).
Proof. destruct a, b; reflexivity. Qed.

Lemma fkey_cmp_refl : forall k, fkey_cmp k k = Eq.
Proof. intro k. rewrite fkey_cmp_norm. apply OrderProofs.nkey_cmp_refl. Qed.

Lemma fkey_cmp_opp : forall a b, fkey_cmp b a = CompOpp (fkey_cmp a b).
Proof. intros a b. rewrite !fkey_cmp_norm. apply OrderProofs.nkey_cmp_opp. Qed.

Lemma fkey_cmp_trans : forall a b c, fkey_cmp a b = Lt -> fkey_cmp b c = Lt -> fkey_cmp a c = Lt.
Proof. intros a b c. rewrite !fkey_cmp_norm. apply OrderProofs.nkey_lt_trans. Qed.

Definition klt {A} (a b : key * A) : Prop := fkey_cmp (fst a) (fst b) = Lt.
Definition kle {A} (a b : key * A) : Prop := fkey_cmp (fst a) (fst b) <> Gt.

Definition kcmp {A} (a b : key * A) : comparison := fkey_cmp (fst a) (fst b).

(* not by conversion: Format.kinsert takes its type argument inside the fix, ginsert outside *)
Lemma ksort_gsort {A} (l : list (key * A)) : ksort l = OrderProofs.gsort kcmp l.
Proof.
  induction l as [|e l IH]; [reflexivity|]. cbn. fold (ksort l) (OrderProofs.gsort (@kcmp A) l). rewrite IH.
  generalize (OrderProofs.gsort kcmp l) as s. induction s as [|h t IHs]; [reflexivity|].
  cbn. unfold kcmp at 1. destruct (fkey_cmp (fst e) (fst h)); try reflexivity. rewrite IHs. reflexivity.
Qed.

Lemma ksort_perm : forall {A} (l : list (key * A)), Permutation (ksort l) l.
Proof. intros A l. rewrite ksort_gsort. apply OrderProofs.gsort_perm. Qed.

Lemma ksort_sorted : forall {A} (l : list (key * A)), Sorted kle (ksort l).
Proof.
  intros A l. rewrite ksort_gsort. apply StronglySorted_Sorted.
  (* no well-formedness predicate: the laws of fkey_cmp hold of all keys *)
  apply (OrderProofs.gsort_sorted kcmp (fun _ => True)); [| |apply Forall_forall; trivial].
  - intros x y _ _. apply fkey_cmp_opp.
  - intros x y z _ _ _. unfold kcmp. rewrite !fkey_cmp_norm. apply OrderProofs.nkey_cmp_tr.
Qed.

Lemma ksort_id : forall {A} (l : list (key * A)), Sorted kle l -> ksort l = l.
Proof. intros A l. rewrite ksort_gsort. apply OrderProofs.gsort_id. Qed.

Lemma ksort_map : forall {A B} (f : key * A -> key * B) l,
  (forall x, fst (f x) = fst x) -> ksort (map f l) = map f (ksort l).
Proof.
  intros A B f l Hf. rewrite !ksort_gsort. apply OrderProofs.gsort_map.
  intros x y. unfold kcmp. rewrite !Hf. reflexivity.
Qed.

Inductive kdistinct {A} : list (key * A) -> Prop :=
| KD_nil : kdistinct []
| KD_cons e l : Forall (fun b => fkey_cmp (fst e) (fst b) <> Eq) l -> kdistinct l -> kdistinct (e :: l).

Lemma kdistinct_perm : forall {A} (l l' : list (key * A)), Permutation l l' -> kdistinct l -> kdistinct l'.
Proof.
  intros A l l' HP. induction HP as [|x l l' HP IH|x y l|l l' l'' _ IH1 _ IH2]; intro H.
  - constructor.
  - inversion H; subst. constructor; [eapply Permutation_Forall; eauto|auto].
  - inversion H as [|e1 l1 Hy Hrest]; subst. inversion Hrest as [|e2 l2 Hx Hl]; subst.
    inversion Hy as [|b1 l3 Hyx Hyl]; subst.
    constructor; [constructor; [|exact Hx]|constructor; assumption].
    intro E. apply Hyx. rewrite fkey_cmp_opp, E. reflexivity.
  - auto.
Qed.

Lemma kdistinct_map : forall {A B} (f : key * A -> key * B) l,
  (forall x, fst (f x) = fst x) -> kdistinct l -> kdistinct (map f l).
Proof.
  intros A B f l Hf H. induction H as [|e l Hne _ IH]; cbn; constructor; [|exact IH].
  apply Forall_map. eapply Forall_impl; [|exact Hne]. intro b. rewrite !Hf. auto.
Qed.

Lemma klt_irrefl : forall {A} (a : key * A), ~ klt a a.
Proof. intros A a H. unfold klt in H. rewrite fkey_cmp_refl in H. discriminate. Qed.

Lemma klt_trans : forall {A} (a b c : key * A), klt a b -> klt b c -> klt a c.
Proof. intros A a b c. apply fkey_cmp_trans. Qed.

Lemma sorted_distinct : forall {A} (l : list (key * A)), Sorted kle l -> kdistinct l -> StronglySorted klt l.
Proof.
  intros A l Hs Hd. apply Sorted_StronglySorted; [exact klt_trans|].
  induction Hs as [|a l _ IH Hhd]; [constructor|].
  inversion Hd as [|a' l' Hne Hd']; subst. constructor; [exact (IH Hd')|].
  destruct Hhd as [|b l Hab]; constructor. inversion Hne as [|b' l' Hneb _]; subst.
  unfold kle, klt in *. destruct (fkey_cmp (fst a) (fst b)); congruence.
Qed.

Lemma ksort_ssorted : forall {A} (l : list (key * A)), kdistinct l -> StronglySorted klt (ksort l).
Proof.
  intros A l Hd. apply sorted_distinct; [apply ksort_sorted|].
  eapply kdistinct_perm; [symmetry; apply ksort_perm|exact Hd].
Qed.

(* a strictly sorted list is determined by its elements: the heads are both the least element *)
Lemma ssorted_perm_unique : forall {A} (l l' : list (key * A)),
  StronglySorted klt l -> StronglySorted klt l' -> Permutation l l' -> l = l'.
Proof.
  intros A l l' Hs. revert l'. induction Hs as [|a l _ IH Hal]; intros l' Hs' HP.
  - symmetry. apply Permutation_nil, HP.
  - destruct Hs' as [|b l' Hsl' Hbl]; [apply Permutation_sym, Permutation_nil in HP; discriminate|].
    assert (a = b) as ->.
    { destruct (Permutation_in _ HP (in_eq a l)) as [Ha|Ha]; [auto|].
      destruct (Permutation_in _ (Permutation_sym HP) (in_eq b l')) as [Hb|Hb]; [auto|].
      rewrite Forall_forall in Hal, Hbl. destruct (klt_irrefl a).
      eapply klt_trans; [apply Hal; exact Hb|apply Hbl; exact Ha]. }
    f_equal. apply IH; [exact Hsl'|]. eapply Permutation_cons_inv, HP.
Qed.

Theorem ksort_perm_eq : forall {A} (l l' : list (key * A)),
  Permutation l l' -> kdistinct l -> ksort l = ksort l'.
Proof.
  intros A l l' HP Hd. apply ssorted_perm_unique.
  - apply ksort_ssorted. exact Hd.
  - apply ksort_ssorted. eapply kdistinct_perm; eauto.
  - rewrite !ksort_perm. exact HP.
Qed.

Section Printing.
  Variable ffmt : spec_float -> str.
  Variable sdbg : str -> str.
  Variable blossy : list N -> str.

  Let fmt := format ffmt sdbg blossy.
  (* how an element of an array / a value of a map is written *)
  Definition inner (x : value) : str := match x with VStr s _ => sdbg s | _ => fmt x end.
  Definition fmt_entry (e : key * str) : str := fmt_key sdbg (fst e) ++ s_colon ++ snd e.

  Lemma format_arr : forall l, fmt (VArr l) = [91%N] ++ join s_comma (map inner l) ++ [93%N].
  Proof. reflexivity. Qed.

  Lemma format_map_eq : forall m,
    fmt (VMap m) = [123%N] ++ join s_comma (map fmt_entry (ksort (map (fun e : key * value => (fst e, inner (snd e))) m))) ++ [125%N].
  Proof. reflexivity. Qed.

  Lemma inner_canon : forall x, fmt (canon x) = fmt x -> inner (canon x) = inner x.
  Proof. intros x H. destruct x; cbn in *; auto. Qed.

  (* sorting the entries of every map inside a value, at every depth, changes nothing *)
  Theorem format_canon : forall v, fmt (canon v) = fmt v.
  Proof.
    induction v as [| | | | | |l IH|m IH|] using value_ind'; try reflexivity; cbn [canon].
    - rewrite !format_arr. do 3 f_equal. rewrite map_map.
      apply map_ext_in. intros x Hx. apply inner_canon. rewrite Forall_forall in IH. auto.
    - rewrite !format_map_eq. do 4 f_equal.
      (* the entries are sorted twice, before and after their values are written *)
      rewrite ksort_map, (ksort_id _ (ksort_sorted _)), <- ksort_map by reflexivity.
      f_equal. rewrite map_map. apply map_ext_in. intros e He. cbn. f_equal.
      apply inner_canon. rewrite Forall_forall in IH. auto.
  Qed.

  Lemma format_int : forall r z, fmt (VInt r z) = dec z.
  Proof. reflexivity. Qed.
End Printing.

Lemma horner_cons : forall c d acc t, digit_val c = Some d -> horner acc (c :: t) = horner (10 * acc + d) t.
Proof. intros c d acc t H. cbn [horner]. rewrite H. reflexivity. Qed.

(* Pos.of_uint_acc is Horner's rule on a positive accumulator, one case per decimal digit; the
   accumulator is tied to [z] by an equation so that no arithmetic is done on numerals *)
Lemma horner_acc : forall u acc z, z = Z.pos acc ->
  horner z (str_of_uint u) = Some (Z.pos (Pos.of_uint_acc u acc)).
Proof.
  induction u; intros acc z Hz; cbn [str_of_uint Pos.of_uint_acc]; [subst; reflexivity|..];
    erewrite horner_cons by reflexivity; apply IHu; lia.
Qed.

(* Pos.of_uint skips leading zeros and starts the accumulator at the first other digit *)
Lemma horner_uint : forall u, horner 0 (str_of_uint u) = Some (Z.of_N (Pos.of_uint u)).
Proof.
  induction u; cbn [str_of_uint Pos.of_uint]; [reflexivity|exact IHu|..];
    erewrite horner_cons by reflexivity; apply horner_acc; reflexivity.
Qed.

Lemma horner_pos : forall p, horner 0 (str_of_uint (Pos.to_uint p)) = Some (Z.pos p).
Proof. intro p. rewrite horner_uint, DecimalPos.Unsigned.of_to. reflexivity. Qed.

Lemma parse_dec_uint : forall u,
  parse_dec (str_of_uint u) = match u with Nil => None | _ => horner 0 (str_of_uint u) end.
Proof. destruct u; reflexivity. Qed.

(* what is printed for an integer, read as a decimal numeral, is that integer *)
Theorem parse_dec_dec : forall z, parse_dec (dec z) = Some z.
Proof.
  intro z. unfold dec. destruct z as [|p|p]; cbn [Z.to_int str_of_int]; [reflexivity| |];
    pose proof (horner_pos p) as Hh.
  - rewrite parse_dec_uint. destruct (Pos.to_uint p); [discriminate Hh|exact Hh..].
  - destruct (str_of_uint (Pos.to_uint p)); [discriminate Hh|].
    cbn [parse_dec]. rewrite Hh. reflexivity.
Qed.
