(* C06 — what the limits of the modelled parser (Model/ParseDepth.v) guarantee.
   Nesting beyond a limit is the error outcome, never "ok".  Local form: at the point of each
   check, a counter at its limit gives RErr whatever the remaining tokens are.  Family form:
   `{{ (((…` with enough parentheses is never accepted, whatever follows.
   Without an elif limit an accepted chain of elifs reaches any native depth.
   With both repair limits present, the depth of an accepted AST is bounded by the limits alone. *)
From Coq Require Import List Arith Bool ZArith Lia.
From TeraV Require Import Model.ParseDepth Proofs.ParseDepthEqs.
Import ListNotations.
Local Open Scope nat_scope.

Definition nok {A} (r : res A) : Prop := match r with ROk _ _ => False | _ => True end.

(* the shape of every limit test of the parser, x the counter before its increment *)
Lemma at_limit : forall lim x, lim <= x -> (lim <? S x) = true.
Proof. intros lim x H. apply Nat.ltb_lt, Nat.lt_succ_r, H. Qed.

Section Limits.
Variable C : cfg.

Lemma counted_at_limit : forall A (m : M A) s, c_max_rd C <= rd s -> counted C m s = RErr s.
Proof.
  intros A m s H. unfold counted. cbn [rd set_rd].
  rewrite (at_limit _ _ H). reflexivity.
Qed.

Lemma ipe_at_limit : forall f bp s,
  c_max_rd C <= rd s -> inner_parse_expression C (S f) bp s = RErr s.
Proof. intros f bp s H. step_of C f (C_inner_parse_expression bp). apply counted_at_limit, H. Qed.

Lemma until_at_limit : forall f endp s,
  c_max_rd C <= rd s -> parse_until C (S f) endp s = RErr s.
Proof. intros f endp s H. step_of C f (C_parse_until endp). apply counted_at_limit, H. Qed.

Lemma array_at_limit : forall f s,
  c_max_ad C <= ad s -> parse_array C (S f) s = RErr (set_ad (S (ad s)) s).
Proof.
  intros f s H. step_of C f C_parse_array. unfold bind, get, upd. cbn [ad set_ad].
  rewrite (at_limit _ _ H). reflexivity.
Qed.

Lemma subscript_at_limit : forall f e s r,
  toks s = TLBracket :: r -> c_max_nb C <= nb s ->
  parse_subscript C (S f) e s = RErr (set_nb (S (nb s)) (set_toks r s)).
Proof.
  intros f e s r Ht H. step_of C f (C_parse_subscript e).
  unfold expect_tok, expect, bind, next_or_error, get, upd. rewrite Ht. cbn [tok_eqb ret nb set_toks set_nb].
  rewrite (at_limit _ _ H). reflexivity.
Qed.

Lemma elif_at_limit : forall A (m : M A) lim s,
  c_elif_limit C = Some lim -> lim <= el s -> elif_counted C m s = RErr (set_el (S (el s)) s).
Proof.
  intros A m lim s HL H. unfold elif_counted. rewrite HL. cbn [el set_el].
  rewrite (at_limit _ _ H). reflexivity.
Qed.

Lemma bump_at_limit : forall lim s,
  c_expr_limit C = Some lim -> lim <= ht s -> bump C s = RErr s.
Proof.
  intros lim s HL H. unfold bump. rewrite HL.
  rewrite (at_limit _ _ H). reflexivity.
Qed.

(* consecutive unary operators are rejected without any recursion (parser.rs:717-729) *)
Lemma unary_unary_rejected : forall f bp s r t u,
  toks s = t :: u :: r ->
  (t = TMinus \/ t = TWord WNot) -> (u = TMinus \/ u = TWord WNot) ->
  parse_expr_bp C (S f) bp s = RErr (set_toks (u :: r) s).
Proof.
  intros f bp s r t u Ht Ht1 Ht2. destruct s. cbn in Ht. subst.
  (* `body` stays folded: the run on the two tokens is a conversion *)
  change (parse_expr_bp C (S f) bp) with (run C (S f) (C_parse_expr_bp bp)). rewrite run_S.
  destruct Ht1 as [-> | ->], Ht2 as [-> | ->]; reflexivity.
Qed.

Lemma nok_bind : forall A B (m : M A) (k : A -> M B) s, nok (m s) -> nok (bind m k s).
Proof. intros A B m k s H. unfold bind. destruct (m s); simpl in *; tauto. Qed.
Lemma nok_call : forall A (m : M A) s, nok (m (enter s)) -> nok (call m s).
Proof. intros A m s H. unfold call. destruct (m (enter s)); simpl in *; tauto. Qed.
Lemma nok_sub_height : forall A (m : M A) s, nok (m (set_ht 0 s)) -> nok (sub_height m s).
Proof. intros A m s H. unfold sub_height. destruct (m (set_ht 0 s)); simpl in *; tauto. Qed.
Lemma nok_counted : forall A (m : M A) s, nok (m (set_rd (S (rd s)) s)) -> nok (counted C m s).
Proof.
  intros A m s H. unfold counted. cbn [rd set_rd].
  destruct (c_max_rd C <? S (rd s)); [exact I|].
  destruct (m (set_rd (S (rd s)) s)); simpl in *; tauto.
Qed.

Lemma nok_next : forall B (k : tok -> M B) s t r,
  toks s = t :: r -> nok (k t (set_toks r s)) -> nok (bind next_or_error k s).
Proof. intros B k s t r Ht H. unfold bind, next_or_error. rewrite Ht. now destruct t. Qed.

Lemma parens_not_ok : forall n fuel bp s rest,
  toks s = repeat TLParen n ++ rest -> c_max_rd C <= rd s + n ->
  nok (inner_parse_expression C fuel bp s).
Proof.
  induction n as [|n IH]; intros fuel bp s rest Ht Hrd.
  - destruct fuel as [|f]; [exact I|]. rewrite ipe_at_limit by lia. exact I.
  - destruct fuel as [|f]; [exact I|].
    step_of C f (C_inner_parse_expression bp). apply nok_counted, nok_sub_height, nok_call.
    destruct f as [|f]; [exact I|].
    step_of C f (C_parse_expr_bp bp). eapply nok_next; [exact Ht|].
    apply nok_bind, nok_bind, nok_call.
    apply IH with (rest := rest).
    + reflexivity.
    + cbn [rd enter set_toks set_ht set_rd]. lia.
Qed.

Theorem parens_beyond_limit_rejected : forall n fuel rest,
  c_max_rd C <= n + 1 ->
  nok (parse C fuel (TVarStart :: repeat TLParen n ++ rest)).
Proof.
  intros n fuel rest H. unfold parse. apply nok_call, nok_call.
  destruct fuel as [|f]; [exact I|].
  step_of C f (C_parse_until (fun _ => false)). apply nok_counted, nok_call.
  destruct f as [|f]; [exact I|].
  step_of C f (C_until_loop (fun _ => false) []). unfold bind at 1. unfold peek at 1. cbn [toks enter set_rd init hd_error].
  eapply nok_next; [reflexivity|]. apply nok_bind, nok_call.
  destruct f as [|f]; [exact I|].
  step_of C f (C_parse_expression 0). apply nok_call.
  apply parens_not_ok with (n := n) (rest := rest).
  - reflexivity.
  - cbn [rd enter set_toks set_rd init]. lia.
Qed.

Definition if_open : list tok := [TTagStart; TWord WIf; TWord (WId 0); TTagEnd].

End Limits.

(* D11 a: parse_if recurses once per elif, in a frame of its own that nothing counts *)
Definition elif : list tok := [TTagStart; TWord WElif; TWord (WId 0); TTagEnd].

(* One level of an elif chain, from the body of parse_if on explicit tokens to its recursive call:
   the components on the way (the condition, the branch up to the next tag) are opened for this one
   evaluation, parse_if stays opaque and stops it, the depth arithmetic is left standing for lia.
   A whole chain evaluated at once is quadratic under coqchk, which has no VM: every `enter` takes
   `Nat.max (peak s) (S (native s))` on unary numbers as large as the depth.  Level by level no
   maximum is ever computed. *)
Ltac eval_level :=
  with_strategy transparent [inner_parse_expression parse_expression parse_expr_bp bp_loop parse_ident ident_loop
                             parse_until until_loop]
    lazy - [Nat.max Nat.add app concat repeat].

(* `rd s = 1`, the depth of a top-level tag, where `rd s < c_max_rd C` would be natural: eval_level needs
   the two recursion_depth tests of the level decided (past a stuck test lazy normalises every branch
   of every opened component).  For the same reason the proof first takes C apart, to
   c_max_rd C = S (S k).
   Fuel: a component runs the components it names with one unit less.  The condition needs 6
   (parse_if, parse_expression, inner_parse_expression, parse_expr_bp, parse_ident, ident_loop), every
   elif one more parse_if; the 9 of elif_chain_deep adds parse_until, until_loop and parse_tag above
   the first parse_if. *)
Lemma elif_level : forall C n f s rest,
  c_elif_limit C = None -> 1 < c_max_rd C -> rd s = 1 ->
  toks s = TWord (WId 0) :: TTagEnd :: concat (repeat elif n) ++ TTagStart :: TWord WEndif :: rest ->
  match run C (6 + n + f) C_parse_if s with
  | ROk _ s' => toks s' = TWord WEndif :: rest /\ native s + n <= peak s'
  | _ => False
  end.
Proof.
  intros [[|[|k]] ma mb ce cl] n f s rest HL Hm; cbn in HL, Hm; try lia; subst cl. revert f s rest.
  induction n as [|n IH]; intros f [tk r a b h e cs bs nv pk] rest Hr Ht; cbn in Ht, Hr; subst tk r;
    cbn [Nat.add]; rewrite run_S; eval_level.
  - split; [reflexivity | lia].
  - match goal with |- context [parse_if _ _ ?s] => specialize (IH f s rest eq_refl eq_refl) end.
    cbn [Nat.add run] in IH. destruct (parse_if _ _ _) as [t []| | |]; try contradiction.
    simpl in IH. eval_level. intuition lia.
Qed.

Theorem elif_chain_deep : forall C n fuel b,
  c_elif_limit C = None -> 1 < c_max_rd C -> b < n -> 9 + n <= fuel ->
  match parse C fuel (if_open ++ concat (repeat elif n) ++ [TTagStart; TWord WEndif; TTagEnd]) with
  | ROk _ s => b < peak s
  | _ => False
  end.
Proof.
  intros C n fuel b HL Hm Hb Hf. destruct (Nat.le_exists_sub _ _ Hf) as (f & -> & _). rewrite Nat.add_comm.
  unfold parse. change (parse_until C ?g ?e) with (run C g (C_parse_until e)).
  assert (H1 : (c_max_rd C <? 1) = false) by (apply Nat.ltb_ge; lia).
  cbn [Nat.add if_open app].
  (* parse_until, until_loop, parse_tag *)
  do 3 (rewrite run_S; lazy - [Nat.ltb Nat.max Nat.add app concat repeat run c_max_rd]; rewrite ?H1).
  match goal with |- context [run _ _ C_parse_if ?s] =>
    pose proof (elif_level C n f s [TTagEnd] HL Hm eq_refl eq_refl) as H end.
  cbn [Nat.add] in H. destruct (run _ _ C_parse_if _) as [t []| | |]; try contradiction.
  simpl in H. destruct H as [-> H].
  lazy - [Nat.max Nat.add run]. rewrite run_S; lazy - [Nat.max Nat.add]. lia.
Qed.

(* The depth of the AST.  Only accepted runs matter.  An accepted run of a component restores
   the counters and lets the height `ht` of its level only grow, never beyond E + the nesting
   budget left (TR).  What a run returns is measured against a quantity W that only grows along
   TR: in an expression the height of the level, which covers everything below the root of the
   tree being built (the root itself is the + 1 that the next bump, or the enclosing level, pays
   for); in a statement the depth XB still allowed for a node list, which loses one with every
   tag or elif level entered. *)

Definition under (t : tree) : nat := pred (ast_depth t).

Lemma ast_depth_S t : ast_depth t = S (under t).
Proof. destruct t. reflexivity. Qed.
Lemma under_T k cs : under (T k cs) = depth_list cs.
Proof.
  unfold under. simpl.
  induction cs as [|c r IH]; simpl; [reflexivity | rewrite IH; reflexivity].
Qed.
Lemma depth_list_app a b : depth_list (a ++ b) = Nat.max (depth_list a) (depth_list b).
Proof. induction a as [|x a IH]; simpl; [reflexivity | rewrite IH; lia]. Qed.
Lemma depth_list_cons x a : depth_list (x :: a) = Nat.max (ast_depth x) (depth_list a).
Proof. reflexivity. Qed.
Lemma depth_list_nil : depth_list [] = 0. Proof. reflexivity. Qed.
#[local] Hint Rewrite depth_list_app depth_list_cons depth_list_nil ast_depth_S under_T Nat.max_0_r : depth.

Section Ast.
Variable C : cfg.
Variables E L : nat.
Hypothesis HE : c_expr_limit C = Some E.
Hypothesis HL : c_elif_limit C = Some L.

Local Notation MAXR := (c_max_rd C).
Local Notation ED := (E + MAXR).
(* the height a level may reach at nesting depth r *)
Definition hb (r : nat) : nat := E + (MAXR - r).
(* the depth a list of nodes may reach at nesting depth r, elif depth e: a statement adds one per
   level of tags or elif, an expression in it at most ED + 1 *)
Definition XB (r e : nat) : nat := ED + 2 + (MAXR - r) + (L - e).

Lemma hb_S r : S r <= MAXR -> hb r = S (hb (S r)).
Proof. unfold hb. lia. Qed.
Lemma hb_ED r : E <= hb r <= ED.
Proof. unfold hb. lia. Qed.
Lemma XB_S r e : S r <= MAXR -> XB r e = S (XB (S r) e).
Proof. unfold XB. lia. Qed.
Lemma XB_elif r e : S e <= L -> XB r e = S (XB r (S e)).
Proof. unfold XB. lia. Qed.
Lemma XB_ED r e : ED + 2 <= XB r e.
Proof. unfold XB. lia. Qed.

Definition TR (s s' : st) : Prop :=
  rd s' = rd s /\ el s' = el s /\ ht s <= ht s' /\ ht s' <= Nat.max (ht s) (hb (rd s)).

Inductive level := Expr | Stmt.
Definition W (lv : level) (s : st) : nat := match lv with Expr => ht s | Stmt => XB (rd s) (el s) end.

Ltac tr_open := unfold TR, W in *; cbn [rd el ht set_rd set_ht set_el] in *.

Lemma TR_keeps s s' : rd s' = rd s -> el s' = el s -> ht s' = ht s -> TR s s'.
Proof. intros R1 E1 H1. tr_open. lia. Qed.
Lemma TR_trans s1 s2 s3 : TR s1 s2 -> TR s2 s3 -> TR s1 s3.
Proof. intros (R1 & E1 & T1) (R2 & E2 & T2). rewrite R1 in T2. tr_open. lia. Qed.
Lemma TR_W lv s s' : TR s s' -> W lv s <= W lv s'.
Proof. intros (R1 & E1 & T1). destruct lv; tr_open; [ | rewrite R1, E1 ]; lia. Qed.
Lemma TR_ED s s' : TR s s' -> ht s <= ED -> ht s' <= ED.
Proof. intros (_ & _ & T1) HI. pose proof (hb_ED (rd s)). lia. Qed.

(* d: the measure of what has been built so far; g: that of the result *)
Definition oks {A} (lv : level) (d : nat) (m : M A) (g : A -> nat) : Prop :=
  forall s a s', m s = ROk a s' -> ht s <= ED -> d <= W lv s -> TR s s' /\ g a <= W lv s'.

Lemma oks_ret A lv d (a : A) g : g a <= d -> oks lv d (ret a) g.
Proof.
  intros Hg s b s' H _ Hd. inversion H. subst.
  split; [apply TR_keeps; reflexivity | exact (Nat.le_trans _ _ _ Hg Hd)].
Qed.
Lemma oks_none A lv d (m : M A) g : (forall s a s', m s <> ROk a s') -> oks lv d m g.
Proof. intros Hm s a s' H. destruct (Hm _ _ _ H). Qed.
Lemma oks_err A lv d g : oks lv d (@err A) g.
Proof. apply oks_none. discriminate. Qed.

Lemma oks_silent A lv d (m : M A) : silent m -> oks lv d m (fun _ => 0).
Proof.
  intros Hm s a s' H _ _. specialize (Hm s). rewrite H in Hm. destruct Hm as (_ & H1 & H2 & H3 & _).
  split; [apply TR_keeps; assumption | apply Nat.le_0_l].
Qed.
Lemma oks_next lv d : oks lv d next_or_error (fun _ => 0).
Proof.
  intros s t s' H _ _. unfold next_or_error in H. destruct (toks s) as [|u r]; [discriminate|].
  split; [destruct u; inversion H; apply TR_keeps; reflexivity | apply Nat.le_0_l].
Qed.

(* what was built before m is still covered after it, since W only grows *)
Lemma oks_bind {A B lv d} g {m : M A} {k : A -> M B} {h} :
  oks lv d m g -> (forall a, oks lv (Nat.max (g a) d) (k a) h) -> oks lv d (bind m k) h.
Proof.
  intros Hm Hk s b s2 H HI Hd. unfold bind in H.
  destruct (m s) as [a s1| | |] eqn:E1; try discriminate.
  destruct (Hm _ _ _ E1 HI Hd) as [T1 G1].
  destruct (Hk a _ _ _ H (TR_ED _ _ T1 HI)) as [T2 G2].
  - apply Nat.max_lub; [exact G1 | exact (Nat.le_trans _ _ _ Hd (TR_W lv _ _ T1))].
  - split; [exact (TR_trans _ _ _ T1 T2) | exact G2].
Qed.
Lemma oks_seq A B lv d (m : M A) (k : A -> M B) h :
  oks lv d m (fun _ => 0) -> (forall a, oks lv d (k a) h) -> oks lv d (bind m k) h.
Proof. apply (oks_bind (fun _ => 0)). Qed.

Lemma oks_expect lv d p : oks lv d (expect p) (fun _ => 0).
Proof. apply oks_seq; [apply oks_next|]. intro t. destruct (p t); [apply oks_ret, Nat.le_0_l | apply oks_err]. Qed.
Lemma oks_expect_ident lv d : oks lv d expect_ident (fun _ => 0).
Proof. apply oks_seq; [apply oks_next|]. intro t. destruct t; try apply oks_err. apply oks_ret, Nat.le_0_l. Qed.

Lemma oks_call A lv d (m : M A) g : oks lv d m g -> oks lv d (call m) g.
Proof.
  intros Hm s a s' H HI Hd. unfold call in H.
  destruct (m (enter s)) as [x s1| | |] eqn:E1; inversion H. subst. exact (Hm _ _ _ E1 HI Hd).
Qed.

Lemma oks_bump B d (k : unit -> M B) h : (forall u, oks Expr (S d) (k u) h) -> oks Expr d (bind (bump C) k) h.
Proof.
  intros Hk s b s' H HI Hd. unfold bind, bump in H. rewrite HE in H.
  destruct (E <? S (ht s)) eqn:Hc; [discriminate|]. apply Nat.ltb_ge in Hc.
  pose proof (hb_ED (rd s)). destruct (Hk _ _ _ _ H) as [T1 G1]; tr_open; lia.
Qed.

Lemma counted_ok A (m : M A) s a s' :
  counted C m s = ROk a s' ->
  S (rd s) <= MAXR /\ exists s1, m (set_rd (S (rd s)) s) = ROk a s1 /\ s' = set_rd (pred (rd s1)) s1.
Proof.
  intro H. unfold counted in H. cbn [rd set_rd] in H.
  destruct (MAXR <? S (rd s)) eqn:Hc; [discriminate|]. apply Nat.ltb_ge in Hc.
  destruct (m (set_rd (S (rd s)) s)) as [x s1| | |]; inversion H. split; [exact Hc | eauto].
Qed.

(* a sub-expression is a tree of its own, one nesting level further in: its height starts at 0,
   may reach hb of that level, and the finished tree (root included) then fits under hb of the
   caller's level *)
Lemma oks_sub A d (m : M A) g : oks Expr 0 m (fun a => pred (g a)) -> oks Expr d (counted C (sub_height m)) g.
Proof.
  intros Hm s a s' H HI Hd. apply counted_ok in H. destruct H as (Hc & s1 & H & ->).
  unfold sub_height in H. destruct (m _) as [x s2| | |] eqn:E1; inversion H. subst.
  destruct (Hm _ _ _ E1) as [T1 G1]; try apply Nat.le_0_l.
  tr_open. destruct T1 as (-> & E2 & T1). rewrite (hb_S _ Hc). lia.
Qed.
(* a nested statement list (or elif) has one unit of budget less, so one more node fits on top *)
Lemma oks_counted A d (m : M A) g : oks Stmt 0 m (fun a => pred (g a)) -> oks Stmt d (counted C m) g.
Proof.
  intros Hm s a s' H HI Hd. apply counted_ok in H. destruct H as (Hc & s1 & H & ->).
  destruct (Hm _ _ _ H HI (Nat.le_0_l _)) as [T1 G1].
  tr_open. destruct T1 as (R1 & E1 & T1). rewrite R1, E1 in *. rewrite (hb_S _ Hc), (XB_S _ _ Hc). lia.
Qed.
Lemma oks_elif A d (m : M A) g : oks Stmt 0 m (fun a => pred (g a)) -> oks Stmt d (elif_counted C m) g.
Proof.
  intros Hm s a s' H HI Hd. unfold elif_counted in H. rewrite HL in H. cbn [el set_el] in H.
  destruct (L <? S (el s)) eqn:Hc; [discriminate|]. apply Nat.ltb_ge in Hc.
  destruct (m _) as [x s1| | |] eqn:E1; inversion H. subst.
  destruct (Hm _ _ _ E1 HI (Nat.le_0_l _)) as [T1 G1].
  tr_open. destruct T1 as (R1 & E2 & T1). rewrite R1, E2 in *. rewrite (XB_elif _ _ Hc). lia.
Qed.
(* an expression inside a statement: its height stays within ED, two below XB *)
Lemma oks_lift {A d m} (g : A -> nat) {g'} : (forall a, g' a <= g a + 2) -> oks Expr 0 m g -> oks Stmt d m g'.
Proof.
  intros Hg Hm s a s' H HI Hd.
  destruct (Hm _ _ _ H HI (Nat.le_0_l _)) as [T1 G1]. split; [exact T1 | ].
  pose proof (TR_ED _ _ T1 HI). pose proof (XB_ED (rd s') (el s')). specialize (Hg a). tr_open. lia.
Qed.

(* inner_parse_expression and parse_expression return a finished tree, root included below the
   height of the caller's level; the other expression components return the tree under
   construction, whose root sticks out (parse_filter wraps its argument and leaves the bump to
   its caller: two stick out).  The accumulator of a loop is part of what has been built.
   until_loop and parse_tag run one level further in than the parse_until around them, hence
   one less *)
Definition lev (c : comp) : level :=
  match c with
  | C_parse_until _ | C_until_loop _ _ | C_parse_tag | C_parse_for_loop | C_parse_if | C_parse_set
  | C_set_filters_loop _ => Stmt
  | _ => Expr
  end.
(* what the component has been handed: the tree or list it goes on building *)
Definition built (c : comp) : nat :=
  match c with
  | C_bp_loop _ _ e | C_ident_loop e | C_parse_subscript e | C_parse_filter e => under e
  | C_kwargs_loop _ acc | C_map_loop _ acc | C_array_loop _ acc | C_set_filters_loop acc => depth_list acc
  | C_parse_list_comprehension e => ast_depth e
  | C_until_loop _ acc => pred (depth_list acc)
  | _ => 0
  end.
Definition meas (c : comp) : rty c -> nat :=
  match c with
  | C_inner_parse_expression _ | C_parse_expression _ => ast_depth
  | C_parse_filter _ => fun t => pred (under t)
  | C_parse_kwargs | C_kwargs_loop _ _ | C_parse_until _ | C_set_filters_loop _ => depth_list
  | C_until_loop _ _ | C_parse_tag => fun l => pred (depth_list l)
  | _ => under
  end.
Definition spec (c : comp) (m : M (rty c)) : Prop := forall d, built c <= d -> oks (lev c) d m (meas c).

(* so that a rule that does not fit fails at the head of the program instead of unfolding oks *)
Local Opaque oks.

Ltac arith :=
  first
  [ assumption | apply Nat.le_0_l
  | (* the bound on what was built joins the goal: autorewrite must bring both to the same form *)
    try match goal with H : _ <= _ |- _ => revert H end;
    try match goal with |- context [if ?b then _ else _] => destruct b end;
    cbn [opt_list app meas]; autorewrite with depth; lia ].

(* a component at the fuel below: its instance of the induction hypothesis; an expression component
   called from a statement is lifted *)
Ltac ih0 :=
  match goal with IH : forall c, spec c (?R c) |- oks _ _ (?R ?c) _ => apply (IH c); cbn [built]; arith end.
Ltac ih := first [ ih0 | eapply oks_lift; [ | ih0 ]; intro; apply Nat.le_add_r ].

(* branches that the token matches of a component repeat, proved once; `step` tries them first *)
Create HintDb branch.

(* one rule, chosen by the head of the program.  Only a step that returns a tree, a list of trees or
   an optional tree has a measure: from the specification of the component called or, for a
   compound step, from the type *)
Ltac step :=
  first [ solve [ eauto 2 with branch nocore ] | lazymatch goal with
  | |- oks _ _ (ret _) _ => apply oks_ret; arith
  | |- oks _ _ err _ => apply oks_err
  | |- oks _ _ panic _ => apply oks_none; discriminate
  | |- oks _ _ (call _) _ => apply oks_call
  | |- oks Expr _ (counted _ _) _ => apply oks_sub
  | |- oks Stmt _ (counted _ _) _ => apply oks_counted
  | |- oks _ _ (elif_counted _ _) _ => apply oks_elif
  | |- oks _ _ (match ?x with _ => _ end) _ => destruct x
  | |- oks _ _ (bind (bump _) _) _ => apply oks_bump; intro
  | |- oks _ _ (@bind ?A _ ?m _) _ =>
      let compound g :=
        lazymatch m with
        | match _ with _ => _ end => apply (oks_bind g)
        | bind _ _ => apply (oks_bind g)
        | _ => eapply oks_bind
        end in
      lazymatch eval cbn [rty] in A with
      | tree => compound under
      | list tree => compound depth_list
      | option tree => compound (fun o : option tree => depth_list (opt_list o))
      | _ => apply oks_seq
      end; [ | intro ]
  | |- oks _ _ next_or_error _ => apply oks_next
  | |- oks _ _ (expect_tok _) _ => apply oks_expect
  | |- oks _ _ expect_ident _ => apply oks_expect_ident
  | |- oks _ _ _ _ => first [ apply oks_silent; silent_prim | ih ]
  end ].

Lemma unary_arg R bp d : (forall c, spec c (R c)) ->
  oks Expr d (e <- call (R (C_inner_parse_expression bp)) ;; ret (T KUn [e])) under.
Proof. intro IH. repeat step. Qed.
Lemma some_expr R d : (forall c, spec c (R c)) ->
  oks Expr d (x <- call (R (C_parse_expression 0)) ;; ret (Some x)) (fun o => depth_list (opt_list o)).
Proof. intro IH. repeat step. Qed.
Lemma ul_tag R endp acc d : (forall c, spec c (R c)) -> pred (depth_list acc) <= d ->
  oks Stmt d (node <- call (R C_parse_tag) ;; expect_tok TTagEnd ;;; R (C_until_loop endp (acc ++ node)))
    (fun l => pred (depth_list l)).
Proof. intros IH Hp. repeat step. Qed.

(* the operator branch of bp_loop: the new node may stick out one above the level, the bump
   that follows pays for it *)
Lemma bpl_op R bp n lhs d tk : (forall c, spec c (R c)) -> under lhs <= d ->
  oks Expr d
    match binop_of tk with
    | None => ret lhs
    | Some (op, l_bp, r_bp) =>
        if l_bp <? bp then ret lhs else
        next_or_error ;;;
        negated' <- match op with
                    | BIs => isnot <- next_is (TWord WNot) ;;
                             if isnot then next_or_error ;;; ret true else ret n
                    | _ => ret n
                    end ;;
        lhs' <- match op with
                | BIs | BPipe => call (R (C_parse_filter lhs))
                | _ => rhs <- call (R (C_inner_parse_expression r_bp)) ;;
                       match op with
                       | BTilde => if is_unary rhs then err else ret (T KBin [lhs; rhs])
                       | _ => ret (T KBin [lhs; rhs])
                       end
                end ;;
        bump C ;;;
        lhs'' <- (if negated' then bump C ;;; ret (T KUn [lhs']) else ret lhs') ;;
        R (C_bp_loop bp false lhs'')
    end under.
Proof.
  intros IH Hp. destruct (binop_of tk) as [[[op l] r]|]; [|step].
  do 2 (step; [step|]).
  apply oks_seq; [destruct op; repeat step | intro neg].
  apply (oks_bind (fun t => pred (under t))); [destruct op; repeat step | intro lhs'].
  repeat step.
Qed.

#[local] Hint Resolve unary_arg some_expr ul_tag bpl_op : branch.

Lemma all_spec : forall f c, spec c (run C f c).
Proof.
  apply (block_ind C spec); [intros c d _; apply oks_none; discriminate|].
  intros R IH c d Hd. destruct c; cbn [body lev built meas rty] in *; cbv zeta; try solve [repeat step].
  (* set_filters_loop: a filter applied to a constant reaches at most two above the height of its
     level, which the statement level still covers *)
  do 2 step; [ | repeat step ]. step; [ step | ].
  apply (oks_bind ast_depth); [ | intro; step ].
  apply oks_call, (oks_lift (fun t => pred (under t))); [ intro; rewrite ast_depth_S; lia | ].
  apply (IH (C_parse_filter _)), Nat.le_0_l.
Qed.

Theorem ast_depth_bounded : forall fuel ts nodes s,
  parse C fuel ts = ROk nodes s -> depth_list nodes <= E + 2 * c_max_rd C + L + 2.
Proof.
  intros fuel ts nodes s H.
  assert (Hp : oks Stmt 0 (call (call (parse_until C fuel (fun _ => false)))) depth_list)
    by (do 2 apply oks_call; apply (all_spec fuel (C_parse_until _)), Nat.le_0_l).
  destruct (Hp _ _ _ H) as [(R1 & E1 & _) G1]; try apply Nat.le_0_l.
  unfold W, XB in G1. rewrite R1, E1 in G1. cbn [rd el init] in G1. lia.
Qed.

End Ast.
