(* One step of Model.VM.run, described once. What an instruction asks for is data with no fuel, no
   writer and no sink in it (`effect`): go on, jump or fail (`pure_res`); write a text; or run a chunk
   of some template from some state and go on from the callee's final state. `instr_effect` computes
   it, `perform` carries it out given the interpreter at the smaller fuel, and `run_step` says that
   `run (S f)` is the one after the other: an induction over `run` is a case split on the effect, and
   two runs that differ in the writer alone perform the same effect. All but the eight instructions
   of `is_effect` neither write nor start a nested run (`pure_step`).

   Model.StackCheck is imported for the constant `s_super` alone, which Model/VM.v writes as a
   literal: hence the `unfold s_super` where an arm of `run` is matched. *)
From TeraV Require Import Model.Value Model.Instr Model.Slice Model.VM Model.StackCheck Gen.Tables.
Local Open Scope nat_scope.

Inductive pure_res := PNext (s : state) | PGoto (t : nat) (s : state) | PFail (e : errc).

Definition is_unop (i : instr) : bool :=
  match i with
  | LoadAttr _ | LoadAttrOpt _ | Not | Negative => true
  | CallFunction n => negb (str_eqb n s_super)
  | _ => false
  end.

Definition is_binop (i : instr) : bool :=
  match i with
  | BinarySubscript | BinarySubscriptOpt | ApplyFilter _ | RunTest _ | AppendToList
  | Mul | Div | FloorDiv | Mod | Plus | Minus | Power
  | LessThan | GreaterThan | LessThanOrEqual | GreaterThanOrEqual | Equal | NotEqual
  | StrConcat | InOp => true
  | _ => false
  end.

Definition is_stackop (i : instr) : bool :=
  match i with
  | Slice | SliceOpt | BuildMap _ | BuildList _ | BuildMapWithSpreads _ | BuildListWithSpreads _ => true
  | _ => false
  end.

Definition is_effect (i : instr) : bool :=
  match i with
  | WriteText _ | WriteTop | WritePath _ | Include _ | RenderInlineComponent _ | RenderBodyComponent _
  | RenderBlock _ => true
  | CallFunction n => str_eqb n s_super
  | _ => false
  end.

Definition on_res {A} (r : res A) (k : A -> pure_res) : pure_res :=
  match r with ROk x => k x | RErr e => PFail e end.

(* the arm of `run (S f)` at instruction i: one unfolding, the recursive calls left folded *)
Definition run_arm W wr wd f tpl ae depth ch ip s o (i : instr) : rres W :=
  ltac:(let b := eval cbn [run] in (run W wr wd (S f) tpl ae depth ch ip s o) in
        lazymatch b with match _ with None => _ | Some j => @?k j end => exact (k i) end).

Lemma run_S W wr wd f tpl ae depth ch ip s o :
  run W wr wd (S f) tpl ae depth ch ip s o =
  match nth_error ch ip with None => RDone s o | Some i => run_arm W wr wd f tpl ae depth ch ip s o i end.
Proof. cbn [run]. reflexivity. Qed.

Section Step.
  Variable wd : world.

  (* `sc` is the scope of the state after the pop: what a function or filter may look at *)
  Definition unop (i : instr) (sc : scope) (v : value) : res value :=
    match i with
    | LoadAttr a | LoadAttrOpt a =>
        if (match i with LoadAttrOpt _ => true | _ => false end) && (is_undefined v || is_none v) then ROk VUndef
        else if is_undefined v then RErr ErrRender
        else ROk (match w_get_attr wd v a with Some x => x | None => VUndef end)
    | Not => ROk (VBool (negb (is_truthy v)))
    | Negative => match w_negate wd v with ROk b => ROk b | RErr _ => RErr ErrRender end
    | CallFunction name =>
        match kwargs_of v with
        | None => RErr ErrPanic
        | Some k =>
            match w_function wd name k sc with
            | None => RErr ErrPanic
            | Some (ROk r, safe) => ROk (if safe then mark_safe r else r)
            | Some (RErr _, _) => RErr ErrRender
            end
        end
    | _ => RErr ErrPanic
    end.

  (* b was on top *)
  Definition binop (i : instr) (sc : scope) (a b : value) : res value :=
    match i with
    | BinarySubscript => subscript wd false a b
    | BinarySubscriptOpt => subscript wd true a b
    | ApplyFilter name =>
        match kwargs_of b with
        | None => RErr ErrPanic
        | Some k =>
            match w_filter wd name a k sc with
            | None => RErr ErrPanic
            | Some (ROk r, safe) => ROk (if safe then mark_safe r else r)
            | Some (RErr _, _) => RErr ErrRender
            end
        end
    | RunTest name =>
        match kwargs_of b with
        | None => RErr ErrPanic
        | Some k =>
            match w_test wd name a k with
            | None => RErr ErrPanic
            | Some (ROk t) => ROk (VBool t)
            | Some (RErr _) => RErr ErrRender
            end
        end
    | AppendToList => match a with VArr l => ROk (VArr (l ++ [b])) | _ => RErr ErrPanic end
    | Mul | Div | FloorDiv | Mod | Minus | Power =>
        if negb (is_number a) then RErr ErrRender
        else if negb (is_number b) then RErr ErrRender
        else match w_math wd i a b with ROk c => ROk c | RErr _ => RErr ErrRender end
    | Plus =>
        if is_number a && is_number b
        then match w_math wd Plus a b with ROk c => ROk c | RErr _ => RErr ErrRender end
        else RErr ErrRender
    | LessThan | GreaterThan | LessThanOrEqual | GreaterThanOrEqual =>
        match w_cmp wd a b with Some c => ROk (VBool (ord_result i c)) | None => RErr ErrRender end
    | Equal => ROk (VBool (w_eq wd a b))
    | NotEqual => ROk (VBool (negb (w_eq wd a b)))
    | StrConcat =>
        ROk (VStr (match a, b with
                   | VStr x _, VStr y _ => x ++ y
                   | _, _ => w_format wd a ++ w_format wd b
                   end) false)
    | InOp => match w_contains wd b a with ROk t => ROk (VBool t) | RErr _ => RErr ErrRender end
    | _ => RErr ErrPanic
    end.

  Definition stackop (i : instr) (st : list value) : res (list value) :=
    match i with
    | Slice | SliceOpt =>
        match st with
        | step :: stop :: start :: val :: t =>
            match vm_slice (match i with SliceOpt => true | _ => false end) val start stop step with
            | ROk v => ROk (v :: t)
            | RErr e => RErr e
            end
        | _ => RErr ErrPanic
        end
    | BuildMap n =>
        match pop_n (2 * n) st [] with
        | None => RErr ErrPanic
        | Some (items, rest) =>
            match build_map_pairs wd items with
            | ROk pairs => ROk (VMap (map_of_pairs wd pairs) :: rest)
            | RErr e => RErr e
            end
        end
    | BuildList n =>
        match pop_n n st [] with
        | None => RErr ErrPanic
        | Some (items, rest) => ROk (VArr items :: rest)
        end
    | BuildMapWithSpreads flags =>
        match build_map_spreads wd (rev flags) st [] with
        | ROk (m, rest) => ROk (VMap m :: rest)
        | RErr e => RErr e
        end
    | BuildListWithSpreads flags =>
        match build_list_spreads (rev flags) st [] with
        | ROk (l, rest) => ROk (VArr l :: rest)
        | RErr e => RErr e
        end
    | _ => RErr ErrPanic
    end.

  Definition pure_step (i : instr) (s : state) : option pure_res :=
    if is_unop i then Some
      match pop1 s with
      | None => PFail ErrPanic
      | Some (v, s1) => on_res (unop i (scope_of s1) v) (fun r => PNext (push s1 r))
      end
    else if is_binop i then Some
      match pop2 s with
      | None => PFail ErrPanic
      | Some (a, b, s1) => on_res (binop i (scope_of s1) a b) (fun r => PNext (push s1 r))
      end
    else if is_stackop i then Some (on_res (stackop i (stack s)) (fun st => PNext (upd_stack s st)))
    else
    match i with
    | LoadConst v => Some (PNext (push s v))
    | LoadName n => Some (PNext (push s (load_name_v s n)))
    | LoadPath path => Some (on_res (load_path_v wd s path) (fun v => PNext (push s v)))
    | SetI n => Some match pop1 s with Some (v, s1) => PNext (store_local s1 n v) | None => PFail ErrPanic end
    | SetGlobal n => Some match pop1 s with Some (v, s1) => PNext (store_global s1 n v) | None => PFail ErrPanic end
    | Jump t => Some (PGoto t s)
    | PopJumpIfFalse t => Some
        match pop1 s with
        | None => PFail ErrPanic
        | Some (v, s1) => if is_truthy v then PNext s1 else PGoto t s1
        end
    | JumpIfFalseOrPop t => Some
        match pop1 s with
        | None => PFail ErrPanic
        | Some (v, s1) => if is_truthy v then PNext s1 else PGoto t s
        end
    | JumpIfTrueOrPop t => Some
        match pop1 s with
        | None => PFail ErrPanic
        | Some (v, s1) => if is_truthy v then PGoto t s else PNext s1
        end
    | Capture => Some (PNext (upd_caps s ([] :: caps s)))
    | EndCapture => Some
        match caps s with
        | c :: t => PNext (push (upd_caps s t) (VStr c true))
        | [] => PFail ErrPanic
        end
    | StartIterate kv | StartIterateComprehension kv => Some
        match pop1 s with
        | None => PFail ErrPanic
        | Some (container, s1) =>
            match iter_items container with
            | None => PFail ErrRender
            | Some items =>
                if kv && negb (is_map container) then PFail ErrRender
                else PNext (upd_loops s1 (new_loop items (match i with StartIterateComprehension _ => true | _ => false end)
                                          :: loops s1))
            end
        end
    | StoreLocal n => Some
        match loops s with
        | fr :: t => PNext (upd_loops s (lf_store_local fr n :: t))
        | [] => PNext s
        end
    | Iterate end_ip => Some
        match loops s with
        | fr :: t =>
            match lf_rest fr with
            | [] => PGoto end_ip s
            | _ => PNext (upd_loops s (lf_advance fr end_ip :: t))
            end
        | [] => PNext s
        end
    | StoreDidNotIterate => Some
        match loops s with
        | fr :: _ => PNext (push s (VBool (negb (lf_iterated fr))))
        | [] => PNext s
        end
    | Break => Some
        match loops s with
        | fr :: _ => PGoto (lf_end_ip fr) s
        | [] => PNext s
        end
    | PopLoop => Some (PNext (upd_loops s (tl (loops s))))
    | _ => None
    end.

  Lemma pure_step_unop i s : is_unop i = true ->
    pure_step i s = Some match pop1 s with
                         | None => PFail ErrPanic
                         | Some (v, s1) => on_res (unop i (scope_of s1) v) (fun r => PNext (push s1 r))
                         end.
  Proof. unfold pure_step. intros ->. reflexivity. Qed.

  Lemma pure_step_binop i s : is_unop i = false -> is_binop i = true ->
    pure_step i s = Some match pop2 s with
                         | None => PFail ErrPanic
                         | Some (a, b, s1) => on_res (binop i (scope_of s1) a b) (fun r => PNext (push s1 r))
                         end.
  Proof. unfold pure_step. intros -> ->. reflexivity. Qed.

  Lemma pure_step_stackop i s : is_unop i = false -> is_binop i = false -> is_stackop i = true ->
    pure_step i s = Some (on_res (stackop i (stack s)) (fun st => PNext (upd_stack s st))).
  Proof. unfold pure_step. intros -> -> ->. reflexivity. Qed.

  Lemma pure_step_none i s : pure_step i s = None -> is_effect i = true.
  Proof.
    unfold pure_step. destruct i; cbv beta iota delta [is_unop is_binop is_stackop is_effect];
      try discriminate; try reflexivity.
    destruct (str_eqb n s_super); [reflexivity|discriminate].
  Qed.

  Lemma run_pure W wr f tpl ae depth ch ip s o i r :
    nth_error ch ip = Some i -> pure_step i s = Some r ->
    run W wr wd (S f) tpl ae depth ch ip s o =
    match r with
    | PNext s' => run W wr wd f tpl ae depth ch (S ip) s' o
    | PGoto t s' => run W wr wd f tpl ae depth ch t s' o
    | PFail e => RFail e
    end.
  Proof.
    intros Hi Hp. rewrite run_S, Hi. unfold run_arm, fail, pure_step in Hp |- *.
    destruct i; cbv beta iota delta [is_unop is_binop is_stackop] in Hp; try discriminate Hp;
      try (destruct (str_eqb n s_super) eqn:Es; cbn [negb] in Hp; [discriminate Hp|unfold s_super in Es; rewrite Es]);
      injection Hp as <-; unfold pop1, pop2, on_res, unop, binop, stackop; cbn [Nat.mul];
      (* case analysis on every scrutinee that is not itself a match *)
      repeat (cbv beta iota delta [andb];
              match goal with |- context [match ?x with _ => _ end] =>
                lazymatch x with context [match _ with _ => _ end] => fail | _ => destruct x end
              end);
      reflexivity.
  Qed.
End Step.

Definition same_frame (s s' : state) : Prop :=
  blocks s' = blocks s /\ cur_block s' = cur_block s /\ parent s' = parent s /\ context s' = context s /\
  global s' = global s /\ capture_block s' = capture_block s /\ block_buffer s' = block_buffer s.

Lemma store_local_frame s n v : same_frame s (store_local s n v).
Proof. unfold store_local. destruct (loops s); repeat split. Qed.

Lemma pure_step_frame wd i s r : pure_step wd i s = Some r ->
  match r with PNext s' | PGoto _ s' => same_frame s s' | PFail _ => True end.
Proof.
  unfold pure_step, on_res, pop1, pop2. intros Hp.
  destruct (is_unop i); [|destruct (is_binop i); [|destruct (is_stackop i); [|destruct i; try discriminate Hp]]];
    injection Hp as <-;
    repeat match goal with |- context [match ?x with _ => _ end] =>
             lazymatch x with context [match _ with _ => _ end] => fail | _ => destruct x end
           end;
    try exact I; try apply (store_local_frame (upd_stack _ _)); repeat split.
Qed.

(* the lookup of the current block's entry in State.blocks (interpreter.rs 486-492), the local
   `fix` of run's super() arm *)
Definition find_block (cb : str) :=
  fix find (bs pre : list (str * list (list instr) * nat)) {struct bs} :=
    match bs with
    | [] => None
    | (bn, lin, lvl) :: t =>
        if str_eqb bn cb then Some (rev pre, (bn, lin, lvl), t) else find t ((bn, lin, lvl) :: pre)
    end.

Lemma find_block_spec cb : forall bs pre,
  match find_block cb bs pre with
  | Some (p, e, q) => rev pre ++ bs = p ++ e :: q
  | None => forall e, In e bs -> str_eqb (fst (fst e)) cb = false
  end.
Proof.
  induction bs as [|[[bn lin] lvl] t IH]; intros pre; cbn [find_block].
  - intros e [].
  - destruct (str_eqb bn cb) eqn:E; [reflexivity|].
    specialize (IH ((bn, lin, lvl) :: pre)). destruct (find_block cb t ((bn, lin, lvl) :: pre)) as [[[p e] q]|].
    + rewrite <- IH. cbn [rev]. rewrite <- app_assoc. reflexivity.
    + intros e [<-|He]; [exact E|exact (IH e He)].
Qed.

Lemma find_block_Forall (P : list instr -> Prop) cb bs pre bn lin lvl post :
  find_block cb bs [] = Some (pre, (bn, lin, lvl), post) ->
  Forall (fun e : str * list (list instr) * nat => Forall P (snd (fst e))) bs ->
  Forall P lin /\
  forall l, Forall (fun e : str * list (list instr) * nat => Forall P (snd (fst e))) (pre ++ (bn, lin, l) :: post).
Proof.
  intros E H. pose proof (find_block_spec cb bs []) as X. rewrite E in X. cbn [rev app] in X. rewrite X in H.
  apply Forall_app in H. destruct H as [Hp Hq]. inversion Hq; subst.
  split; [assumption|]. intros l. apply Forall_app. split; [exact Hp|constructor; assumption].
Qed.

(* the same record as CompileProofs.inc_state (scope_of s) (context s) and StackCheckDepth.include_state s *)
Definition include_start (s : state) : state :=
  {| stack := []; loops := []; setvars := []; caps := []; blocks := []; cur_block := None;
     parent := Some (scope_of s); context := context s; global := None; capture_block := None;
     block_buffer := [] |}.

Inductive effect :=
| EffPure (r : pure_res)
| EffEmit (s : state) (t : str)                     (* write t from state s, go on at S ip *)
| EffCall (t2 : template) (d2 : nat) (c2 : list instr) (s0 : state)
          (b : option str)                          (* None: into the caller's sink; Some b: into the buffer b *)
          (k : state -> str -> state).              (* the caller's state afterwards, from the callee's final
                                                       state and the buffer's final content *)

Definition EffFail (e : errc) : effect := EffPure (PFail e).

(* what WriteTop / WritePath hand to the sink *)
Definition written (wd : world) (autoescape : bool) (v : value) : str :=
  if negb autoescape || value_is_safe v then w_format wd v else w_escape wd (w_format wd v).

Section InstrEffect.
  Variable wd : world.
  Variable tpl : template.
  Variable ae : option bool.
  Variable depth : nat.

  Definition instr_effect (i : instr) (s : state) : effect :=
    match pure_step wd i s with
    | Some r => EffPure r
    | None =>
      let autoescape := match ae with Some b => b | None => t_autoescape tpl end in
      match i with
      | WriteText t => EffEmit s t
      | WriteTop =>
          match pop1 s with
          | None => EffFail ErrPanic
          | Some (v, s1) => if is_undefined v then EffFail ErrRender else EffEmit s1 (written wd autoescape v)
          end
      | WritePath p =>
          match write_path_v wd s p with
          | RErr e => EffFail e
          | ROk v => EffEmit s (written wd autoescape v)
          end
      | Include n =>
          match assoc_get (w_templates wd) n with
          | None => EffFail ErrOther
          | Some t2 =>
              (* the include writes where the includer's next write would go *)
              match caps s with
              | [] => EffCall t2 depth (t_root_chunk t2) (include_start s) None (fun _ _ => s)
              | c :: ct => EffCall t2 depth (t_root_chunk t2) (include_start s) (Some c)
                             (fun _ c1 => upd_caps s (c1 :: ct))
              end
          end
      | RenderInlineComponent n | RenderBodyComponent n =>   (* the second also pops the body *)
          match pop1 s with
          | None => EffFail ErrPanic
          | Some (kw, s1) =>
              match kwargs_of kw, assoc_get (w_components wd) n with
              | Some k, Some (def, cchunk) =>
                  match (if match i with RenderBodyComponent _ => true | _ => false end
                         then match pop1 s1 with Some (b, s2) => Some (Some (mark_safe b), s2) | None => None end
                         else Some (None, s1)) with
                  | None => EffFail ErrPanic
                  | Some (body, s2) =>
                      match w_build_ctx wd def k body with
                      | RErr _ => EffFail ErrRender
                      | ROk cctx =>
                          if w_max_depth wd <? S depth then EffFail ErrMsg
                          else EffCall tpl (S depth) cchunk (new_state cctx) (Some [])
                                 (fun _ text => push s2 (VStr text true))
                      end
                  end
              | _, _ => EffFail ErrPanic
              end
          end
      | RenderBlock n =>
          match assoc_get (t_lineage tpl) n with
          | Some (bchunk :: lin_rest) =>
              let s1 := upd_blocks s ((n, bchunk :: lin_rest, 0) :: blocks s) (Some n) in
              if match capture_block s with Some cbn => str_eqb cbn n | None => false end
              then EffCall tpl depth bchunk (upd_caps s1 []) (Some [])
                     (fun s2 text => upd_block_buffer (upd_caps (upd_blocks s2 (tl (blocks s2)) (cur_block s)) (caps s)) text)
              else EffCall tpl depth bchunk s1 None (fun s2 _ => upd_blocks s2 (tl (blocks s2)) (cur_block s))
          | _ => EffFail ErrMsg
          end
      | CallFunction _ =>
          (* super(), every other name being a unop: the next chunk of the current block's lineage runs
             on the caller's State, its capture stack detached *)
          match pop1 s with
          | None => EffFail ErrPanic
          | Some (kw, s1) =>
              match cur_block s1 with
              | None => EffFail ErrRender
              | Some cb =>
                  match find_block cb (blocks s1) [] with
                  | None => EffFail ErrPanic
                  | Some (pre, (bn, lin, lvl), post) =>
                      match nth_error lin (S lvl) with
                      | None => EffFail ErrRender
                      | Some bchunk =>
                          EffCall tpl depth bchunk
                            (upd_caps (upd_blocks s1 (pre ++ (bn, lin, S lvl) :: post) (cur_block s1)) []) (Some [])
                            (fun s3 text =>
                               push (upd_caps (upd_blocks s3 (pre ++ (bn, lin, lvl) :: post) (cur_block s3)) (caps s1))
                                    (VStr text true))
                      end
                  end
              end
          end
      | _ => EffFail ErrPanic     (* not reached: pure_step_none *)
      end
    end.
End InstrEffect.

Section Perform.
  Variable W : Type.
  Variable wr : W -> str -> option W.

  Definition call_sink (o : sink W) (b : option str) : sink W :=
    match b with None => o | Some b => SinkBuf b end.

  Definition perform (rec : template -> nat -> list instr -> nat -> state -> sink W -> rres W)
             (tpl : template) (depth : nat) (ch : list instr) (ip : nat) (o : sink W) (e : effect) : rres W :=
    match e with
    | EffPure (PNext s1) => rec tpl depth ch (S ip) s1 o
    | EffPure (PGoto t s1) => rec tpl depth ch t s1 o
    | EffPure (PFail e) => RFail e
    | EffEmit s1 t =>
        match emit W wr s1 o t with
        | Some (s2, o2) => rec tpl depth ch (S ip) s2 o2
        | None => RFail ErrIo
        end
    | EffCall t2 d2 c2 s0 b k =>
        match rec t2 d2 c2 0 s0 (call_sink o b) with
        | RDone s2 o2 =>
            match b, o2 with
            | None, _ => rec tpl depth ch (S ip) (k s2 []) o2
            | Some _, SinkBuf text => rec tpl depth ch (S ip) (k s2 text) o
            | Some _, SinkTop _ => RFail ErrPanic
            end
        | RFail e => RFail e
        | ROutOfFuel => ROutOfFuel
        end
    end.

  Variable wd : world.

  Theorem run_step f tpl ae depth ch ip s o :
    run W wr wd (S f) tpl ae depth ch ip s o =
    match nth_error ch ip with
    | None => RDone s o
    | Some i => perform (fun t d c => run W wr wd f t ae d c) tpl depth ch ip o (instr_effect wd tpl ae depth i s)
    end.
  Proof.
    destruct (nth_error ch ip) as [i|] eqn:Hi; [|rewrite run_S, Hi; reflexivity].
    unfold instr_effect. destruct (pure_step wd i s) as [r|] eqn:Hp.
    - rewrite (run_pure wd W wr f tpl ae depth ch ip s o i r Hi Hp). destruct r; reflexivity.
    - apply pure_step_none in Hp. rewrite run_S, Hi. unfold run_arm, fail, perform, call_sink, EffFail, written, write_value.
      destruct i; try discriminate Hp; cbn [is_effect] in Hp; unfold s_super in Hp; rewrite ?Hp; unfold include_start;
        (* as in run_pure; the local `fix` of run's super() arm is find_block unfolded *)
        repeat (cbv beta iota zeta;
                match goal with
                | |- context [find_block ?cb ?bs ?p] =>
                    let y := eval cbv beta delta [find_block] in (find_block cb bs p) in
                    change y with (find_block cb bs p); destruct (find_block cb bs p)
                | |- context [match ?x with _ => _ end] =>
                  lazymatch x with
                  | context [match _ with _ => _ end] => fail
                  | run _ _ _ _ _ _ _ _ _ _ _ => fail
                  | _ => destruct x
                  end
                end); reflexivity.
  Qed.
End Perform.
