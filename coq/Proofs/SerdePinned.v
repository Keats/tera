(* The pinned tree (before D7, D14): where exactly the round trip holds there. *)
From TeraV Require Import Model.Value Model.Serde Proofs.SerdeProofs.

Definition no_newtype : ty -> bool :=
  ty_all (fun t => match t with TNewtype _ => false | _ => true end).

(* on the pinned tree the round trip holds through the owned entry point for every type without a
   newtype struct, and by reference when moreover the type is not an Option or an enum at the top:
   D7 and D14 are the only two ways it fails *)
Theorem pinned_roundtrip_outside_D7_D14 : forall t v x,
  no_newtype t = true -> no_none_like_under_option t = true -> names_ok t = true ->
  has_type v t -> ser v = ROk x ->
  de_entry Pinned Owned t x = ROk v
  /\ ((match t with TOption _ | TEnum _ => false | _ => true end) = true -> de_entry Pinned ByRef t x = ROk v).
Proof.
  intros t v x Hnn Hno Hnm Hty Hs.
  pose proof (fun d => de_ser_typed Pinned v t Hty (conj (conj Hno Hnm) (fun _ => Hnn)) d) as H.
  split; [apply H; [reflexivity|exact Hs]|].
  intro Htop. apply H; [|exact Hs]. destruct t; discriminate.
Qed.
