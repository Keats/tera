(* Facts about the standard library's lists that several parts of the development need and Coq 8.16
   does not have. *)
From Coq Require Import List Arith.
Import ListNotations.

Lemma nth_skipn {A} (d : A) k : forall (l : list A) i, nth i (skipn k l) d = nth (k + i) l d.
Proof. induction k as [|k IH]; intros l i; [reflexivity|]. destruct l; cbn; [destruct i; reflexivity|apply IH]. Qed.

Lemma nth_error_skipn {A} k : forall (l : list A) i, nth_error (skipn k l) i = nth_error l (k + i).
Proof. induction k as [|k IH]; intros l i; [reflexivity|]. destruct l; cbn; [destruct i; reflexivity|apply IH]. Qed.

Lemma skipn_skipn {A} x y : forall l : list A, skipn x (skipn y l) = skipn (x + y) l.
Proof.
  induction y as [|y IH]; intros l; [rewrite Nat.add_0_r; reflexivity|].
  rewrite Nat.add_succ_r. destruct l; cbn [skipn]; [apply skipn_nil|apply IH].
Qed.

Lemma NoDup_app_inv {A} (a b : list A) : NoDup (a ++ b) -> NoDup a /\ NoDup b.
Proof.
  induction a as [|x a IH]; cbn; intros H; [split; [constructor|exact H]|].
  inversion H as [|? ? Hx Hab]; subst. destruct (IH Hab) as [Ha Hb].
  split; [constructor; [intros Hi; apply Hx, in_or_app; left; exact Hi|exact Ha]|exact Hb].
Qed.

Lemma Forall2_length {A B} (R : A -> B -> Prop) l l' : Forall2 R l l' -> length l = length l'.
Proof. induction 1; cbn; congruence. Qed.

Lemma Forall2_in_l {A B} (R : A -> B -> Prop) l l' x : Forall2 R l l' -> In x l -> exists y, In y l' /\ R x y.
Proof.
  induction 1 as [|a b t t' Hab _ IH]; cbn; [contradiction|].
  intros [<-|Hin]; [exists b; auto|]. destruct (IH Hin) as (y & Hy & Hxy). exists y. auto.
Qed.

Lemma Forall2_impl_in {A B} (R R' : A -> B -> Prop) l l' :
  (forall x y, In x l -> In y l' -> R x y -> R' x y) -> Forall2 R l l' -> Forall2 R' l l'.
Proof.
  intros H F. induction F as [|x y t t' Hxy Ht IH]; constructor.
  - apply H; cbn; auto.
  - apply IH. intros; apply H; cbn; auto.
Qed.
