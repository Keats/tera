(* C12 — Model/Report.v against Spec/LineCol.v and Spec/Utf8Chars.v: advance! keeps (line, column,
   byte) equal to the reference line/column (as the byte scan `scan_from`); spans stay well-formed
   under expand, eoi, expand_span and combine_spans; get_line_starts, SourceLocation::new and
   generate_report on well-formed spans; all runs of a tokenizer that moves only by advance!
   (lex_reach, parser_span).  The list facts and the UTF-8 boundary lemmas at the top also serve
   the lexer proofs of C06 and C08 (see the note on is_cont in LexerBoundary.v). *)
From Coq Require Import List NArith Arith Bool Lia Sorted.
From TeraV Require Import Spec.Utf8Chars Spec.LineCol Model.Report.
Import ListNotations.

Lemma firstn_app_exact : forall (A : Type) (a b : list A), firstn (length a) (a ++ b) = a.
Proof.
  intros A a b. rewrite firstn_app, Nat.sub_diag, firstn_all. cbn [firstn]. apply app_nil_r.
Qed.

Lemma skipn_app_exact : forall (A : Type) (a b : list A), skipn (length a) (a ++ b) = b.
Proof. intros A a b. rewrite skipn_app, Nat.sub_diag, skipn_all. reflexivity. Qed.

Lemma nth_error_mid : forall (A : Type) (a : list A) d b, nth_error (a ++ d :: b) (length a) = Some d.
Proof. intros A a d b. rewrite nth_error_app2, Nat.sub_diag by lia. reflexivity. Qed.

Lemma lead_len_not_cont : forall b n, lead_len b = Some n -> is_cont b = false.
Proof.
  intros b n H. unfold lead_len in H. unfold is_cont.
  destruct (N.ltb b 128) eqn:E1.
  - apply N.ltb_lt in E1. apply andb_false_intro1. apply N.leb_gt. exact E1.
  - destruct (N.ltb b 194) eqn:E2; [discriminate|].
    apply N.ltb_ge in E2. apply andb_false_intro2. apply N.ltb_ge. lia.
Qed.

Lemma lead_len_ascii : forall b, (b < 128)%N -> lead_len b = Some 1.
Proof. intros b H. unfold lead_len. apply N.ltb_lt in H. rewrite H. reflexivity. Qed.

Lemma lead_len_one : forall b, lead_len b = Some 1 -> (b < 128)%N.
Proof.
  intros b H. unfold lead_len in H.
  destruct (N.ltb b 128) eqn:E1; [apply N.ltb_lt; exact E1|].
  destruct (N.ltb b 194); [discriminate|].
  destruct (N.ltb b 224); [discriminate|].
  destruct (N.ltb b 240); [discriminate|].
  destruct (N.ltb b 245); discriminate.
Qed.

Lemma is_cont_ge : forall b, is_cont b = true -> (128 <= b)%N.
Proof. intros b H. unfold is_cont in H. apply andb_prop in H. destruct H as [H _]. apply N.leb_le in H. exact H. Qed.

Lemma is_cont_not_nl : forall b, is_cont b = true -> N.eqb b 10 = false.
Proof. intros b H. apply is_cont_ge in H. apply N.eqb_neq. lia. Qed.

Lemma wf_char_inv : forall c, wf_char c ->
  exists b cs, c = b :: cs /\ lead_len b = Some (S (length cs)) /\ forallb is_cont cs = true /\
               is_cont b = false.
Proof.
  intros c H. destruct c as [|b cs]; [contradiction|].
  cbn [wf_char length] in H. destruct H as [H1 H2].
  exists b, cs. repeat split; try assumption. eapply lead_len_not_cont; eauto.
Qed.

Lemma wf_charb_ok : forall c, wf_charb c = true -> wf_char c.
Proof.
  intros c H. destruct c as [|b cs]; [discriminate|].
  cbn [wf_charb] in H. destruct (lead_len b) eqn:E; [|discriminate].
  apply andb_prop in H. destruct H as [H1 H2]. apply Nat.eqb_eq in H1. subst n.
  cbn [wf_char]. split; assumption.
Qed.

Lemma valid_head : forall l, valid_utf8 l ->
  match l with [] => True | b :: _ => is_cont b = false end.
Proof.
  intros l H. induction H as [|c rest Hc Hr IH]; [exact I|].
  apply wf_char_inv in Hc. destruct Hc as (b & cs & -> & _ & _ & Hb). exact Hb.
Qed.

Lemma valid_app : forall a b, valid_utf8 a -> valid_utf8 b -> valid_utf8 (a ++ b).
Proof.
  intros a b Ha Hb. induction Ha as [|c rest Hc Hr IH]; [exact Hb|].
  rewrite <- app_assoc. constructor; assumption.
Qed.

Lemma valid_single_ascii : forall b, (b < 128)%N -> valid_utf8 [b].
Proof.
  intros b H. change [b] with ([b] ++ []). constructor; [|constructor].
  cbn [wf_char length forallb]. split; [apply lead_len_ascii; exact H|reflexivity].
Qed.

Lemma valid_concat : forall gs, Forall wf_char gs -> valid_utf8 (concat gs).
Proof. induction 1 as [|g gs Hg _ IH]; [constructor|]. cbn [concat]. constructor; assumption. Qed.

Lemma split_chars_conts : forall cs rest,
  forallb is_cont cs = true -> fst (split_chars rest) = [] ->
  split_chars (cs ++ rest) = (cs, snd (split_chars rest)).
Proof.
  induction cs as [|k cs IH]; intros rest Hc Hr.
  - cbn [app]. destruct (split_chars rest) as [a g]. cbn [fst snd] in *. subst a. reflexivity.
  - cbn [forallb] in Hc. apply andb_prop in Hc. destruct Hc as [Hk Hc].
    cbn [app split_chars]. rewrite (IH rest Hc Hr). rewrite Hk. reflexivity.
Qed.

Lemma valid_split_chars : forall l, valid_utf8 l -> fst (split_chars l) = [].
Proof.
  intros l H. apply valid_head in H. destruct l as [|b t]; [reflexivity|].
  cbn [split_chars]. destruct (split_chars t) as [a g]. rewrite H. reflexivity.
Qed.

Lemma chars_char : forall c rest, wf_char c -> valid_utf8 rest ->
  chars (c ++ rest) = c :: chars rest.
Proof.
  intros c rest Hc Hr. apply wf_char_inv in Hc. destruct Hc as (b & cs & -> & _ & Hcs & Hb).
  unfold chars. cbn [app split_chars].
  rewrite (split_chars_conts cs rest Hcs (valid_split_chars rest Hr)). rewrite Hb. reflexivity.
Qed.

Lemma split_chars_concat : forall l,
  fst (split_chars l) ++ concat (snd (split_chars l)) = l.
Proof.
  induction l as [|b t IH]; [reflexivity|].
  cbn [split_chars]. destruct (split_chars t) as [cs gs]. cbn [fst snd] in IH.
  destruct (is_cont b); cbn [fst snd concat app]; f_equal; exact IH.
Qed.

Lemma valid_utf8b_ok : forall l, valid_utf8b l = true -> valid_utf8 l.
Proof.
  intros l H. unfold valid_utf8b in H. pose proof (split_chars_concat l) as Hc.
  destruct (fst (split_chars l)); [|discriminate]. cbn [app] in Hc. rewrite <- Hc.
  apply valid_concat. apply Forall_forall. intros g Hg.
  rewrite forallb_forall in H. apply wf_charb_ok. apply H. exact Hg.
Qed.

Lemma valid_char_at : forall s, valid_utf8 s -> forall i b,
  nth_error s i = Some b -> is_cont b = false ->
  exists p c q, s = p ++ c ++ q /\ length p = i /\ valid_utf8 p /\ wf_char c /\ valid_utf8 q.
Proof.
  intros s H. induction H as [|c rest Hc Hr IH]; intros i b N C.
  - destruct i; discriminate.
  - destruct (Nat.lt_ge_cases i (length c)) as [Hlt|Hge].
    + (* inside c every byte but the first is a continuation byte *)
      destruct i as [|j].
      * exists [], c, rest. split; [reflexivity|]. split; [reflexivity|].
        split; [constructor|]. split; assumption.
      * exfalso. apply wf_char_inv in Hc. destruct Hc as (b0 & cs & -> & _ & Hcs & _).
        cbn [length] in Hlt. cbn [app nth_error] in N. rewrite nth_error_app1 in N by lia.
        apply nth_error_In in N. rewrite forallb_forall in Hcs. rewrite (Hcs b N) in C. discriminate.
    + rewrite nth_error_app2 in N by exact Hge.
      destruct (IH _ _ N C) as (p & c' & q & -> & L & Vp & Wc & Vq).
      exists (c ++ p), c', q. rewrite app_length, <- app_assoc.
      split; [reflexivity|]. split; [lia|]. split; [constructor; assumption|]. split; assumption.
Qed.

Lemma boundary_zero : forall s, is_char_boundary s 0 = true.
Proof. reflexivity. Qed.

Lemma is_char_boundary_spec : forall s i, is_char_boundary s i = true <->
  i = 0 \/ i = length s \/ exists b, nth_error s i = Some b /\ is_cont b = false.
Proof.
  intros s i. unfold is_char_boundary. destruct (Nat.eqb_spec i 0) as [->|Hi]; [tauto|].
  destruct (nth_error s i) as [b|] eqn:E.
  - rewrite negb_true_iff. split.
    + intros H. right. right. exists b. split; [reflexivity|exact H].
    + intros [H|[H|(b' & Hb & H)]]; [contradiction| |congruence].
      assert (i < length s) by (apply nth_error_Some; congruence). lia.
  - rewrite Nat.eqb_eq. split; [tauto|].
    intros [H|[H|(b' & Hb & _)]]; [contradiction|exact H|discriminate].
Qed.

Lemma boundary_len : forall s, is_char_boundary s (length s) = true.
Proof. intros s. apply is_char_boundary_spec. right. left. reflexivity. Qed.

Lemma boundary_le : forall s n, is_char_boundary s n = true -> n <= length s.
Proof.
  intros s n H. apply is_char_boundary_spec in H. destruct H as [->|[->|(b & H & _)]]; [lia|lia|].
  apply Nat.lt_le_incl, nth_error_Some. congruence.
Qed.

Lemma boundary_app : forall a b, valid_utf8 b -> is_char_boundary (a ++ b) (length a) = true.
Proof.
  intros a b Hb. apply is_char_boundary_spec. right. apply valid_head in Hb. destruct b as [|d b'].
  - left. rewrite app_nil_r. reflexivity.
  - right. exists d. split; [apply nth_error_mid|exact Hb].
Qed.

Lemma boundary_app_shift : forall a l i, i <> 0 ->
  is_char_boundary (a ++ l) (length a + i) = is_char_boundary l i.
Proof.
  intros a l i Hi. apply eq_true_iff_eq.
  rewrite !is_char_boundary_spec, nth_error_app2, app_length by lia.
  replace (length a + i - length a) with i by lia.
  split; (intros [H|[H|H]]; [lia|right; left; lia|right; right; exact H]).
Qed.

Lemma boundary_after_lead : forall s, valid_utf8 s -> forall i b k,
  nth_error s i = Some b -> lead_len b = Some k -> is_char_boundary s (i + k) = true.
Proof.
  intros s H i b k N L.
  destruct (valid_char_at s H i b N (lead_len_not_cont b k L)) as (p & c & q & -> & <- & _ & Wc & Vq).
  apply wf_char_inv in Wc. destruct Wc as (b0 & cs & -> & Hl & _ & _).
  cbn [app] in N. rewrite nth_error_mid in N. injection N as ->. rewrite L in Hl. injection Hl as ->.
  rewrite app_assoc. replace (length p + S (length cs)) with (length (p ++ b :: cs))
    by (rewrite app_length; reflexivity).
  apply boundary_app. exact Vq.
Qed.

Lemma split_valid : forall l, valid_utf8 l -> forall n,
  is_char_boundary l n = true -> valid_utf8 (firstn n l) /\ valid_utf8 (skipn n l).
Proof.
  intros l H n Hb. apply is_char_boundary_spec in Hb. destruct Hb as [->|[->|(b & Hb & Hc)]].
  - split; [constructor|exact H].
  - rewrite firstn_all, skipn_all. split; [exact H|constructor].
  - destruct (valid_char_at l H n b Hb Hc) as (p & c & q & -> & <- & Vp & Wc & Vq).
    rewrite firstn_app_exact, skipn_app_exact. split; [exact Vp|constructor; assumption].
Qed.

Definition scan_from (lc : nat * nat) (l : list N) : nat * nat := fold_left scan_byte l lc.

Lemma scan_from_app : forall a b lc, scan_from lc (a ++ b) = scan_from (scan_from lc a) b.
Proof. intros. unfold scan_from. apply fold_left_app. Qed.

Lemma count_nl_app : forall a b, count_nl (a ++ b) = count_nl a + count_nl b.
Proof. intros. unfold count_nl. apply count_occ_app. Qed.

Lemma count_nl_cons : forall b t, count_nl (b :: t) = (if N.eqb b NL then 1 else 0) + count_nl t.
Proof.
  intros b t. unfold count_nl. cbn [count_occ]. destruct (N.eq_dec b NL) as [->|H]; [reflexivity|].
  apply N.eqb_neq in H. rewrite H. reflexivity.
Qed.

Lemma count_nl_zero_iff : forall l, count_nl l = 0 <-> ~ In NL l.
Proof. intros l. symmetry. apply count_occ_not_In. Qed.

Lemma after_last_nl_snoc : forall l b,
  after_last_nl (l ++ [b]) = if N.eqb b NL then [] else after_last_nl l ++ [b].
Proof.
  intros l b. unfold after_last_nl. rewrite rev_app_distr. cbn [rev app before_first_nl].
  destruct (N.eqb b NL); reflexivity.
Qed.

Lemma after_last_nl_app : forall p q,
  after_last_nl (p ++ q) = if 0 <? count_nl q then after_last_nl q else after_last_nl p ++ q.
Proof.
  intros p q. induction q as [|x q IH] using rev_ind; [rewrite !app_nil_r; reflexivity|].
  rewrite app_assoc, !after_last_nl_snoc, IH, count_nl_app, count_nl_cons.
  destruct (N.eqb x NL); [rewrite Nat.add_1_r; reflexivity|].
  rewrite Nat.add_0_r. destruct (0 <? count_nl q); [reflexivity|symmetry; apply app_assoc].
Qed.

Lemma char_starts_app : forall a b, char_starts (a ++ b) = char_starts a + char_starts b.
Proof. intros. unfold char_starts. rewrite filter_app, app_length. reflexivity. Qed.

Lemma char_starts_chars : forall l, char_starts l = length (chars l).
Proof.
  unfold char_starts, chars. induction l as [|b t IH]; [reflexivity|].
  cbn [filter split_chars]. destruct (split_chars t) as [cs gs]. cbn [snd] in IH.
  destruct (is_cont b); cbn [negb snd length]; rewrite IH; reflexivity.
Qed.

Lemma linecol_list_scan : forall l,
  (1 + count_nl l, char_starts (after_last_nl l)) = scan_from (1, 0) l.
Proof.
  induction l as [|b l IH] using rev_ind; [reflexivity|].
  rewrite scan_from_app, <- IH. cbn [scan_from fold_left]. unfold scan_byte. cbn [fst snd].
  rewrite after_last_nl_snoc, count_nl_app, count_nl_cons. fold NL.
  destruct (N.eqb b NL); [cbn; f_equal; lia|].
  rewrite char_starts_app. unfold char_starts at 2. cbn [filter].
  destruct (is_cont b); cbn [negb length count_nl count_occ]; f_equal; lia.
Qed.

Lemma linecol_scan : forall src off, linecol src off = scan_from (1, 0) (firstn off src).
Proof. intros. unfold linecol. apply linecol_list_scan. Qed.

Lemma linecol_step : forall pre b post,
  linecol (pre ++ b :: post) (S (length pre)) =
  scan_byte (linecol (pre ++ b :: post) (length pre)) b.
Proof.
  intros pre b post. rewrite !linecol_scan, firstn_app_exact.
  change (pre ++ b :: post) with (pre ++ [b] ++ post).
  replace (S (length pre)) with (length (pre ++ [b])) by (rewrite app_length; apply Nat.add_1_r).
  rewrite app_assoc, firstn_app_exact. apply scan_from_app.
Qed.

Lemma linecol_step_cases : forall pre b post,
  let lc := linecol (pre ++ b :: post) (length pre) in
  let lc' := linecol (pre ++ b :: post) (S (length pre)) in
  (b = NL -> lc' = (S (fst lc), 0)) /\
  (b <> NL -> is_cont b = true -> lc' = lc) /\
  (b <> NL -> is_cont b = false -> lc' = (fst lc, S (snd lc))).
Proof.
  intros pre b post. cbn zeta. rewrite linecol_step. unfold scan_byte, NL.
  split; [intros ->; reflexivity|].
  split; intros Hne Hc; apply N.eqb_neq in Hne; rewrite Hne, Hc; reflexivity.
Qed.

Lemma scan_byte_mono_line : forall lc b, fst lc <= fst (scan_byte lc b).
Proof. intros [l c] b. unfold scan_byte. cbn [fst snd]. destruct (N.eqb b 10); [cbn; lia|]. destruct (is_cont b); cbn; lia. Qed.

Lemma linecol_monotone : forall src a b, a <= b ->
  let (la, ca) := linecol src a in let (lb, cb) := linecol src b in
  la < lb \/ (la = lb /\ ca <= cb).
Proof.
  intros src a b Hab. unfold linecol.
  rewrite <- (firstn_skipn a (firstn b src)), firstn_firstn, Nat.min_l by exact Hab.
  set (p := firstn a src). set (q := skipn a (firstn b src)).
  rewrite count_nl_app.
  rewrite after_last_nl_app. destruct (Nat.ltb_spec 0 (count_nl q)); [left; lia|right].
  (* no newline in q: the last line only grows *)
  rewrite char_starts_app. lia.
Qed.

Lemma scan_table_nth : forall l lc off, off <= length l ->
  nth_error (scan_table lc l) off = Some (scan_from lc (firstn off l)).
Proof.
  induction l as [|b t IH]; intros lc off H.
  - cbn in H. assert (off = 0) as -> by lia. reflexivity.
  - destruct off as [|off]; [reflexivity|]. cbn [scan_table nth_error firstn length] in *.
    rewrite IH by lia. reflexivity.
Qed.

Lemma loc_init_ok : forall src, loc_ok src loc_init.
Proof.
  intros src. unfold loc_ok, loc_init. cbn [l_byte l_line l_col].
  split; [lia|]. split; reflexivity.
Qed.

Lemma make_span_wf : forall src a b,
  loc_ok src a -> loc_ok src b -> l_byte a <= l_byte b -> span_wf src (make_span a b).
Proof.
  intros src a b (A1 & A2 & A3) (B1 & B2 & B3) Hle. unfold span_wf, make_span.
  cbn [rstart rend start_line start_col end_line end_col]. tauto.
Qed.

Definition span_start (sp : span) : loc := mkloc (start_line sp) (start_col sp) (rstart sp).
Definition span_end (sp : span) : loc := mkloc (end_line sp) (end_col sp) (rend sp).

Lemma span_wf_ends : forall src sp,
  span_wf src sp -> loc_ok src (span_start sp) /\ loc_ok src (span_end sp).
Proof.
  intros src sp (H1 & H2 & H3 & H4 & H5 & H6). unfold loc_ok. cbn [span_start span_end l_byte l_line l_col].
  repeat split; try assumption. lia.
Qed.

Lemma pair_eqb_eq : forall a b, pair_eqb a b = true <-> a = b.
Proof.
  intros [a1 a2] [b1 b2]. unfold pair_eqb. cbn [fst snd]. rewrite andb_true_iff, !Nat.eqb_eq.
  split; [intros [-> ->]; reflexivity | intros H; injection H; auto].
Qed.

Lemma span_wfb_ok : forall src sp, span_wfb src sp = true <-> span_wf src sp.
Proof.
  intros src sp. unfold span_wfb, span_wf.
  rewrite !andb_true_iff, !pair_eqb_eq, !Nat.leb_le. tauto.
Qed.

Lemma span_wfb_tbl_ok : forall src sp,
  span_wfb_tbl src (scan_table (1, 0) src) sp = span_wfb src sp.
Proof.
  intros src sp. unfold span_wfb_tbl, span_wfb.
  destruct (rstart sp <=? rend sp) eqn:E1; [|reflexivity].
  destruct (rend sp <=? length src) eqn:E2; [|reflexivity].
  apply Nat.leb_le in E1. apply Nat.leb_le in E2.
  rewrite !scan_table_nth by lia. rewrite <- !linecol_scan.
  destruct (is_char_boundary src (rstart sp)); [|reflexivity].
  destruct (is_char_boundary src (rend sp)); [|reflexivity].
  cbn [andb]. reflexivity.
Qed.

Lemma spans_wfb_ok : forall src sps, spans_wfb src sps = forallb (span_wfb src) sps.
Proof.
  intros src sps. unfold spans_wfb. induction sps as [|s t IH]; [reflexivity|].
  cbn [forallb]. rewrite span_wfb_tbl_ok, IH. reflexivity.
Qed.

Lemma scan_conts : forall cs lc, forallb is_cont cs = true -> scan_from lc cs = lc.
Proof.
  induction cs as [|k cs IH]; intros lc H; [reflexivity|].
  cbn [forallb] in H. apply andb_prop in H. destruct H as [Hk Hc].
  cbn [scan_from fold_left]. unfold scan_byte at 2. rewrite (is_cont_not_nl k Hk), Hk.
  apply IH. exact Hc.
Qed.

Lemma advance_char_other : forall st c, c <> [10%N] ->
  advance_char st c = mkloc (l_line st) (S (l_col st)) (l_byte st + length c).
Proof.
  intros st c H. unfold advance_char.
  destruct c as [|b cs]; [reflexivity|].
  destruct b as [|p]; [reflexivity|].
  (* down the four binary digits of 10, the one byte advance_char tests for *)
  do 4 (destruct p as [p|p|]; try reflexivity).
  destruct cs; [exfalso; apply H; reflexivity | reflexivity].
Qed.

Lemma advance_char_scan : forall st c, wf_char c ->
  let st' := advance_char st c in
  (l_line st', l_col st') = scan_from (l_line st, l_col st) c /\
  l_byte st' = l_byte st + length c.
Proof.
  intros st c Hc. apply wf_char_inv in Hc. destruct Hc as (b & cs & -> & Hl & Hcs & Hb).
  cbn zeta. change (scan_from (l_line st, l_col st) (b :: cs))
    with (scan_from (scan_byte (l_line st, l_col st) b) cs).
  rewrite (scan_conts cs _ Hcs). unfold scan_byte. cbn [fst snd].
  destruct (N.eqb b 10) eqn:E.
  - apply N.eqb_eq in E. subst b. rewrite lead_len_ascii in Hl by lia.
    injection Hl as Hl. destruct cs; [|discriminate]. cbn. split; reflexivity.
  - rewrite Hb. apply N.eqb_neq in E.
    rewrite advance_char_other by (intros Heq; injection Heq as Heq _; contradiction).
    cbn. split; reflexivity.
Qed.

Lemma advance_over_scan : forall t, valid_utf8 t -> forall st,
  let st' := advance_over st t in
  (l_line st', l_col st') = scan_from (l_line st, l_col st) t /\
  l_byte st' = l_byte st + length t.
Proof.
  intros t H. induction H as [|c rest Hc Hr IH]; intros st.
  - cbn. split; [reflexivity|lia].
  - cbn zeta. unfold advance_over. rewrite (chars_char c rest Hc Hr). cbn [fold_left].
    destruct (advance_char_scan st c Hc) as [H1 H2].
    specialize (IH (advance_char st c)). cbn zeta in IH. unfold advance_over in IH.
    destruct IH as [I1 I2]. rewrite I1, I2, H1, H2, scan_from_app, app_length. split; [reflexivity|lia].
Qed.

Lemma token_span_step : forall pre t post st,
  valid_utf8 t -> valid_utf8 post ->
  let src := pre ++ t ++ post in
  loc_ok src st -> l_byte st = length pre ->
  let st' := advance_over st t in
  loc_ok src st' /\ l_byte st' = length pre + length t.
Proof.
  intros pre t post st Ht Hp src (Hle & Hbd & Hlc) Hb. cbn zeta.
  destruct (advance_over_scan t Ht st) as [H1 H2]. cbn zeta in H1, H2.
  assert (Hlen : l_byte (advance_over st t) = length (pre ++ t)) by (rewrite app_length; lia).
  split; [|lia]. unfold loc_ok. subst src. rewrite Hlen.
  replace (pre ++ t ++ post) with ((pre ++ t) ++ post) by (symmetry; apply app_assoc).
  split; [rewrite !app_length; lia|]. split; [apply boundary_app; exact Hp|].
  rewrite H1, Hlc, Hb, !linecol_scan.
  rewrite (firstn_app_exact N pre (t ++ post)), (firstn_app_exact N (pre ++ t) post).
  symmetry. apply scan_from_app.
Qed.

Lemma token_span_wf : forall pre t post st,
  valid_utf8 t -> valid_utf8 post ->
  let src := pre ++ t ++ post in
  loc_ok src st -> l_byte st = length pre ->
  span_wf src (make_span st (advance_over st t)) /\
  rstart (make_span st (advance_over st t)) = length pre /\
  rend (make_span st (advance_over st t)) = length pre + length t.
Proof.
  intros pre t post st Ht Hp src Hst Hb.
  destruct (token_span_step pre t post st Ht Hp Hst Hb) as [H1 H2].
  split; [apply make_span_wf; [exact Hst|exact H1|lia]|].
  cbn [make_span rstart rend]. split; [exact Hb|exact H2].
Qed.

Lemma advance_eq : forall st rest n, advance st rest n =
  if is_char_boundary rest n
  then Some (advance_over st (firstn n rest), firstn n rest, skipn n rest) else None.
Proof. intros. unfold advance, split_at. destruct (is_char_boundary rest n); reflexivity. Qed.

Lemma advance_ok : forall st rest n, valid_utf8 rest ->
  n <= length rest -> is_char_boundary rest n = true ->
  exists st', advance st rest n = Some (st', firstn n rest, skipn n rest) /\
    valid_utf8 (firstn n rest) /\ valid_utf8 (skipn n rest) /\
    st' = advance_over st (firstn n rest).
Proof.
  intros st rest n Hv Hn Hb. rewrite advance_eq, Hb.
  destruct (split_valid rest Hv n Hb) as [H1 H2].
  eexists. split; [reflexivity|]. repeat split; assumption.
Qed.

Lemma advance_panics : forall st rest n, is_char_boundary rest n = false -> advance st rest n = None.
Proof. intros st rest n H. rewrite advance_eq, H. reflexivity. Qed.

Lemma advance_keeps_invariant : forall pre rest st n,
  valid_utf8 rest -> loc_ok (pre ++ rest) st -> l_byte st = length pre ->
  n <= length rest -> is_char_boundary rest n = true ->
  exists st' skipped rest',
    advance st rest n = Some (st', skipped, rest') /\
    rest = skipped ++ rest' /\ length skipped = n /\ valid_utf8 rest' /\
    loc_ok (pre ++ rest) st' /\ l_byte st' = length (pre ++ skipped) /\
    span_wf (pre ++ rest) (make_span st st').
Proof.
  intros pre rest st n Hv Hst Hb Hn Hbd.
  destruct (split_valid rest Hv n Hbd) as [Hv1 Hv2].
  pose proof (token_span_step pre _ _ st Hv1 Hv2) as Hstep. cbn zeta in Hstep.
  rewrite (firstn_skipn n rest) in Hstep. destruct (Hstep Hst Hb) as [H1 H2].
  rewrite advance_eq, Hbd. do 3 eexists. split; [reflexivity|].
  split; [symmetry; apply firstn_skipn|]. split; [apply firstn_length_le; exact Hn|].
  split; [exact Hv2|]. split; [exact H1|]. split; [rewrite app_length; exact H2|].
  apply make_span_wf; [exact Hst|exact H1|lia].
Qed.

Lemma expand_preserves_wf : forall src a b,
  span_wf src a -> span_wf src b -> rstart a <= rend b -> span_wf src (expand a b).
Proof.
  intros src a b Ha Hb H. apply (make_span_wf src (span_start a) (span_end b));
    [apply (span_wf_ends src a Ha)|apply (span_wf_ends src b Hb)|exact H].
Qed.

Lemma expand_range : forall a b, rstart (expand a b) = rstart a /\ rend (expand a b) = rend b.
Proof. intros. split; reflexivity. Qed.

Lemma expand_needs_order : forall src a b, rend b < rstart a -> ~ span_wf src (expand a b).
Proof. intros src a b H (W & _). cbn [expand rstart rend] in W. lia. Qed.

Lemma eoi_span_wf : forall src cur, span_wf src cur -> span_wf src (eoi cur).
Proof.
  intros src cur H. apply (make_span_wf src (span_end cur) (span_end cur));
    [apply (span_wf_ends src cur H)..|apply le_n].
Qed.

Lemma eoi_is_end : forall cur, rstart (eoi cur) = rend cur /\ rend (eoi cur) = rend cur.
Proof. intros. split; reflexivity. Qed.

(* the source `{{ 1 +` and the span of its last token `+` (1:5-1:6, bytes 5..6) *)
Definition d12_src : list N := [123; 123; 32; 49; 32; 43]%N.
Definition d12_cur : span := mkspan 1 5 1 6 5 6.

Lemma d12_src_valid : valid_utf8 d12_src.
Proof.
  unfold d12_src. repeat (apply (valid_app [_]); [apply valid_single_ascii; reflexivity|]).
  constructor.
Qed.

Lemma eoi_unpatched_refuted :
  exists src cur, valid_utf8 src /\ span_wf src cur /\ ~ span_wf src (eoi_unpatched cur).
Proof.
  exists d12_src, d12_cur. split; [exact d12_src_valid|]. split.
  - apply span_wfb_ok. vm_compute. reflexivity.
  - intros H. apply span_wfb_ok in H. vm_compute in H. discriminate.
Qed.

(* in general: it pairs the byte offset of the token's start with the line/column of its end,
   so it is ill-formed as soon as these two line/columns differ *)
Lemma eoi_unpatched_wrong : forall src cur,
  span_wf src cur -> rstart cur < rend cur -> valid_utf8 src ->
  linecol src (rstart cur) <> linecol src (rend cur) -> ~ span_wf src (eoi_unpatched cur).
Proof.
  intros src cur (_ & _ & _ & _ & _ & A6) _ _ Hne (_ & _ & _ & _ & B5 & _).
  cbn [eoi_unpatched rstart start_line start_col end_line end_col] in B5. congruence.
Qed.

Definition table_wf (src : list N) (tbl : span_table) : Prop :=
  Forall (Forall (span_wf src)) tbl.

Lemma get_span_at_wf : forall src tbl i k sp,
  table_wf src tbl -> get_span_at tbl i k = Some sp -> span_wf src sp.
Proof.
  intros src tbl i k sp Hw H. unfold get_span_at in H.
  destruct (nth_error tbl i) as [spans|] eqn:E; [|discriminate].
  apply nth_error_In in E, H. unfold table_wf in Hw. rewrite Forall_forall in Hw.
  specialize (Hw spans E). rewrite Forall_forall in Hw. apply Hw. exact H.
Qed.

Lemma get_span_first : forall tbl i, get_span tbl i = get_span_at tbl i 0.
Proof. intros tbl i. unfold get_span, get_span_at. destruct (nth_error tbl i) as [[|s r]|]; reflexivity. Qed.

Lemma get_span_wf : forall src tbl i sp,
  table_wf src tbl -> get_span tbl i = Some sp -> span_wf src sp.
Proof. intros src tbl i sp. rewrite get_span_first. apply get_span_at_wf. Qed.

Lemma expand_span_spec : forall tbl s e,
  expand_span tbl (s, e) =
    match get_span tbl s, get_span tbl e with
    | Some a, Some b => Some (expand a b)
    | _, _ => None
    end.
Proof.
  intros tbl s e. unfold expand_span. destruct (get_span tbl s) as [a|] eqn:Ea; [|reflexivity].
  destruct (Nat.eqb s e) eqn:E.
  - apply Nat.eqb_eq in E. subst e. rewrite Ea. destruct a; reflexivity.
  - reflexivity.
Qed.

Lemma expand_span_wf : forall src tbl s e a b,
  table_wf src tbl -> get_span tbl s = Some a -> get_span tbl e = Some b ->
  rstart a <= rend b ->
  exists sp, expand_span tbl (s, e) = Some sp /\ span_wf src sp /\
             rstart sp = rstart a /\ rend sp = rend b.
Proof.
  intros src tbl s e a b Hw Ha Hb Hle. rewrite expand_span_spec, Ha, Hb.
  eexists. split; [reflexivity|]. split; [|split; reflexivity].
  apply expand_preserves_wf; [eapply get_span_wf; eauto|eapply get_span_wf; eauto|exact Hle].
Qed.

Definition ordered_at (tbl : span_table) (i j : nat) : Prop :=
  forall a b, get_span tbl i = Some a -> get_span tbl j = Some b -> i <= j ->
    rstart a <= rstart b /\ rend a <= rend b.

Lemma ordered_hull : forall tbl i j a b,
  ordered_at tbl i j -> ordered_at tbl j i -> get_span tbl i = Some a -> get_span tbl j = Some b ->
  exists s e, get_span tbl (Nat.min i j) = Some s /\ get_span tbl (Nat.max i j) = Some e /\
    rstart s = Nat.min (rstart a) (rstart b) /\ rend e = Nat.max (rend a) (rend b).
Proof.
  intros tbl i j a b O1 O2 Ha Hb. destruct (Nat.le_ge_cases i j) as [H|H].
  - rewrite Nat.min_l, Nat.max_r by exact H. destruct (O1 a b Ha Hb H).
    exists a, b. split; [exact Ha|]. split; [exact Hb|lia].
  - rewrite Nat.min_r, Nat.max_l by exact H. destruct (O2 b a Hb Ha H).
    exists b, a. split; [exact Hb|]. split; [exact Ha|lia].
Qed.

Lemma combine_hull : forall src tbl A B a b,
  table_wf src tbl ->
  expand_span tbl A = Some a -> expand_span tbl B = Some b ->
  rstart a <= rend a -> rstart b <= rend b ->
  ordered_at tbl (fst A) (fst B) -> ordered_at tbl (fst B) (fst A) ->
  ordered_at tbl (snd A) (snd B) -> ordered_at tbl (snd B) (snd A) ->
  exists c, expand_span tbl (combine_spans A B) = Some c /\
            rstart c = Nat.min (rstart a) (rstart b) /\
            rend c = Nat.max (rend a) (rend b) /\
            span_wf src c.
Proof.
  intros src tbl [sA eA] [sB eB] a b Hw HA HB Wa _ O1 O2 O3 O4. cbn [fst snd] in O1, O2, O3, O4.
  rewrite expand_span_spec in HA, HB.
  destruct (get_span tbl sA) as [a1|] eqn:E1; [|discriminate].
  destruct (get_span tbl eA) as [a2|] eqn:E2; [|discriminate].
  destruct (get_span tbl sB) as [b1|] eqn:E3; [|discriminate].
  destruct (get_span tbl eB) as [b2|] eqn:E4; [|discriminate].
  injection HA as <-. injection HB as <-. cbn [expand rstart rend] in Wa |- *.
  destruct (ordered_hull tbl sA sB a1 b1 O1 O2 E1 E3) as (s1 & _ & Hs1 & _ & Hs2 & _).
  destruct (ordered_hull tbl eA eB a2 b2 O3 O4 E2 E4) as (_ & e1 & _ & He1 & _ & He2).
  destruct (expand_span_wf src tbl _ _ s1 e1 Hw Hs1 He1 ltac:(lia)) as (c & Hc & Wc & Rs & Re).
  exists c. rewrite Rs, Re. split; [exact Hc|]. split; [exact Hs2|]. split; [exact He2|exact Wc].
Qed.

Lemma combine_spans_hull : forall A B,
  fst (combine_spans A B) = Nat.min (fst A) (fst B) /\
  snd (combine_spans A B) = Nat.max (snd A) (snd B).
Proof. intros. split; reflexivity. Qed.

(* fused paths: the span list of LoadPath/WritePath is the concatenation, in path order, of the
   lists of the fused instructions; when each carried one span (the compiler always gives
   LoadName/LoadAttr one), element k of the path reports the span of the k-th instruction *)
Lemma collected_spans_nth : forall (l : list span) k,
  nth_error (collected_spans (map (fun s => [s]) l)) k = nth_error l k.
Proof.
  unfold collected_spans. induction l as [|s l IH]; intros k; [reflexivity|].
  cbn [map concat app]. destruct k; [reflexivity|]. cbn [nth_error]. apply IH.
Qed.

Lemma nl_positions_app : forall a b i,
  nl_positions i (a ++ b) = nl_positions i a ++ nl_positions (i + length a) b.
Proof.
  induction a as [|x a IH]; intros b i.
  - cbn [app length nl_positions]. rewrite Nat.add_0_r. reflexivity.
  - cbn [app length nl_positions]. rewrite IH.
    replace (S i + length a) with (i + S (length a)) by lia.
    destruct (N.eqb x 10); reflexivity.
Qed.

Lemma nl_positions_length : forall l i, length (nl_positions i l) = count_nl l.
Proof.
  induction l as [|x l IH]; intros i; [reflexivity|].
  cbn [nl_positions]. rewrite count_nl_cons. fold NL.
  destruct (N.eqb x NL); cbn [length]; rewrite IH; reflexivity.
Qed.

Lemma nl_positions_In : forall l i p,
  In p (map S (nl_positions i l)) <-> exists k, p = S (i + k) /\ nth_error l k = Some NL.
Proof.
  induction l as [|x l IH]; intros i p; cbn [nl_positions].
  - split; [contradiction|]. intros ([|k] & _ & H); discriminate.
  - transitivity ((x = NL /\ p = S i) \/ In p (map S (nl_positions (S i) l))).
    { fold NL. destruct (N.eqb_spec x NL); cbn [map In]; intuition congruence. }
    rewrite IH. split.
    + intros [[-> ->]|(k & -> & H)]; [exists 0|exists (S k)]; (split; [lia|assumption || reflexivity]).
    + intros ([|k] & -> & H); [left; split; [injection H; auto|lia]|].
      right. exists k. split; [lia|exact H].
Qed.

Lemma nl_positions_sorted : forall l i, StronglySorted lt (i :: map S (nl_positions i l)).
Proof.
  induction l as [|x l IH]; intros i; [repeat constructor|].
  cbn [nl_positions]. specialize (IH (S i)).
  assert (F : Forall (lt i) (map S (nl_positions (S i) l))).
  { apply StronglySorted_inv in IH. eapply Forall_impl; [|apply IH]. intros; lia. }
  destruct (N.eqb x 10); cbn [map].
  - constructor; [exact IH|constructor; [lia|exact F]].
  - constructor; [apply StronglySorted_inv in IH; apply IH|exact F].
Qed.

Lemma line_starts_length : forall s, length (get_line_starts s) = S (count_nl s).
Proof.
  intros s. unfold get_line_starts. cbn [length]. rewrite map_length, nl_positions_length.
  reflexivity.
Qed.

(* "\r\n" is an ordinary '\n' preceded by a '\r' that stays on its line *)
Lemma line_starts_spec : forall src,
  length (get_line_starts src) = num_lines src /\
  (forall p, In p (get_line_starts src) <->
             p = 0 \/ exists i, p = S i /\ nth_error src i = Some NL) /\
  StronglySorted lt (get_line_starts src).
Proof.
  intros src. unfold get_line_starts, num_lines. split; [|split].
  - apply line_starts_length.
  - intros p. cbn [In]. rewrite nl_positions_In. cbn [Nat.add]. intuition auto.
  - apply nl_positions_sorted.
Qed.

(* what can precede the start of a line *)
Definition whole_lines (A : list N) : Prop := A = [] \/ exists A', A = A' ++ [NL].

Lemma before_first_nl_split : forall l,
  exists R, l = before_first_nl l ++ R /\ (R = [] \/ exists R', R = NL :: R') /\
            ~ In NL (before_first_nl l).
Proof.
  induction l as [|x l IH]; cbn [before_first_nl].
  - exists []. split; [reflexivity|]. split; [left; reflexivity|intros []].
  - destruct (N.eqb_spec x NL) as [->|E].
    + exists (NL :: l). split; [reflexivity|]. split; [right; eexists; reflexivity|intros []].
    + destruct IH as (R & H1 & H2 & H3). exists R. split; [cbn [app]; f_equal; exact H1|].
      split; [exact H2|]. intros [H|H]; [congruence|contradiction].
Qed.

Lemma after_last_nl_split : forall l,
  exists A, l = A ++ after_last_nl l /\ whole_lines A /\ ~ In NL (after_last_nl l).
Proof.
  intros l. destruct (before_first_nl_split (rev l)) as (R & H1 & H2 & H3).
  exists (rev R). unfold after_last_nl. split; [|split].
  - rewrite <- rev_app_distr, <- H1. symmetry. apply rev_involutive.
  - destruct H2 as [->|(R' & ->)]; [left; reflexivity|right]. exists (rev R'). reflexivity.
  - intros H. apply H3. apply in_rev. exact H.
Qed.

Lemma source_cut : forall src off,
  exists A R,
    src = A ++ line_containing src off ++ R /\ whole_lines A /\
    (R = [] \/ exists R', R = NL :: R') /\
    ~ In NL (line_containing src off) /\
    count_nl A = count_nl (firstn off src).
Proof.
  intros src off.
  destruct (after_last_nl_split (firstn off src)) as (A & H1 & H2 & H3).
  destruct (before_first_nl_split (skipn off src)) as (R & H4 & H5 & H6).
  exists A, R. unfold line_containing. split; [|split; [exact H2|split; [exact H5|split]]].
  - rewrite <- app_assoc. rewrite <- H4. rewrite app_assoc, <- H1. symmetry. apply firstn_skipn.
  - intros H. apply in_app_or in H. tauto.
  - rewrite H1 at 1. apply count_nl_zero_iff in H3. rewrite count_nl_app, H3. lia.
Qed.

Lemma line_start_nth : forall A X, whole_lines A ->
  nth_error (get_line_starts (A ++ X)) (count_nl A) = Some (length A).
Proof.
  intros A X [->|(A' & ->)]; [reflexivity|]. unfold get_line_starts.
  rewrite <- app_assoc, !nl_positions_app, count_nl_app, app_length, !Nat.add_1_r.
  cbn [nth_error nl_positions app].
  rewrite map_app, nth_error_app2; rewrite map_length, nl_positions_length; [|lia].
  rewrite Nat.sub_diag. reflexivity.
Qed.

Lemma drop_leading_nl_id : forall l,
  match l with [] => True | h :: _ => h <> NL end -> drop_leading_nl l = l.
Proof.
  intros [|h t] H; [reflexivity|]. cbn [drop_leading_nl]. apply N.eqb_neq in H. unfold NL in H.
  rewrite H. reflexivity.
Qed.

Lemma trim_end_nl_id : forall l, ~ In NL l -> trim_end_nl l = l.
Proof.
  intros l H. unfold trim_end_nl. rewrite drop_leading_nl_id; [apply rev_involutive|].
  destruct (rev l) as [|h t] eqn:E; [exact I|]. intros ->. apply H. apply in_rev. rewrite E. left. reflexivity.
Qed.

Lemma trim_end_nl_snoc : forall l, trim_end_nl (l ++ [NL]) = trim_end_nl l.
Proof. intros l. unfold trim_end_nl. rewrite rev_app_distr. reflexivity. Qed.

Lemma boundary_line_start : forall A X,
  valid_utf8 (A ++ X) -> whole_lines A -> is_char_boundary (A ++ X) (length A) = true.
Proof.
  intros A X Hv [->|(A' & ->)]; [reflexivity|].
  rewrite app_length. apply (boundary_after_lead _ Hv _ NL); [|reflexivity].
  rewrite <- app_assoc. apply nth_error_mid.
Qed.

Lemma str_slice_mid : forall A M R,
  is_char_boundary (A ++ M ++ R) (length A) = true ->
  is_char_boundary ((A ++ M) ++ R) (length (A ++ M)) = true ->
  str_slice (A ++ M ++ R) (length A) (length A + length M) = Some M.
Proof.
  intros A M R H1 H2. rewrite <- app_assoc, app_length in H2. unfold str_slice. rewrite H1, H2.
  rewrite !(proj2 (Nat.leb_le _ _)) by (rewrite ?app_length; lia).
  cbn [andb]. rewrite skipn_app_exact, Nat.add_comm, Nat.add_sub, firstn_app_exact. reflexivity.
Qed.

(* the slice SourceLocation::new takes for line k+1: from line_starts[k] to line_starts[k+1], or
   to the end of the source for the last line *)
Definition line_slice (src : list N) (k : nat) : option (list N) :=
  let ls := get_line_starts src in
  if Nat.eqb (S k) (length ls)
  then match nth_error ls k with Some a => str_slice src a (length src) | None => None end
  else match nth_error ls k, nth_error ls (S k) with
       | Some a, Some b => str_slice src a b
       | _, _ => None
       end.

Lemma line_slice_cut : forall A L R,
  valid_utf8 (A ++ L ++ R) -> whole_lines A -> (R = [] \/ exists R', R = NL :: R') -> ~ In NL L ->
  exists raw, line_slice (A ++ L ++ R) (count_nl A) = Some raw /\ trim_end_nl raw = L.
Proof.
  intros A L R Hv HA HR HL. pose proof HL as HL0. apply count_nl_zero_iff in HL0.
  unfold line_slice.
  rewrite (line_start_nth A (L ++ R) HA), line_starts_length, !count_nl_app, HL0.
  destruct HR as [->|(R' & ->)].
  - replace (_ =? _) with true by (symmetry; apply Nat.eqb_eq; cbn; lia).
    exists L. split; [|apply trim_end_nl_id; exact HL].
    rewrite !app_length, Nat.add_0_r.
    apply str_slice_mid; [apply boundary_line_start; assumption|apply boundary_app; constructor].
  - replace (_ =? _) with false
      by (symmetry; apply Nat.eqb_neq; rewrite count_nl_cons; cbn; lia).
    exists (L ++ [NL]). split; [|rewrite trim_end_nl_snoc; apply trim_end_nl_id; exact HL].
    (* the next line starts after A ++ L ++ [NL] *)
    change (NL :: R') with ([NL] ++ R') in Hv |- *. rewrite (app_assoc L), app_assoc in Hv |- *.
    assert (HAL : whole_lines (A ++ L ++ [NL])) by (right; exists (A ++ L); apply app_assoc).
    replace (S (count_nl A)) with (count_nl (A ++ L ++ [NL]))
      by (rewrite !count_nl_app, HL0; cbn; lia).
    rewrite (line_start_nth _ R' HAL).
    pose proof (boundary_line_start _ R' Hv HAL) as B2.
    rewrite <- app_assoc in Hv |- *. rewrite app_length.
    apply str_slice_mid; [apply boundary_line_start; assumption|exact B2].
Qed.

Definition underline_width (sp : span) : nat :=
  if start_col sp <? end_col sp then end_col sp - start_col sp else 1.

Lemma source_location_new_some : forall src sp k raw,
  start_line sp = S k -> line_slice src k = Some raw ->
  exists pad, source_location_new src sp =
      Some (mksl (trim_end_nl raw) (pad ++ repeat 94%N (underline_width sp))
                 (start_line sp) (start_col sp)) /\
    length pad <= start_col sp.
Proof.
  intros src sp k raw Hk Hraw. unfold source_location_new. rewrite Hk.
  fold (line_slice src k). rewrite Hraw. eexists. split; [reflexivity|].
  rewrite map_length. apply firstn_le_length.
Qed.

Lemma source_location_at : forall src sp off,
  valid_utf8 src -> off <= length src -> start_line sp = fst (linecol src off) ->
  exists loc pad, source_location_new src sp = Some loc /\
    sl_line loc = line_containing src off /\
    sl_start_line loc = start_line sp /\ sl_start_col loc = start_col sp /\
    sl_underline loc = pad ++ repeat 94%N (underline_width sp) /\ length pad <= start_col sp.
Proof.
  intros src sp off Hv _ Hline.
  destruct (source_cut src off) as (A & R & Hsrc & HA & HR & HL & Hc).
  unfold linecol in Hline. cbn [fst] in Hline. rewrite <- Hc in Hline.
  remember (line_containing src off) as L eqn:HeqL. clear HeqL. subst src.
  destruct (line_slice_cut A L R Hv HA HR HL) as (raw & Hraw & <-).
  destruct (source_location_new_some _ sp _ raw Hline Hraw) as (pad & -> & Hpad).
  eexists. exists pad. repeat split. exact Hpad.
Qed.

Lemma line_has_offset : forall src m, m <= count_nl src ->
  exists off, off <= length src /\ count_nl (firstn off src) = m.
Proof.
  induction src as [|b t IH]; intros m Hm.
  - exists 0. cbn in Hm |- *. lia.
  - destruct m as [|m]; [exists 0; split; [lia|reflexivity]|].
    rewrite count_nl_cons in Hm.
    (* b is counted for the prefix exactly when it is counted for the whole *)
    destruct (IH (S m - if N.eqb b NL then 1 else 0)) as (off & H1 & H2);
      [destruct (N.eqb b NL); lia|].
    exists (S off). cbn [length firstn]. rewrite count_nl_cons, H2.
    split; [lia|destruct (N.eqb b NL); lia].
Qed.

Lemma source_location_defined : forall src sp,
  valid_utf8 src -> 1 <= start_line sp <= num_lines src ->
  exists loc, source_location_new src sp = Some loc.
Proof.
  intros src sp Hv [H1 H2]. unfold num_lines in H2.
  destruct (line_has_offset src (start_line sp - 1) ltac:(lia)) as (off & Ho & Hc).
  destruct (source_location_at src sp off Hv Ho) as (loc & pad & H & _).
  - unfold linecol. cbn [fst]. lia.
  - exists loc. exact H.
Qed.

Lemma source_location_panics : forall src sp,
  start_line sp = 0 \/ num_lines src < start_line sp -> source_location_new src sp = None.
Proof.
  intros src sp H. unfold source_location_new.
  destruct (start_line sp) as [|k]; [reflexivity|]. destruct H as [H|H]; [discriminate|].
  pose proof (line_starts_length src) as Hlen. unfold num_lines in H.
  destruct (Nat.eqb_spec (S k) (length (get_line_starts src))) as [E|_]; [lia|].
  assert (nth_error (get_line_starts src) (S k) = None) as -> by (apply nth_error_None; lia).
  destruct (nth_error (get_line_starts src) k); reflexivity.
Qed.

Lemma linecol_line_range : forall src off, 1 <= fst (linecol src off) <= num_lines src.
Proof.
  intros src off. unfold linecol, num_lines. cbn [fst]. split; [lia|].
  rewrite <- (firstn_skipn off src) at 2. rewrite count_nl_app. lia.
Qed.

Lemma loc_ok_line_range : forall src st, loc_ok src st -> 1 <= l_line st <= num_lines src.
Proof.
  intros src st (_ & _ & H).
  change (l_line st) with (fst (l_line st, l_col st)). rewrite H. apply linecol_line_range.
Qed.

Lemma source_location_span : forall src sp, valid_utf8 src -> span_wf src sp ->
  exists loc, source_location_new src sp = Some loc /\
    sl_line loc = line_containing src (rstart sp).
Proof.
  intros src sp Hv (W1 & W2 & _ & _ & W5 & _).
  destruct (source_location_at src sp (rstart sp) Hv) as (loc & pad & H1 & H2 & _);
    [lia|rewrite <- W5; reflexivity|].
  exists loc. split; assumption.
Qed.

Definition infix (x l : list N) : Prop := exists a b, l = a ++ x ++ b.

Lemma infix_app_l : forall x a l, infix x l -> infix x (a ++ l).
Proof. intros x a l (p & q & ->). exists (a ++ p), q. rewrite <- app_assoc. reflexivity. Qed.

Lemma infix_app_r : forall x l b, infix x l -> infix x (l ++ b).
Proof. intros x l b (p & q & ->). exists p, (q ++ b). rewrite <- !app_assoc. reflexivity. Qed.

Lemma infix_here : forall x b, infix x (x ++ b).
Proof. intros x b. exists [], b. reflexivity. Qed.

(* x is one of the pieces of a right-nested concatenation x1 ++ x2 ++ ... ++ xn ++ rest *)
Ltac infix_piece := repeat first [apply infix_here | apply infix_app_l].

Lemma location_block_quotes : forall l, infix (sl_line l) (location_block l).
Proof. intros l. unfold location_block. infix_piece. Qed.

Definition note_ok (n : note) : Prop := valid_utf8 (n_source n) /\ span_wf (n_source n) (n_span n).

Lemma note_text_total : forall n, note_ok n ->
  exists t, note_text n = Some t /\
    infix (line_containing (n_source n) (rstart (n_span n))) t /\
    infix (n_label n) t /\ infix (n_filename n) t.
Proof.
  intros n [Hv Hw]. destruct (source_location_span _ _ Hv Hw) as (loc & H1 & <-).
  unfold note_text. rewrite H1. eexists. split; [reflexivity|].
  split; [infix_piece; apply location_block_quotes|]. split; infix_piece.
Qed.

Lemma notes_text_total : forall ns, Forall note_ok ns ->
  exists t, notes_text ns = Some t /\
    Forall (fun n => infix (line_containing (n_source n) (rstart (n_span n))) t /\
                     infix (n_label n) t /\ infix (n_filename n) t) ns.
Proof.
  induction 1 as [|n ns Hn Hns IH].
  - exists []. split; [reflexivity|constructor].
  - destruct (note_text_total n Hn) as (a & Ha & I1 & I2 & I3). destruct IH as (b & Hb & IHf).
    cbn [notes_text]. rewrite Ha, Hb. eexists. split; [reflexivity|]. constructor.
    + repeat split; apply infix_app_r; assumption.
    + eapply Forall_impl; [|exact IHf]. intros n' (J1 & J2 & J3).
      repeat split; apply infix_app_l; assumption.
Qed.

Lemma report_total : forall e,
  valid_utf8 (r_source e) -> span_wf (r_source e) (r_span e) -> Forall note_ok (r_notes e) ->
  exists txt, generate_report e = Some txt /\
    infix (line_containing (r_source e) (rstart (r_span e))) txt /\
    infix (r_message e) txt /\ infix (r_filename e) txt /\
    Forall (fun n => infix (line_containing (n_source n) (rstart (n_span n))) txt /\
                     infix (n_label n) txt /\ infix (n_filename n) txt) (r_notes e).
Proof.
  intros e Hv Hw Hn. destruct (source_location_span _ _ Hv Hw) as (loc & H1 & <-).
  destruct (notes_text_total (r_notes e) Hn) as (t & Ht & Hf).
  unfold generate_report. rewrite H1, Ht. eexists. split; [reflexivity|].
  split; [apply infix_app_r; infix_piece; apply location_block_quotes|].
  split; [apply infix_app_r; infix_piece|]. split; [apply infix_app_r; infix_piece|].
  eapply Forall_impl; [|exact Hf]. intros n (J1 & J2 & J3).
  repeat split; apply infix_app_l; assumption.
Qed.

Definition registry_ok (templates : list N -> option (list N * list N))
    (source_of : list N -> list N) : Prop :=
  forall n r, templates n = Some r -> r = (n, source_of n).

Lemma report_target_is_chunk_owner : forall tpl_name chunk_name templates source_of r,
  registry_ok templates source_of ->
  report_target tpl_name (source_of tpl_name) chunk_name templates = Some r ->
  r = (chunk_name, source_of chunk_name).
Proof.
  intros tpl_name chunk_name templates source_of r Hreg H. unfold report_target in H.
  destruct (list_eq_dec N.eq_dec tpl_name chunk_name) as [->|Hne].
  - injection H as <-. reflexivity.
  - apply Hreg. exact H.
Qed.

(* the states the tokenizer can be in: it starts at loc_init with the whole source unread and
   only ever moves by advance! (any number of bytes; off a character boundary it panics).  This
   over-approximates basic_tokenize: every choice of lengths is allowed, so which lengths
   lexer.rs picks does not matter, and Model/Lexer.v (with its own advance_loc) is not used. *)
Inductive lex_reach (src : list N) : loc -> list N -> Prop :=
| lr_init : lex_reach src loc_init src
| lr_step : forall st rest n st' skipped rest',
    lex_reach src st rest -> advance st rest n = Some (st', skipped, rest') ->
    lex_reach src st' rest'.

Lemma lex_reach_inv : forall src, valid_utf8 src -> forall st rest, lex_reach src st rest ->
  exists pre, src = pre ++ rest /\ l_byte st = length pre /\ valid_utf8 rest /\ loc_ok src st.
Proof.
  intros src Hv st rest H. induction H as [|st rest n st' skipped rest' Hr IH Ha].
  - exists []. split; [reflexivity|]. split; [reflexivity|]. split; [exact Hv|apply loc_init_ok].
  - destruct IH as (pre & -> & Hb & Hvr & Hok).
    assert (Hbd : is_char_boundary rest n = true).
    { rewrite advance_eq in Ha. destruct (is_char_boundary rest n); [reflexivity|discriminate]. }
    destruct (advance_keeps_invariant pre rest st n Hvr Hok Hb (boundary_le rest n Hbd) Hbd)
      as (st2 & sk2 & r2 & Ha2 & -> & _ & Hv2 & Hok2 & Hb2 & _).
    rewrite Ha in Ha2. injection Ha2 as <- <- <-.
    exists (pre ++ skipped). split; [apply app_assoc|].
    split; [exact Hb2|]. split; [exact Hv2|exact Hok2].
Qed.

(* spans the parser derives from token spans: Span::expand towards a later token, eoi() *)
Inductive parser_span (src : list N) : span -> Prop :=
| ps_token : forall a ra b rb, lex_reach src a ra -> lex_reach src b rb -> l_byte a <= l_byte b ->
    parser_span src (make_span a b)
| ps_expand : forall x y, parser_span src x -> parser_span src y -> rstart x <= rend y ->
    parser_span src (expand x y)
| ps_eoi : forall x, parser_span src x -> parser_span src (eoi x).

Lemma parser_span_wf : forall src sp, valid_utf8 src -> parser_span src sp -> span_wf src sp.
Proof.
  intros src sp Hv H. induction H as [a ra b rb Ha Hb Hle|x y Hx IHx Hy IHy Hle|x Hx IHx].
  - destruct (lex_reach_inv src Hv a ra Ha) as (_ & _ & _ & _ & Hoka).
    destruct (lex_reach_inv src Hv b rb Hb) as (_ & _ & _ & _ & Hokb).
    apply make_span_wf; assumption.
  - apply expand_preserves_wf; assumption.
  - apply eoi_span_wf; assumption.
Qed.

Lemma parser_span_line_in_table : forall src sp, valid_utf8 src -> parser_span src sp ->
  1 <= start_line sp <= length (get_line_starts src) /\
  1 <= end_line sp <= length (get_line_starts src).
Proof.
  intros src sp Hv H. apply (parser_span_wf src sp Hv), span_wf_ends in H.
  rewrite line_starts_length.
  split; [apply (loc_ok_line_range src (span_start sp))|apply (loc_ok_line_range src (span_end sp))];
    apply H.
Qed.

Definition note_from_lexer (n : note) : Prop :=
  valid_utf8 (n_source n) /\ parser_span (n_source n) (n_span n).

Lemma lexer_report_total : forall e,
  valid_utf8 (r_source e) -> parser_span (r_source e) (r_span e) ->
  Forall note_from_lexer (r_notes e) ->
  exists txt, generate_report e = Some txt /\
    infix (line_containing (r_source e) (rstart (r_span e))) txt /\
    Forall (fun n => infix (line_containing (n_source n) (rstart (n_span n))) txt /\
                     infix (n_label n) txt /\ infix (n_filename n) txt) (r_notes e).
Proof.
  intros e Hv Hs Hn.
  destruct (report_total e Hv (parser_span_wf _ _ Hv Hs)) as (txt & H1 & H2 & _ & _ & H5).
  - eapply Forall_impl; [|exact Hn]. intros n [Hvn Hsn]. split; [exact Hvn|].
    apply parser_span_wf; assumption.
  - exists txt. repeat split; assumption.
Qed.
