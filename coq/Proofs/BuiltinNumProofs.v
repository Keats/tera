(* The built-ins that compute with numbers, for Props/C17.v: `range`, the integer argument
   conversion and the kwargs lookup, the type tests, `default`, `abs`, `int`, `str` (printing an
   integer in decimal and parsing it back) and `round`. *)
From Coq Require Import String.
From TeraV Require Import Model.Value Model.StrOps Model.Builtins Spec.BuiltinLaws Gen.Tables Proofs.IntRange Proofs.Numeral.
Open Scope Z_scope.

Lemma false_iff_not (b : bool) (P : Prop) : (b = true <-> P) -> (b = false <-> ~ P).
Proof. intros <-. destruct b; split; congruence. Qed.

Lemma in_i128_false z : in_i128 z = false <-> ~ (i128_min <= z <= i128_max).
Proof. apply false_iff_not, in_i128_iff. Qed.

(* Spec's I128_MIN, I128_MAX and Model's i128_min, i128_max are the same numbers *)
Lemma fits_iff z : fits_i128 z <-> i128_min <= z <= i128_max.
Proof. reflexivity. Qed.

(* what the proofs below use of the two bounds; with it `lia` never sees the 39-digit numerals *)
Lemma i128_min_max : i128_min = - (i128_max + 1) /\ 0 < i128_max.
Proof. split; reflexivity. Qed.

Lemma div_bounds t k : 0 < k -> k * (t / k) <= t < k * (t / k + 1).
Proof. intro Hk. split; [apply Z.mul_div_le|apply Z.mul_succ_div_gt]; exact Hk. Qed.

Lemma ceil_count t k i : 0 < k -> (i * k < t <-> i < (t + k - 1) / k).
Proof. intro Hk. pose proof (div_bounds (t + k - 1) k Hk). split; intro; nia. Qed.

Lemma range_count_terms start end_ step i : 0 <= i ->
  (0 < step -> (start + i * step < end_ <-> i < range_count start end_ step)) /\
  (step < 0 -> (end_ < start + i * step <-> i < range_count start end_ step)).
Proof.
  intro Hi. unfold range_count. split; intro Hs.
  - rewrite (proj2 (Z.ltb_lt 0 step) Hs). destruct (Z.ltb_spec start end_); [|nia].
    rewrite <- ceil_count by exact Hs. lia.
  - rewrite (proj2 (Z.ltb_ge 0 step)), (proj2 (Z.ltb_lt step 0) Hs) by lia.
    destruct (Z.ltb_spec end_ start); [|nia].
    rewrite <- ceil_count, Z.mul_opp_r by lia. lia.
Qed.

(* the inputs on which the checked arithmetic of `range` gives up although the progression is
   representable (the known class) *)
Definition range_overflow_class (start end_ step : Z) : Prop :=
  (0 < step /\ start <= end_ /\ ~ (end_ - start + (step - 1) <= i128_max)) \/
  (step < 0 /\ end_ < start /\ (step = i128_min \/ ~ (start - end_ + (- step - 1) <= i128_max))).

Lemma range_count_ceil start end_ step :
  0 < step -> start <= end_ -> range_count start end_ step = (end_ - start + step - 1) / step.
Proof.
  intros Hs Hle. unfold range_count. rewrite (proj2 (Z.ltb_lt 0 step) Hs).
  destruct (Z.ltb_spec start end_) as [Hlt|Hge]; [reflexivity|].
  symmetry. apply Z.div_small. lia.
Qed.

(* the checked arithmetic that both directions of `range_len` end in: ceil(span / k), unless
   span + (k - 1) leaves i128 *)
Lemma checked_ceil span k :
  0 <= span -> 0 < k ->
  (if negb (in_i128 span) then BErr EOther
   else if negb (in_i128 (span + (k - 1))) then BErr EOther
   else BOk (Z.quot (span + (k - 1)) k)) =
  if span + (k - 1) <=? i128_max then BOk ((span + k - 1) / k) else BErr EOther.
Proof.
  intros Hs Hk. destruct i128_min_max as [Hm _].
  destruct (Z.leb_spec (span + (k - 1)) i128_max) as [Hle|Hgt].
  - rewrite !(proj2 (in_i128_iff _)) by lia. cbn [negb].
    rewrite Z.quot_div_nonneg by lia. do 2 f_equal. lia.
  - rewrite (proj2 (in_i128_false (span + (k - 1)))) by lia. destruct (in_i128 span); reflexivity.
Qed.

Lemma range_len_spec start end_ step :
  range_overflow_class start end_ step /\ range_len start end_ step = BErr EOther \/
  ~ range_overflow_class start end_ step /\
  range_len start end_ step =
    if (step =? 0) || ((end_ <? start) && (0 <? step)) then BErr EOther
    else BOk (range_count start end_ step).
Proof.
  destruct i128_min_max as [Hm Hp]. unfold range_len, range_overflow_class. cbv zeta.
  destruct (Z.eqb_spec step 0) as [->|Hz]; [right; rewrite andb_false_r; split; [lia|reflexivity]|].
  destruct (Z.ltb_spec 0 step) as [Hs|Hs].
  - destruct (Z.ltb_spec end_ start) as [Hlt|Hle]; [right; split; [lia|reflexivity]|]. cbn [andb orb].
    rewrite checked_ceil, range_count_ceil by lia.
    destruct (Z.leb_spec (end_ - start + (step - 1)) i128_max); [right|left]; (split; [lia|reflexivity]).
  - rewrite andb_false_r. cbn [orb]. unfold range_count.
    rewrite (proj2 (Z.ltb_ge 0 step) Hs), (proj2 (Z.ltb_lt step 0)) by lia.
    destruct (Z.leb_spec start end_) as [Hle|Hlt].
    { right. rewrite (proj2 (Z.ltb_ge end_ start) Hle). split; [lia|reflexivity]. }
    rewrite (proj2 (Z.ltb_lt end_ start) Hlt).
    destruct (Z.leb_spec (- step) i128_max) as [Hst|Hst].
    2:{ left. rewrite (proj2 (in_i128_false (- step))) by lia. split; [lia|reflexivity]. }
    rewrite (proj2 (in_i128_iff (- step))) by lia. cbn [negb]. rewrite checked_ceil by lia.
    destruct (Z.leb_spec (start - end_ + (- step - 1)) i128_max); [right|left]; (split; [lia|reflexivity]).
Qed.

Lemma range_values_ok n : forall i start step,
  0 <= i ->
  (forall j, i <= j < i + Z.of_nat n -> in_i128 (j * step) = true /\ in_i128 (start + j * step) = true) ->
  range_values n i start step = Some (map (fun k => start + (i + Z.of_nat k) * step) (seq 0 n)).
Proof.
  induction n as [|n IH]; intros i start step Hi H; [reflexivity|].
  cbn [range_values].
  destruct (H i ltac:(lia)) as [A B]. rewrite A, B. cbn [andb].
  rewrite (IH (i + 1) start step ltac:(lia)).
  2:{ intros j Hj. apply H. lia. }
  cbn [seq map]. f_equal. f_equal.
  - f_equal. lia.
  - rewrite <- seq_shift, map_map. apply map_ext. intro k. f_equal. f_equal. lia.
Qed.

Lemma range_terms_fit start end_ step j :
  fits_i128 start -> fits_i128 end_ -> fits_i128 step ->
  ~ range_overflow_class start end_ step ->
  0 <= j < range_count start end_ step ->
  in_i128 (j * step) = true /\ in_i128 (start + j * step) = true.
Proof.
  intros H1 H2 H3 Hc Hj. unfold range_overflow_class in Hc.
  rewrite fits_iff in H1, H2, H3. destruct i128_min_max as [Hm _].
  rewrite !in_i128_iff.
  destruct (Z.lt_trichotomy 0 step) as [Hp|[<-|Hn]].
  - assert (Hlt : start + j * step < end_) by (apply (range_count_terms start end_ step j); lia).
    assert (0 <= j * step) by nia. lia.
  - (* step 0: range_count tests 0 <? step and step <? 0 and answers 0 *)
    change (range_count start end_ 0) with 0 in Hj. lia.
  - assert (Hlt : end_ < start + j * step) by (apply (range_count_terms start end_ step j); lia).
    assert (j * step <= 0) by nia. lia.
Qed.

Lemma range_core_spec start end_ step :
  fits_i128 start -> fits_i128 end_ -> fits_i128 step ->
  ~ range_overflow_class start end_ step ->
  range_core start end_ step =
    if (step =? 0) || ((end_ <? start) && (0 <? step)) then BErr EOther
    else if max_range_len <? range_count start end_ step then BErr EOther
    else BOk (VArr (map (VInt I128) (progression start step (Z.to_nat (range_count start end_ step))))).
Proof.
  intros H1 H2 H3 Hc. unfold range_core.
  destruct (range_len_spec start end_ step) as [[Hc' _]|[_ ->]]; [contradiction|].
  destruct ((step =? 0) || ((end_ <? start) && (0 <? step))); [reflexivity|]. cbn [bbind].
  destruct (max_range_len <? range_count start end_ step); [reflexivity|].
  rewrite (range_values_ok _ 0 start step); [reflexivity|lia|].
  intros j Hj. apply (range_terms_fit start end_ step j H1 H2 H3 Hc). lia.
Qed.

Lemma range_core_never_panics start end_ step :
  fits_i128 start -> fits_i128 end_ -> fits_i128 step ->
  range_core start end_ step <> BErr EPanic.
Proof.
  intros H1 H2 H3. destruct (range_len_spec start end_ step) as [[_ E]|[Hc _]].
  - unfold range_core. rewrite E. discriminate.
  - rewrite range_core_spec by assumption.
    destruct ((step =? 0) || ((end_ <? start) && (0 <? step))); [discriminate|].
    destruct (max_range_len <? range_count start end_ step); discriminate.
Qed.

(* a representable two-element progression that the code refuses *)
Lemma range_overflow_witness :
  exists start end_ step,
    fits_i128 start /\ fits_i128 end_ /\ fits_i128 step /\
    range_overflow_class start end_ step /\
    range_count start end_ step = 2 /\
    Forall fits_i128 (progression start step 2) /\
    range_core start end_ step = BErr EOther.
Proof.
  exists (-2), i128_max, i128_max.
  repeat split; try discriminate.
  - left. destruct i128_min_max; lia.
  - repeat constructor; discriminate.
Qed.

(* exact integer value of a float, stated on mantissa and exponent *)
Definition sf_exact_int (f : spec_float) (z : Z) : Prop :=
  match f with
  | S754_zero _ => z = 0
  | S754_finite s m e =>
      let x := if s then - Z.pos m else Z.pos m in
      if 0 <=? e then z = x * 2 ^ e else z * 2 ^ (- e) = x
  | _ => False
  end.

Lemma sf_int_exact f z : sf_int f = FInt z <-> sf_exact_int f z.
Proof.
  destruct f as [s|s| |s m e]; unfold sf_int, sf_exact_int; cbv zeta;
    try (split; [discriminate|tauto]).
  - split; [intros [= <-]|intros ->]; reflexivity.
  - generalize (Pos2Z.is_pos m). generalize (Z.pos m). intros M HM.
    destruct (0 <=? e) eqn:E.
    + split; [intros [= <-]|intros ->; f_equal]; destruct s; ring.
    + apply Z.leb_gt in E. assert (Hk : 0 < 2 ^ (- e)) by (apply Z.pow_pos_nonneg; lia).
      generalize dependent (2 ^ (- e)). intros k Hk.
      destruct (Z.eqb_spec (M mod k) 0) as [D|D].
      * apply Z.mod_divide in D as [q ->]; [|lia]. rewrite Z.div_mul by lia.
        split; [intros [= <-]; destruct s; ring|intro H; f_equal; destruct s; nia].
      * split; [discriminate|]. intro H. destruct D. apply Z.mod_divide; [lia|].
        exists (if s then - z else z). destruct s; lia.
Qed.

Lemma in_ity_iff t z : in_ity t z = true <-> ity_min t <= z <= ity_max t.
Proof. unfold in_ity. rewrite andb_true_iff, !Z.leb_le. tauto. Qed.

Lemma float_guard_iff t z :
  (i128_min <=? z) && (z <? two127) && in_ity t z = true <->
  ity_min t <= z <= ity_max t /\ i128_min <= z < two127.
Proof. rewrite !andb_true_iff, Z.leb_le, Z.ltb_lt, in_ity_iff. tauto. Qed.

Lemma if_ok_iff {A} (b : bool) (a a' : A) e : (if b then BOk a else BErr e) = BOk a' <-> b = true /\ a = a'.
Proof. destruct b; split; [intros [= ->]; auto|intros [_ ->]; reflexivity|discriminate|intros [[=] _]]. Qed.

Lemma if_err_iff {A} (b : bool) (a : A) e e' : (if b then BOk a else BErr e) = BErr e' <-> b = false /\ e = e'.
Proof. destruct b; split; [discriminate|intros [[=] _]|intros [= ->]; auto|intros [_ ->]; reflexivity]. Qed.

Lemma arg_int_ok t v z :
  arg_int t v = BOk z <->
  (exists r, v = VInt r z /\ ity_min t <= z <= ity_max t) \/
  (exists f, v = VFloat f /\ sf_exact_int f z /\ ity_min t <= z <= ity_max t /\ i128_min <= z < two127).
Proof.
  destruct v; cbn [arg_int];
    try (split; [discriminate|intros [(? & [=] & _)|(? & [=] & _)]]).
  - split.
    + intros [H <-]%if_ok_iff. left. exists r. split; [reflexivity|apply in_ity_iff, H].
    + intros [(? & [= _ ->] & H)|(? & [=] & _)]. apply if_ok_iff. split; [apply in_ity_iff, H|reflexivity].
  - split.
    + intro H. right. exists f. destruct (sf_int f) as [z0| |] eqn:E; try discriminate.
      apply if_ok_iff in H as [G <-]. apply float_guard_iff in G. apply sf_int_exact in E. tauto.
    + intros [(? & [=] & _)|(? & [= <-] & Hx & G)]. apply sf_int_exact in Hx. rewrite Hx.
      apply if_ok_iff. split; [apply float_guard_iff, G|reflexivity].
Qed.

Lemma arg_int_invalid t v :
  arg_int t v = BErr EInvalidArg <->
  match v with
  | VInt _ _ => False
  | VFloat f => sf_int f = FNotInt
  | _ => True
  end.
Proof.
  destruct v; cbn [arg_int]; try tauto.
  - destruct (in_ity t z); split; (discriminate || tauto).
  - destruct (sf_int f) as [z0| |].
    + destruct ((i128_min <=? z0) && (z0 <? two127) && in_ity t z0); split; discriminate.
    + split; discriminate.
    + tauto.
Qed.

Lemma arg_int_out_of_range t v :
  arg_int t v = BErr EOutOfRange <->
  match v with
  | VInt _ z => ~ (ity_min t <= z <= ity_max t)
  | VFloat f =>
      match sf_int f with
      | FInt z => ~ (ity_min t <= z <= ity_max t /\ i128_min <= z < two127)
      | FInf => True
      | FNotInt => False
      end
  | _ => False
  end.
Proof.
  destruct v; cbn [arg_int]; try (split; [discriminate|tauto]).
  - rewrite if_err_iff, (false_iff_not _ _ (in_ity_iff t z)). tauto.
  - destruct (sf_int f) as [z0| |]; [|tauto|split; [discriminate|tauto]].
    rewrite if_err_iff, (false_iff_not _ _ (float_guard_iff t z0)). tauto.
Qed.

Lemma arg_int_never_other t v : arg_int t v <> BErr EMissingArg /\ arg_int t v <> BErr EOther /\ arg_int t v <> BErr EPanic.
Proof.
  destruct v; cbn [arg_int]; repeat split; try discriminate;
    try (destruct (in_ity t z); discriminate);
    destruct (sf_int f) as [z0| |]; try discriminate;
    destruct ((i128_min <=? z0) && (z0 <? two127) && in_ity t z0); discriminate.
Qed.

Lemma arg_simple_table v :
  (arg_bool v = match v with VBool b => BOk b | _ => BErr EInvalidArg end) /\
  (arg_str v = match v with VStr s _ => BOk s | _ => BErr EInvalidArg end) /\
  (arg_array v = match v with VArr l => BOk l | _ => BErr EInvalidArg end) /\
  (arg_map v = match v with VMap m => BOk m | _ => BErr EInvalidArg end) /\
  (arg_value v = BOk v) /\
  (match arg_f64 v with BOk _ => is_number v = true | BErr e => e = EInvalidArg /\ is_number v = false end) /\
  (match arg_number v with
   | BOk (NInt z) => exists r, v = VInt r z /\ i128_min <= z <= i128_max
   | BOk (NFloat f) => v = VFloat f
   | BErr EInvalidArg => is_number v = false
   | BErr EOther => exists z, v = VInt U128 z /\ ~ (i128_min <= z <= i128_max) \/ exists r z, v = VInt r z /\ ~ (i128_min <= z <= i128_max)
   | BErr _ => False
   end).
Proof.
  repeat split; destruct v; try reflexivity; cbn; try tauto.
  destruct (in_i128 z) eqn:E.
  - exists r. split; [reflexivity|]. apply in_i128_iff. assumption.
  - exists z. right. exists r, z. split; [reflexivity|]. apply in_i128_false. assumption.
Qed.

Lemma kw_get_spec {A} (conv : value -> bres A) k kw :
  kw_get conv k kw = match kw_find (s2l k) kw with
                     | None => BOk None
                     | Some v => match conv v with BOk a => BOk (Some a) | BErr e => BErr e end
                     end.
Proof. unfold kw_get. destruct (kw_find (s2l k) kw); [|reflexivity]. destruct (conv v); reflexivity. Qed.

Lemma kw_must_spec {A} (conv : value -> bres A) k kw :
  kw_must conv k kw = match kw_find (s2l k) kw with
                      | None => BErr EMissingArg
                      | Some v => conv v
                      end.
Proof.
  unfold kw_must. rewrite kw_get_spec. destruct (kw_find (s2l k) kw); [|reflexivity].
  destruct (conv v); reflexivity.
Qed.

Definition b2n (b : bool) : nat := if b then 1%nat else 0%nat.

Lemma type_tests_partition v :
  xorb (is_integer v) (is_float v) = is_number v /\
  is_defined v = negb (is_undefined v) /\
  (b2n (is_undefined v) + b2n (is_none v) + b2n (is_bool v) + b2n (is_number v) + b2n (is_string v)
   + b2n (is_array v) + b2n (is_map v) + b2n (is_bytes v) = 1)%nat /\
  is_iterable v = (is_string v || is_array v || is_map v || is_bytes v) /\
  (is_integer v = true -> is_number v = true) /\ (is_float v = true -> is_number v = true) /\
  (is_integer v && is_float v = false).
Proof. destruct v; repeat split; try reflexivity; cbn; congruence. Qed.

Lemma rem2_even z : (Z.rem z 2 =? 0) = Z.even z.
Proof.
  apply eq_true_iff_eq. rewrite Z.eqb_eq, Z.rem_mod_eq_0, Zmod_even by lia.
  destruct (Z.even z); split; congruence.
Qed.

Lemma odd_even_spec kw r z :
  i128_min <= z <= i128_max ->
  t_odd kw (VInt r z) = BOk (VBool (Z.odd z)) /\ t_even kw (VInt r z) = BOk (VBool (Z.even z)).
Proof.
  intro H. apply in_i128_iff in H. unfold t_odd, t_even, arg_number. rewrite H. cbn [bbind vb].
  rewrite rem2_even, Z.negb_even. split; reflexivity.
Qed.

Lemma divisible_by_spec kw r z d :
  i128_min <= z <= i128_max ->
  kw_find (s2l "divisor") kw = Some (VInt I128 d) -> i128_min <= d <= i128_max ->
  t_divisible_by kw (VInt r z) = BOk (VBool (negb (d =? 0) && (z mod d =? 0))).
Proof.
  intros Hz Hk Hd. unfold t_divisible_by, arg_number.
  rewrite (proj2 (in_i128_iff z) Hz). cbn [bbind].
  rewrite kw_must_spec, Hk. cbn [arg_int]. rewrite (proj2 (in_ity_iff TI128 d) Hd). cbn [bbind].
  destruct (Z.eqb_spec d 0); [reflexivity|]. cbn [negb andb].
  destruct (Z.eqb_spec z i128_min) as [->|]; [|reflexivity].
  destruct (Z.eqb_spec d (-1)) as [->|]; reflexivity.
Qed.

Lemma default_spec kw v d :
  kw_find (s2l "value") kw = Some d ->
  (kw_find (s2l "boolean") kw = None \/ kw_find (s2l "boolean") kw = Some (VBool false) ->
     f_default kw v = BOk (match v with VUndef => d | _ => v end)) /\
  (kw_find (s2l "boolean") kw = Some (VBool true) ->
     f_default kw v = BOk (if is_truthy v then v else d)).
Proof.
  intro Hd. unfold f_default. rewrite kw_must_spec, Hd. cbn [arg_value bbind].
  rewrite kw_get_spec. split.
  - intros [H|H]; rewrite H; cbn [arg_bool bbind opt_or]; destruct v; reflexivity.
  - intro H. rewrite H. cbn [arg_bool bbind opt_or]. destruct (is_truthy v); reflexivity.
Qed.

Lemma default_errors kw v :
  (kw_find (s2l "value") kw = None -> f_default kw v = BErr EMissingArg) /\
  (forall d b, kw_find (s2l "value") kw = Some d -> kw_find (s2l "boolean") kw = Some b ->
               is_bool b = false -> f_default kw v = BErr EInvalidArg).
Proof.
  unfold f_default. split.
  - intro H. rewrite kw_must_spec, H. reflexivity.
  - intros d b Hd Hb Hn. rewrite kw_must_spec, Hd. cbn [arg_value bbind].
    rewrite kw_get_spec, Hb. destruct b; try discriminate; reflexivity.
Qed.

Lemma abs_int_spec kw r z :
  rep_ok r z = true ->
  match f_abs kw (VInt r z) with
  | BOk (VInt r' z') => z' = Z.abs z /\ rep_ok r' z' = true
  | BErr e => e = EOther /\ r = I128 /\ z = i128_min
  | _ => False
  end.
Proof.
  intro H. apply rep_ok_iff in H. destruct r; cbn [f_abs].
  - split; [lia|apply rep_ok_iff; lia].
  - destruct (Z.eqb_spec z (- two63)) as [->|E]; [split; reflexivity|].
    split; [reflexivity|]. apply rep_ok_iff. lia.
  - split; [lia|apply rep_ok_iff; lia].
  - destruct (Z.eqb_spec z i128_min) as [E|E]; [tauto|].
    split; [reflexivity|]. apply rep_ok_iff. destruct i128_min_max. lia.
Qed.

Lemma abs_other_kinds kw v :
  is_number v = false -> f_abs kw v = BErr EOther.
Proof. destruct v; cbn; congruence. Qed.

Lemma int_of_int_spec r z :
  rep_ok r z = true ->
  exists r', f_int [] (VInt r z) = Some (BOk (VInt r' z)) /\ rep_ok r' z = true.
Proof.
  intro H. destruct r; cbn; eexists; (split; [reflexivity|]); try exact H.
  (* an i64 comes back as an i128 *)
  apply rep_ok_iff in H. apply rep_ok_iff. pose proof bounds_order. lia.
Qed.

Lemma int_of_float_spec f :
  f_int [] (VFloat f) =
    Some (match sf_int f with
          | FInt z => if (i128_min <=? z) && (z <? two127) then BOk (VInt I128 z) else BErr EOther
          | _ => BErr EOther
          end).
Proof.
  unfold f_int. rewrite kw_get_spec. cbn [kw_find opt_or].
  change (negb ((2 <=? 10) && (10 <=? 36))) with false. cbv iota.
  unfold float_as_integer. destruct (sf_int f) as [z| |]; try reflexivity.
  destruct ((i128_min <=? z) && (z <? two127)); reflexivity.
Qed.

Lemma digits_fuel_digits fuel : forall m acc, (N.log2 m < N.of_nat fuel)%N ->
  digits_fuel fuel (Z.of_N m) acc = digits m ++ acc.
Proof.
  induction fuel as [|f IH]; intros m acc Hf; [lia|]. cbn [digits_fuel].
  rewrite digits_eq, <- app_assoc. cbn [app].
  change 10 with (Z.of_N 10). rewrite <- N2Z.inj_mod, <- N2Z.inj_div.
  replace (Z.to_N (48 + Z.of_N (m mod 10))) with (48 + m mod 10)%N by (generalize (m mod 10)%N; lia).
  destruct (Z.ltb_spec (Z.of_N m) (Z.of_N 10)) as [H|H], (N.ltb_spec m 10) as [H'|H']; try lia; [reflexivity|].
  apply IH. pose proof (log2_div10 m H'). lia.
Qed.

Lemma dec_nonneg_digits n : 0 <= n -> dec_nonneg n = digits (Z.to_N n).
Proof.
  intros H. rewrite <- (Z2N.id n H). generalize (Z.to_N n) as m. intros m. rewrite N2Z.id.
  unfold dec_nonneg. rewrite digits_fuel_digits; [apply app_nil_r|].
  (* Z.log2 and N.log2 are the same function of the positive *)
  destruct m as [|[p|p|]]; cbn [Z.of_N Z.log2 N.log2]; lia.
Qed.

Lemma parse_digits_number l : Forall (fun c => 48 <= c <= 57)%N l -> forall a,
  parse_digits 10 l (Z.of_N a) = Some (Z.of_N (fold_left (fun a c => a * 10 + (c - 48))%N l a)).
Proof.
  induction 1 as [|c l Hc _ IH]; intros a; [reflexivity|]. cbn [parse_digits fold_left]. unfold digit_val. cbv zeta.
  rewrite (proj2 (Z.leb_le 48 _)), (proj2 (Z.leb_le _ 57)) by lia. cbn [andb]. rewrite (proj2 (Z.ltb_lt _ 10)) by lia.
  rewrite <- IH. f_equal. lia.
Qed.

(* a text that parses as digits has no sign in front *)
Lemma from_str_radix_digits b s n :
  s <> [] -> parse_digits b s 0 = Some n ->
  from_str_radix b s = (if in_i128 n then Some n else None) /\
  from_str_radix b (45%N :: s) = (if in_i128 (- n) then Some (- n) else None).
Proof.
  intros Hs Hp. destruct s as [|c t]; [congruence|]. unfold from_str_radix.
  change (N.eqb 45 45) with true. cbv iota. rewrite Hp. split; [|reflexivity].
  destruct (N.eqb_spec c 45) as [->|_]; [discriminate|].
  destruct (N.eqb_spec c 43) as [->|_]; [discriminate|]. rewrite Hp. reflexivity.
Qed.

(* printing then parsing gives the number back when it is an i128 and is refused, not wrapped,
   when it is not: `str` and `int` agree with exact arithmetic *)
Lemma dec_parse z : from_str_radix 10 (dec_of_Z z) = if in_i128 z then Some z else None.
Proof.
  assert (P : forall n, 0 <= n -> dec_nonneg n <> [] /\ parse_digits 10 (dec_nonneg n) 0 = Some n).
  { intros n Hn. rewrite dec_nonneg_digits by exact Hn. destruct (digits_spec (Z.to_N n)) as (F & V & E & _).
    split; [exact E|]. change 0 with (Z.of_N 0). rewrite (parse_digits_number _ F), V. f_equal. lia. }
  unfold dec_of_Z. destruct (Z.ltb_spec z 0) as [Hneg|Hpos].
  - destruct (P (- z)) as [N E]; [lia|]. rewrite (proj2 (from_str_radix_digits 10 _ _ N E)).
    rewrite Z.opp_involutive. reflexivity.
  - destruct (P z Hpos) as [N E]. exact (proj1 (from_str_radix_digits 10 _ _ N E)).
Qed.

(* int on a string, without a `base` argument, is i128::from_str_radix at base 10 on the trimmed
   text; a text with a dot that does not parse is left to the f64 parser (None) *)
Lemma int_of_string_spec s b :
  f_int [] (VStr s b) =
    match from_str_radix 10 (trim_ws s) with
    | Some z => Some (BOk (VInt I128 z))
    | None => if has_dot (trim_ws s) then None else Some (BErr EOther)
    end.
Proof. reflexivity. Qed.

(* the integer chosen by floor / ceil / round for the value x / k, k = 2^-e, x = +-m.  RRound:
   the bounds say | |x|/k - |r| | <= 1/2 with the upper one strict, so a tie goes away from zero;
   r has the sign of x unless it is 0 *)
Lemma round_int_spec (md : rmode) (s : bool) (m : positive) (e : Z) :
  e < 0 ->
  let k := 2 ^ (- e) in
  let x := if s then - Z.pos m else Z.pos m in
  let r := round_int md s m e in
  match md with
  | RFloor => k * r <= x < k * (r + 1)
  | RCeil => k * (r - 1) < x <= k * r
  | RRound => 2 * k * Z.abs r - k <= 2 * Z.pos m < 2 * k * Z.abs r + k /\ (r < 0 <-> (s = true /\ r <> 0))
  end.
Proof.
  intros He k x r.
  assert (Hk : 0 < k) by (apply Z.pow_pos_nonneg; lia).
  subst r. unfold round_int. fold k. fold x.
  destruct md.
  - (* RRound *) pose proof (div_bounds (2 * Z.pos m + k) (2 * k) ltac:(lia)) as B.
    assert (Ha : 0 <= (2 * Z.pos m + k) / (2 * k)) by (apply Z.div_pos; lia).
    set (a := (2 * Z.pos m + k) / (2 * k)) in *.
    replace (Z.abs (if s then - a else a)) with a by (destruct s; lia).
    split; [nia|]. destruct s; intuition (lia || congruence).
  - (* RCeil *) pose proof (div_bounds (- x) k Hk). nia.
  - (* RFloor *) pose proof (div_bounds x k Hk). nia.
Qed.
