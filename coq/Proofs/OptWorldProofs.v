(* C09 at whole-world level, part 2: the simulation between `run` on a world and `run` on its
   optimised image (see the header of Proofs/OptWorldBase.v for the architecture). *)
From TeraV Require Import Model.Value Model.Instr Model.Slice Model.Optimize Model.VM Model.StackCheck
  Model.OptWorld Model.World0 Gen.Tables Proofs.OptimizeProofs Proofs.OptimizeSim Proofs.OptWorldBase
  Proofs.VMFrames Proofs.RunStep.
From TeraV Require Proofs.CompileChecks.
Local Open Scope nat_scope.

Lemma assoc_get_map {A B} (f : A -> B) (l : list (str * A)) n :
  assoc_get (map (fun e => (fst e, f (snd e))) l) n = option_map f (assoc_get l n).
Proof.
  induction l as [|[k v] t IH]; [reflexivity|]. cbn [map assoc_get fst snd].
  destruct (str_eqb k n); [reflexivity|exact IH].
Qed.

Lemma opt_templates wd n :
  assoc_get (w_templates (opt_world wd)) n = option_map opt_tpl (assoc_get (w_templates wd) n).
Proof. apply (assoc_get_map opt_tpl). Qed.

Lemma opt_components wd n :
  assoc_get (w_components (opt_world wd)) n =
  option_map (fun dc => (fst dc, opt_chunk (snd dc))) (assoc_get (w_components wd) n).
Proof. apply (assoc_get_map (fun dc : comp_def * list instr => (fst dc, opt_chunk (snd dc)))). Qed.

Lemma find_block_opt cb : forall bs pre,
  find_block cb (blocks_opt bs) (blocks_opt pre) =
  match find_block cb bs pre with
  | Some (p, e, q) => Some (blocks_opt p, blk_opt e, blocks_opt q)
  | None => None
  end.
Proof.
  induction bs as [|[[bn lin] lvl] t IH]; intros pre; [reflexivity|].
  cbn [blocks_opt map blk_opt fst snd find_block].
  destruct (str_eqb bn cb).
  - unfold blocks_opt. rewrite map_rev. reflexivity.
  - exact (IH ((bn, lin, lvl) :: pre)).
Qed.

Lemma cons_eq_inv {A} (a b : A) l l' : a :: l = b :: l' -> a = b /\ l = l'.
Proof. intros H. split; [exact (f_equal (hd a) H)|exact (f_equal (@tl A) H)]. Qed.

Section Kit.
  Variable good : list instr -> Prop.
  Notation SB := (SB good).
  Notation SR := (SR good).

  Ltac prj := cbn [stack loops setvars caps blocks cur_block parent context global capture_block
                   block_buffer upd_stack upd_loops upd_setvars upd_caps upd_blocks upd_block_buffer
                   push store_global new_state ends map].

  Ltac sbs := unfold SB in *; prj;
    repeat match goal with H : _ /\ _ |- _ => destruct H end;
    repeat split; try assumption; try reflexivity; try congruence.

  Lemma SB_upd_stack s s' x : SB s s' -> SB (upd_stack s x) (upd_stack s' x).
  Proof. intros H. sbs. Qed.
  Lemma SB_upd_caps s s' c : SB s s' -> SB (upd_caps s c) (upd_caps s' c).
  Proof. intros H. sbs. Qed.
  Lemma SB_upd_blocks s s' b cb : SB s s' -> blocks_good good b ->
    SB (upd_blocks s b cb) (upd_blocks s' (blocks_opt b) cb).
  Proof. intros H Hb. sbs. Qed.
  Lemma SB_upd_loops s s' l l' : SB s s' -> map lf_erase l' = map lf_erase l ->
    SB (upd_loops s l) (upd_loops s' l').
  Proof. intros H Hl. sbs. Qed.

  Lemma SB_refl s : blocks s = [] -> SB s s.
  Proof. intros E. unfold SB. rewrite E. repeat split; constructor. Qed.

  Lemma SR_upd_stack oc bl bl' lo s s' x : SR oc bl bl' lo s s' -> SR oc bl bl' lo (upd_stack s x) (upd_stack s' x).
  Proof. intros [H L]. split; [apply SB_upd_stack; exact H|exact L]. Qed.
  Lemma SR_push oc bl bl' lo s s' v : SR oc bl bl' lo s s' -> SR oc bl bl' lo (push s v) (push s' v).
  Proof. intros [H L]. split; [sbs|exact L]. Qed.
  Lemma SR_upd_caps oc bl bl' lo s s' c : SR oc bl bl' lo s s' -> SR oc bl bl' lo (upd_caps s c) (upd_caps s' c).
  Proof. intros [H L]. split; [apply SB_upd_caps; exact H|exact L]. Qed.
  Lemma SR_store_global oc bl bl' lo s s' n v :
    SR oc bl bl' lo s s' -> SR oc bl bl' lo (store_global s n v) (store_global s' n v).
  Proof. intros [H L]. split; [sbs|exact L]. Qed.
  Lemma SR_upd_block_buffer oc bl bl' lo s s' b :
    SR oc bl bl' lo s s' -> SR oc bl bl' lo (upd_block_buffer s b) (upd_block_buffer s' b).
  Proof. intros [H L]. split; [sbs|exact L]. Qed.

  Lemma SB_loops s s' : SB s s' ->
    match loops s, loops s' with
    | [], [] => True
    | f :: t, f' :: t' => lf_erase f' = lf_erase f /\ map lf_erase t' = map lf_erase t
    | _, _ => False
    end.
  Proof.
    intros H. unfold SB in H. repeat match goal with H : _ /\ _ |- _ => destruct H end.
    match goal with H : map lf_erase (loops s') = _ |- _ => rename H into Hl end.
    destruct (loops s), (loops s'); cbn [map] in Hl; try discriminate Hl; [exact I|].
    exact (cons_eq_inv _ _ _ _ Hl).
  Qed.

  Lemma SR_pop oc bl bl' a lo s s' : SR oc bl bl' (a :: lo) s s' ->
    exists f t f' t', loops s = f :: t /\ loops s' = f' :: t' /\
      lf_erase f' = lf_erase f /\ lok (lf_end_ip f) a /\ end_rel oc (lf_end_ip f) (lf_end_ip f') /\
      SR oc bl bl' lo (upd_loops s t) (upd_loops s' t').
  Proof.
    intros [HB HL]. pose proof (SB_loops _ _ HB) as HLs. unfold ends in HL.
    destruct (LR_pop _ _ _ _ _ _ _ HL) as (e & e' & es & es' & E1 & E2 & Hk & Hr & HL').
    destruct (loops s) as [|f t]; [discriminate E1|]. destruct (loops s') as [|f' t']; [discriminate E2|].
    destruct HLs as [H1 H2]. injection E1 as <- <-. injection E2 as <- <-.
    exists f, t, f', t'. do 5 (split; [reflexivity || assumption|]).
    split; [apply SB_upd_loops; assumption|exact HL'].
  Qed.

  Lemma SR_frame oc bl bl' a lo s s' f f' : SR oc bl bl' lo s s' ->
    lf_erase f' = lf_erase f -> lok (lf_end_ip f) a -> end_rel oc (lf_end_ip f) (lf_end_ip f') ->
    SR oc bl bl' (a :: lo) (upd_loops s (f :: loops s)) (upd_loops s' (f' :: loops s')).
  Proof.
    intros [HB HL] He Hk Hr. split; [|exact (LR_cons _ _ _ _ _ _ _ _ _ Hk Hr HL)].
    apply SB_upd_loops; [exact HB|]. cbn [map]. rewrite He. f_equal. apply HB.
  Qed.

  Lemma SR_store_local oc bl bl' lo s s' n v :
    SR oc bl bl' lo s s' -> SR oc bl bl' lo (store_local s n v) (store_local s' n v).
  Proof.
    intros [H L]. pose proof (SB_loops _ _ H) as HL. unfold store_local.
    unfold ends in L.
    destruct (loops s) as [|f t] eqn:E, (loops s') as [|f' t'] eqn:E'; try contradiction.
    - apply SR_store_global. split; [exact H|]. unfold ends. rewrite E, E'. exact L.
    - destruct HL as [H1 H2]. split.
      + apply SB_upd_loops; [exact H|]. cbn [map]. rewrite (erase_inv _ _ H1), H2. reflexivity.
      + unfold ends. prj. exact L.
  Qed.

  Lemma SB_scope s s' : SB s s' -> scope_erase (scope_of s') = scope_erase (scope_of s).
  Proof.
    intros H. unfold SB in H. repeat match goal with H : _ /\ _ |- _ => destruct H end.
    unfold scope_of. cbn [scope_erase].
    repeat match goal with H : _ s' = _ s |- _ => rewrite H; clear H end.
    match goal with H : map lf_erase (loops s') = _ |- _ => rewrite H end.
    match goal with H : option_map scope_erase (parent s') = _ |- _ => rename H into Hp end.
    destruct (parent s), (parent s'); cbn in Hp; try discriminate Hp; [injection Hp as ->|]; reflexivity.
  Qed.

  Lemma SB_reads {A} (F : scope -> A) s s' :
    (forall sc, F sc = F (scope_erase sc)) -> SB s s' -> F (scope_of s') = F (scope_of s).
  Proof. intros HF H. rewrite (HF (scope_of s')), (HF (scope_of s)), (SB_scope _ _ H). reflexivity. Qed.

  Lemma SB_get_value s s' n : SB s s' -> get_value s' n = get_value s n.
  Proof. apply (SB_reads (fun sc => scope_get sc n)). intros sc. symmetry. apply scope_get_erase. Qed.

  Lemma fold_erase_irrel (G : ctx -> loop_frame -> ctx) :
    (forall a f f', lf_erase f' = lf_erase f -> G a f' = G a f) ->
    forall l l' c, map lf_erase l' = map lf_erase l -> fold_left G l' c = fold_left G l c.
  Proof.
    intros HG. induction l as [|f l IH]; intros [|f' l'] c H; try discriminate H; [reflexivity|].
    cbn [map] in H. destruct (cons_eq_inv _ _ _ _ H) as [H1 H2]. cbn [fold_left].
    rewrite (HG c _ _ H1). apply IH. exact H2.
  Qed.

  Lemma SB_dump s s' : SB s s' -> dump_context s' = dump_context s.
  Proof.
    intros H. unfold SB in H. repeat match goal with H : _ /\ _ |- _ => destruct H end.
    unfold dump_context. cbv zeta.
    repeat match goal with H : _ s' = _ s |- _ => rewrite H; clear H end.
    match goal with H : map lf_erase (loops s') = _ |- _ => rename H into Hl end.
    assert (Hr : map lf_erase (rev (loops s')) = map lf_erase (rev (loops s))) by (rewrite !map_rev, Hl; reflexivity).
    f_equal. f_equal. apply fold_erase_irrel; [|exact Hr].
    intros a f f' E. rewrite (erase_inv _ _ E). reflexivity.
  Qed.

  Lemma SB_load_name s s' n : SB s s' -> load_name_v s' n = load_name_v s n.
  Proof.
    intros H. unfold load_name_v. rewrite (SB_get_value _ _ n H), (SB_dump _ _ H). reflexivity.
  Qed.

End Kit.

Lemma tl_map {A B} (f : A -> B) l : tl (map f l) = map f (tl l).
Proof. destruct l; reflexivity. Qed.

Lemma upd_stack_id s : upd_stack s (stack s) = s.
Proof. destruct s; reflexivity. Qed.
Lemma upd_stack_push_id s v : upd_stack (push s v) (stack s) = s.
Proof. destruct s; reflexivity. Qed.

Section Sim.
  Variable W : Type.
  Variable wr : W -> str -> option W.
  Variable wd : world.
  Hypothesis Hga : forall a, w_get_attr wd VUndef a = None.
  Hypothesis Hblind : scope_blind wd.
  Variable K : nat.     (* a bound on the length of every chunk a run can reach *)

  Definition good (c : list instr) : Prop := cgood c /\ length c <= K.
  (* the chunks of a template the VM starts: t_root_chunk (render_to, Include) and the lineages
     (RenderBlock, super()); t_chunk is never run *)
  Definition tgood (t : template) : Prop :=
    good (t_root_chunk t) /\ forall b lin, assoc_get (t_lineage t) b = Some lin -> Forall good lin.
  Hypothesis Hwt : forall n t, assoc_get (w_templates wd) n = Some t -> tgood t.
  Hypothesis Hwc : forall n d c, assoc_get (w_components wd) n = Some (d, c) -> good c.

  Notation SB := (SB good).
  Notation SR := (SR good).
  Notation runP := (VM.run W wr wd).
  Notation runO := (VM.run W wr (opt_world wd)).

  Notation attr_or_undef := (attr_or_undef value VUndef (w_get_attr wd)).

  (* the chain of OptimizeSim.v's abstract VM at the concrete values, its failure as a render error *)
  Definition to_res (x : option value) : res value :=
    match x with Some v => ROk v | None => RErr ErrRender end.
  Definition chain_v (v : value) (attrs : list str) : res value :=
    to_res (chain value VUndef is_undefined (w_get_attr wd) v attrs).

  Lemma to_res_bind {T} x (f : value -> res T) :
    match to_res x with ROk v => f v | RErr e => RErr e end = match x with Some v => f v | None => RErr ErrRender end.
  Proof. destruct x; reflexivity. Qed.

  Lemma chain_v_cons v a r :
    chain_v v (a :: r) = if is_undefined v then RErr ErrRender else chain_v (attr_or_undef v a) r.
  Proof. unfold chain_v. cbn [chain]. destruct (is_undefined v); reflexivity. Qed.

  Lemma get_attr_undefined v a : is_undefined v = true -> w_get_attr wd v a = None.
  Proof. destruct v; try discriminate. intros _. apply Hga. Qed.

  Lemma path_walk_res : forall attrs v,
    path_walk_v wd v attrs = to_res (path_walk value VUndef is_undefined (w_get_attr wd) v attrs).
  Proof.
    induction attrs as [|a r IH]; intros v; [reflexivity|]. cbn [path_walk_v path_walk].
    destruct (is_undefined v); [reflexivity|]. destruct (w_get_attr wd v a); [apply IH|destruct r; reflexivity].
  Qed.

  Lemma write_walk_res : forall attrs v,
    write_walk_v wd v attrs = to_res (write_walk value (w_get_attr wd) v attrs).
  Proof.
    induction attrs as [|a r IH]; intros v; [reflexivity|]. cbn [write_walk_v write_walk].
    destruct (w_get_attr wd v a); [apply IH|reflexivity].
  Qed.

  Lemma load_path_chain_v s n attrs :
    is_magic n = false -> load_path_v wd s (n :: attrs) = chain_v (get_value s n) attrs.
  Proof.
    intros Hm. unfold load_path_v, load_name_v. unfold is_magic in Hm. rewrite Hm.
    destruct attrs as [|a r]; [reflexivity|].
    rewrite path_walk_res, (path_walk_chain value VUndef is_undefined eq_refl).
    fold (chain_v (get_value s n) (a :: r)). rewrite chain_v_cons.
    destruct (is_undefined (get_value s n)); reflexivity.
  Qed.

  Lemma write_path_chain_v s n attrs :
    is_magic n = false ->
    write_path_v wd s (n :: attrs) =
      match chain_v (get_value s n) attrs with
      | ROk v => if is_undefined v then RErr ErrRender else ROk v
      | RErr e => RErr e
      end.
  Proof.
    intros Hm. unfold write_path_v, load_name_v. unfold is_magic in Hm. rewrite Hm.
    replace (match attrs with [] => get_value s n | _ :: _ => get_value s n end) with (get_value s n)
      by (destruct attrs; reflexivity).
    rewrite write_walk_res. unfold chain_v. rewrite !to_res_bind.
    exact (write_root_chain value VUndef is_undefined eq_refl (w_get_attr wd) get_attr_undefined
             (fun v => ROk v) (RErr ErrRender) _ _).
  Qed.

  Lemma run_LoadAttr f tpl ae depth ch pc a v st s o : nth_error ch pc = Some (LoadAttr a) ->
    runP (S f) tpl ae depth ch pc (upd_stack s (v :: st)) o =
    if is_undefined v then RFail ErrRender
    else runP f tpl ae depth ch (S pc) (upd_stack s (attr_or_undef v a :: st)) o.
  Proof.
    intros H. rewrite (run_pure wd W wr f tpl ae depth ch pc _ o _ _ H eq_refl).
    unfold pop1. cbn [stack upd_stack on_res unop andb]. destruct (is_undefined v); reflexivity.
  Qed.

  Lemma run_LoadName f tpl ae depth ch pc nm s o : nth_error ch pc = Some (LoadName nm) -> is_magic nm = false ->
    runP (S f) tpl ae depth ch pc s o = runP f tpl ae depth ch (S pc) (upd_stack s (get_value s nm :: stack s)) o.
  Proof.
    intros H Hm. rewrite (run_pure wd W wr f tpl ae depth ch pc _ o _ _ H eq_refl).
    unfold load_name_v. unfold is_magic in Hm. rewrite Hm. reflexivity.
  Qed.

  Lemma run_LoadAttrs : forall attrs fuel tpl ae depth ch pc v st s o,
    code_at ch pc (map LoadAttr attrs) ->
    (length attrs <= fuel \/ runP fuel tpl ae depth ch pc (upd_stack s (v :: st)) o <> ROutOfFuel) ->
    runP fuel tpl ae depth ch pc (upd_stack s (v :: st)) o =
      match chain_v v attrs with
      | ROk v' => runP (fuel - length attrs) tpl ae depth ch (pc + length attrs) (upd_stack s (v' :: st)) o
      | RErr e => RFail e
      end.
  Proof.
    induction attrs as [|a r IH]; intros fuel tpl ae depth ch pc v st s o Hc Hf.
    - cbn [chain_v chain to_res length]. rewrite Nat.sub_0_r, Nat.add_0_r. reflexivity.
    - destruct fuel as [|f].
      + exfalso. destruct Hf as [Hf|Hf]; [cbn in Hf; lia|apply Hf; reflexivity].
      + cbn [map] in Hc. rewrite (run_LoadAttr _ _ _ _ _ _ _ _ _ _ _ (code_at_head _ _ _ _ Hc)) in *.
        rewrite chain_v_cons. destruct (is_undefined v); [reflexivity|].
        rewrite IH; [|exact (code_at_tail _ _ _ _ Hc)|destruct Hf as [Hf|Hf]; [left; cbn in Hf; lia|right; exact Hf]].
        destruct (chain_v (attr_or_undef v a) r); [|reflexivity].
        cbn [length]. replace (S pc + length r) with (pc + S (length r)) by lia. reflexivity.
  Qed.

  Lemma run_load_group nm attrs fuel tpl ae depth ch pc s o :
    code_at ch pc (LoadName nm :: map LoadAttr attrs) -> is_magic nm = false ->
    (S (length attrs) <= fuel \/ runP fuel tpl ae depth ch pc s o <> ROutOfFuel) ->
    runP fuel tpl ae depth ch pc s o =
      match chain_v (get_value s nm) attrs with
      | ROk v' => runP (fuel - S (length attrs)) tpl ae depth ch (pc + S (length attrs)) (push s v') o
      | RErr e => RFail e
      end.
  Proof.
    intros Hc Hm Hf. destruct fuel as [|f].
    - exfalso. destruct Hf as [Hf|Hf]; [lia|apply Hf; reflexivity].
    - rewrite (run_LoadName _ _ _ _ _ _ _ _ _ (code_at_head _ _ _ _ Hc) Hm) in *.
      rewrite (run_LoadAttrs attrs f tpl ae depth ch (S pc) (get_value s nm) (stack s) s o);
        [|exact (code_at_tail _ _ _ _ Hc)|destruct Hf as [Hf|Hf]; [left; lia|right; exact Hf]].
      destruct (chain_v (get_value s nm) attrs); [|reflexivity].
      cbn [Nat.sub]. replace (S pc + length attrs) with (pc + S (length attrs)) by lia. reflexivity.
  Qed.

  Lemma run_write_group nm attrs fuel tpl ae depth ch pc s o :
    code_at ch pc (LoadName nm :: map LoadAttr attrs ++ [WriteTop]) -> is_magic nm = false ->
    (S (S (length attrs)) <= fuel \/ runP fuel tpl ae depth ch pc s o <> ROutOfFuel) ->
    runP fuel tpl ae depth ch pc s o =
      match chain_v (get_value s nm) attrs with
      | ROk v =>
          if is_undefined v then RFail ErrRender
          else match emit W wr s o (written wd (match ae with Some b => b | None => t_autoescape tpl end) v) with
               | Some (s2, o2) => runP (fuel - S (S (length attrs))) tpl ae depth ch (pc + S (S (length attrs))) s2 o2
               | None => RFail ErrIo
               end
      | RErr e => RFail e
      end.
  Proof.
    intros Hc Hm Hf.
    change (LoadName nm :: map LoadAttr attrs ++ [WriteTop]) with ((LoadName nm :: map LoadAttr attrs) ++ [WriteTop]) in Hc.
    destruct (code_at_app _ _ _ _ Hc) as [Hc1 Hc2]. cbn [length] in Hc2. rewrite map_length in Hc2.
    pose proof (code_at_head _ _ _ _ Hc2) as Hw.
    assert (Hf1 : S (length attrs) <= fuel \/ runP fuel tpl ae depth ch pc s o <> ROutOfFuel)
      by (destruct Hf as [Hf|Hf]; [left; lia|right; exact Hf]).
    rewrite (run_load_group nm attrs fuel tpl ae depth ch pc s o Hc1 Hm Hf1) in *.
    destruct (chain_v (get_value s nm) attrs) as [v|e]; [|reflexivity].
    destruct (fuel - S (length attrs)) as [|f] eqn:Ef.
    - exfalso. destruct Hf as [Hf|Hf]; [lia|apply Hf; reflexivity].
    - rewrite run_step, Hw. unfold instr_effect, pure_step, pop1. cbn [is_unop is_binop is_stackop stack push upd_stack]. rewrite upd_stack_push_id.
      destruct (is_undefined v); [reflexivity|]. cbn [perform].
      destruct (emit W wr s o _) as [[s2 o2]|]; [|reflexivity].
      replace (fuel - S (S (length attrs))) with f by lia.
      replace (pc + S (S (length attrs))) with (S (pc + S (length attrs))) by lia. reflexivity.
  Qed.

  Definition RR (oc : list instr) (bl bl' : list nat) (r r' : rres W) : Prop :=
    match r, r' with
    | RDone s1 o1, RDone s1' o1' => o1' = o1 /\ SR oc bl bl' [] s1 s1'
    | RFail e, RFail e' => e' = e
    | _, _ => False
    end.

  (* dir = true: the original run is the one known to terminate; dir = false: the optimised *)
  Definition live_side (dir : bool) (r r' : rres W) : Prop :=
    if dir then r <> ROutOfFuel else r' <> ROutOfFuel.
  Definition Q (dir : bool) (oc : list instr) (bl bl' : list nat) (r r' : rres W) : Prop :=
    live_side dir r r' -> RR oc bl bl' r r'.

  Lemma Q_fail dir oc bl bl' e : Q dir oc bl bl' (RFail e) (RFail e).
  Proof. intros _. reflexivity. Qed.

  Lemma Q_bind dir oc bl bl' oc2 b2 b2' r r' (k k' : state -> sink W -> rres W) :
    Q dir oc2 b2 b2' r r' ->
    (forall s3 o3 s3', SR oc2 b2 b2' [] s3 s3' -> Q dir oc bl bl' (k s3 o3) (k' s3' o3)) ->
    Q dir oc bl bl' (match r with RDone s o => k s o | RFail e => RFail e | ROutOfFuel => ROutOfFuel end)
                    (match r' with RDone s o => k' s o | RFail e => RFail e | ROutOfFuel => ROutOfFuel end).
  Proof.
    intros HN HK Hl. assert (HR : RR oc2 b2 b2' r r').
    { apply HN. destruct dir; cbn [live_side] in *; intros ->; apply Hl; reflexivity. }
    destruct r as [s3 o3|e|], r' as [s3' o3'|e'|]; cbn [RR] in HR; try contradiction.
    - destruct HR as [-> HS]. exact (HK _ _ _ HS Hl).
    - exact HR.
  Qed.

  Lemma Q_emit dir oc bl bl' lo s s' o t (k k' : state -> sink W -> rres W) :
    SR oc bl bl' lo s s' ->
    (forall s2 s2' o2, SR oc bl bl' lo s2 s2' -> Q dir oc bl bl' (k s2 o2) (k' s2' o2)) ->
    Q dir oc bl bl' (match emit W wr s o t with Some (s2, o2) => k s2 o2 | None => RFail ErrIo end)
                    (match emit W wr s' o t with Some (s2, o2) => k' s2 o2 | None => RFail ErrIo end).
  Proof.
    intros HR HK. assert (Hc : caps s' = caps s) by apply HR.
    unfold emit. rewrite Hc. destruct (caps s) as [|c ct].
    - destruct (sink_write W wr o t); [exact (HK _ _ _ HR)|apply Q_fail].
    - apply HK, SR_upd_caps. exact HR.
  Qed.

  Lemma SR_return oc bl bl' lo oc2 s1 s1' s2 s2' :
    SR oc2 (ends s1) (ends s1') [] s2 s2' -> LR oc bl bl' lo (ends s1) (ends s1') -> SR oc bl bl' lo s2 s2'.
  Proof.
    intros [HB HL] H. destruct (LR_nil_inv _ _ _ _ _ HL) as [E1 E2]. split; [exact HB|].
    rewrite E1, E2. exact H.
  Qed.

  Lemma SR_upd_blocks oc bl bl' lo s s' b cb : SR oc bl bl' lo s s' -> blocks_good good b ->
    SR oc bl bl' lo (upd_blocks s b cb) (upd_blocks s' (blocks_opt b) cb).
  Proof. intros [H L] Hb. split; [apply SB_upd_blocks; assumption|exact L]. Qed.

  Lemma lsucc_plain i ip lo : is_unop i || is_binop i || is_stackop i = true -> lsucc i ip lo = [(S ip, lo)].
  Proof. destruct i; try discriminate; reflexivity. Qed.

  Lemma unop_blind i s s' v : SB s s' -> unop wd i (scope_of s') v = unop wd i (scope_of s) v.
  Proof.
    apply (SB_reads good (fun sc => unop wd i sc v)). intros sc. destruct i; try reflexivity.
    cbn [unop]. destruct (kwargs_of v); [rewrite <- (proj2 Hblind)|]; reflexivity.
  Qed.

  Lemma binop_blind i s s' a b : SB s s' -> binop wd i (scope_of s') a b = binop wd i (scope_of s) a b.
  Proof.
    apply (SB_reads good (fun sc => binop wd i sc a b)). intros sc. destruct i; try reflexivity.
    cbn [binop]. destruct (kwargs_of b); [rewrite <- (proj1 Hblind)|]; reflexivity.
  Qed.

  Definition PR (oc : list instr) (bl bl' : list nat) (ip : nat) (succ : list (nat * list (option nat)))
             (r r' : pure_res) : Prop :=
    match r, r' with
    | PNext s1, PNext s1' => exists lo2, In (S ip, lo2) succ /\ SR oc bl bl' lo2 s1 s1'
    | PGoto t s1, PGoto t' s1' =>
        exists lo2, In (t, lo2) succ /\ t' <= length oc /\ group_start oc t' = t /\ SR oc bl bl' lo2 s1 s1'
    | PFail e, PFail e' => e' = e
    | _, _ => False
    end.

  Lemma PR_next oc bl bl' ip lo2 rest s1 s1' :
    SR oc bl bl' lo2 s1 s1' -> PR oc bl bl' ip ((S ip, lo2) :: rest) (PNext s1) (PNext s1').
  Proof. intros H. exists lo2. split; [left; reflexivity|exact H]. Qed.

  (* A pure instruction i of the original at ip, on s, against its counterpart g (i itself, or i with
     its jump re-pointed), on s': both are pure or neither is, and the results are related by PR: the
     same failure, or related states at corresponding positions with the loop shape of an edge of
     lsucc, which is what lets the induction go on at the table's entry there *)
  Lemma pure_step_rel oc bl bl' lo ip i g s s' :
    rel oc g i -> is_fused i = false -> (forall t, i = Iterate t -> ip < t) -> lneed i lo ->
    SR oc bl bl' lo s s' ->
    match pure_step wd i s, pure_step wd g s' with
    | Some r, Some r' => PR oc bl bl' ip (lsucc i ip lo) r r'
    | None, None => g = i
    | _, _ => False
    end.
  Proof.
    intros Hr Hunf Hfw Hneed HSR. pose proof HSR as [HB _]. pose proof HB as (Hst & _ & Hcp & _).
    destruct (rel_inv _ _ _ Hr) as [[Hnt ->] | (t & t' & Ht & -> & Htl & Hgt)].
    - (* no jump target: the same instruction on both sides *)
      destruct (is_unop i) eqn:U; [|destruct (is_binop i) eqn:B; [|destruct (is_stackop i) eqn:Ks]].
      + rewrite !(pure_step_unop _ _ _ U), lsucc_plain by (rewrite U; reflexivity). unfold pop1. rewrite Hst. destruct (stack s) as [|v st]; [reflexivity|].
        rewrite (unop_blind i (upd_stack s st) (upd_stack s' st) v) by (apply SB_upd_stack; exact HB).
        destruct (unop wd i _ v); [|reflexivity]. apply PR_next. apply SR_push, SR_upd_stack; exact HSR.
      + rewrite !(pure_step_binop _ _ _ U B), lsucc_plain by (rewrite U, B; reflexivity). unfold pop2. rewrite Hst. destruct (stack s) as [|b [|a st]]; try reflexivity.
        rewrite (binop_blind i (upd_stack s st) (upd_stack s' st) a b) by (apply SB_upd_stack; exact HB).
        destruct (binop wd i _ a b); [|reflexivity]. apply PR_next. apply SR_push, SR_upd_stack; exact HSR.
      + rewrite !(pure_step_stackop _ _ _ U B Ks), Hst, lsucc_plain by (rewrite U, B, Ks; reflexivity).
        destruct (stackop wd i (stack s)); [|reflexivity]. apply PR_next. apply SR_upd_stack; exact HSR.
      + (* the cases are split before pure_step is unfolded, so that each sees its own arm only *)
        destruct i; try discriminate Hnt; try discriminate Hunf; try discriminate U; try discriminate B;
          try discriminate Ks; cbv beta iota delta [pure_step is_unop is_binop is_stackop]; cbn [is_unop] in U;
          try (match type of U with negb _ = false => rewrite U end); try reflexivity;
          unfold pop1; rewrite ?Hst, ?Hcp; cbn [lsucc tl PR]; cbn [lneed] in Hneed.
        (* what is left follows the order of Instr.instr's constructors; goals 7 and 8, between
           EndCapture and StoreLocal, are StartIterate and StartIterateComprehension, which differ in
           a flag of the new frame *)
        7-8: (destruct (stack s) as [|v st]; [reflexivity|]; destruct (iter_items v) as [items|]; [|reflexivity];
              destruct (kv && negb (is_map v)); [reflexivity|]; apply PR_next;
              apply (SR_frame good oc bl bl' None lo (upd_stack s st) (upd_stack s' st));
              [apply SR_upd_stack; exact HSR|reflexivity|exact I|exact (end_rel_00 oc)]).
        * (* LoadConst *) apply PR_next. apply SR_push; exact HSR.
        * (* LoadName *) rewrite (SB_load_name good _ _ n HB). apply PR_next. apply SR_push; exact HSR.
        * (* SetI *) destruct (stack s) as [|v st]; [reflexivity|]. apply PR_next. apply SR_store_local, SR_upd_stack; exact HSR.
        * (* SetGlobal *) destruct (stack s) as [|v st]; [reflexivity|]. apply PR_next. apply SR_store_global, SR_upd_stack; exact HSR.
        * (* Capture *) apply PR_next. apply SR_upd_caps; exact HSR.
        * (* EndCapture *) destruct (caps s); [reflexivity|]. apply PR_next. apply SR_push, SR_upd_caps; exact HSR.
        * (* StoreLocal *)
          destruct lo as [|a lr]; [congruence|].
          destruct (SR_pop good _ _ _ _ _ _ _ HSR) as (f & t & f' & t' & -> & -> & He & Hk & Hre & HS).
          apply PR_next. apply (SR_frame good _ _ _ _ _ _ _ _ _ HS); rewrite ?end_store_local;
            [exact (erase_store_local _ _ n He)|exact Hk|exact Hre].
        * (* StoreDidNotIterate *)
          destruct lo as [|a lr]; [congruence|].
          destruct (SR_pop good _ _ _ _ _ _ _ HSR) as (f & t & f' & t' & -> & -> & He & _).
          rewrite (erase_inv _ _ He). apply PR_next. apply SR_push; exact HSR.
        * (* Break: lok makes the stored end of the innermost frame the table's tb, so the goto is the
             edge of lsucc; on the optimised side it is the group starting there by end_rel (0: group 0) *)
          destruct Hneed as (tb & lr & ->). cbn [lsucc].
          destruct (SR_pop good _ _ _ _ _ _ _ HSR) as (f & t & f' & t' & -> & -> & _ & Hk & Hre & _).
          cbn [lok] in Hk. exists (Some tb :: lr). split; [left; rewrite Hk; reflexivity|].
          destruct Hre as [[E0 ->]|(_ & _ & N3 & N4)]; [rewrite E0; split; [lia|split; [reflexivity|exact HSR]]|].
          split; [exact N3|split; [exact N4|exact HSR]].
        * (* PopLoop *)
          destruct lo as [|a lr]; [congruence|].
          destruct (SR_pop good _ _ _ _ _ _ _ HSR) as (f & t & f' & t' & -> & -> & _ & _ & _ & HS).
          apply PR_next. exact HS.
    - (* a jump: the same instruction, re-pointed to the group that starts at the old target *)
      destruct i; try discriminate Ht; injection Ht as ->;
        cbv beta iota delta [set_target pure_step is_unop is_binop is_stackop]; cbn [lsucc tl]; unfold pop1; rewrite ?Hst;
        cbn [lneed] in Hneed.
      + (* Jump *) exists lo. split; [left; reflexivity|auto].
      + (* PopJumpIfFalse *) destruct (stack s) as [|v st]; [reflexivity|]. destruct (is_truthy v).
        * apply PR_next. apply SR_upd_stack; exact HSR.
        * exists lo. split; [right; left; reflexivity|]. split; [exact Htl|split; [exact Hgt|apply SR_upd_stack; exact HSR]].
      + (* JumpIfFalseOrPop *) destruct (stack s) as [|v st]; [reflexivity|]. destruct (is_truthy v).
        * apply PR_next. apply SR_upd_stack; exact HSR.
        * exists lo. split; [right; left; reflexivity|auto].
      + (* JumpIfTrueOrPop *) destruct (stack s) as [|v st]; [reflexivity|]. destruct (is_truthy v).
        * exists lo. split; [right; left; reflexivity|auto].
        * apply PR_next. apply SR_upd_stack; exact HSR.
      + (* Iterate *)
        destruct lo as [|a lr]; [congruence|]. cbn [tl].
        destruct (SR_pop good _ _ _ _ _ _ _ HSR) as (f & tf & f' & tf' & -> & -> & He & _ & Hre & HS).
        rewrite (erase_rest _ _ He). destruct (lf_rest f) eqn:Er.
        * exists (a :: lr). split; [right; left; reflexivity|auto].
        * apply PR_next. apply (SR_frame good _ _ _ _ _ _ _ _ _ HS); rewrite ?end_advance.
          -- apply erase_advance; [exact He|exact (end_rel_zero oc _ _ Hre)].
          -- reflexivity.
          -- (* the ends now stored are related: t <> 0 as ip < t, t' <> 0 as group_start oc 0 = 0 *)
             pose proof (Hfw _ eq_refl) as Hfw'. right. repeat split; try lia; try assumption.
             intros ->. rewrite group_start_0 in Hgt. lia.
  Qed.

  (* The statement of the induction on fuel (P_fuel): fuel fp on the original and fo on the optimised
     side, from corresponding positions (group n and where its code starts), in related states whose
     loop shape is the table's entry there.  In the step lemmas below a hypothesis `P dir _ _` is the
     induction hypothesis at smaller fuel. *)
  Definition P (dir : bool) (fp fo : nat) : Prop :=
    forall tpl ae depth ch lt n lo s s' o bl bl',
      tgood tpl -> good ch -> ltable_ok ch lt -> n <= length (opt_chunk ch) ->
      lt (group_start (opt_chunk ch) n) = Some lo ->
      SR (opt_chunk ch) bl bl' lo s s' ->
      Q dir (opt_chunk ch) bl bl'
        (runP fp tpl ae depth ch (group_start (opt_chunk ch) n) s o)
        (runO fo (opt_tpl tpl) ae depth (opt_chunk ch) n s' o).

  Lemma lt_walk ch lt : ltable_ok ch lt ->
    forall code pc lo, code_at ch pc code ->
      Forall (fun i => forall ip l, lsucc i ip l = [(S ip, l)]) code ->
      lt pc = Some lo -> exists lo2, lt (pc + length code) = Some lo2 /\ all2 lp_sub lo lo2 = true.
  Proof.
    intros [He _]. induction code as [|i code IH]; intros pc lo Hc Hs Hl.
    - exists lo. rewrite Nat.add_0_r. split; [exact Hl|exact (CompileChecks.all2_refl _ CompileChecks.lp_sub_refl _)].
    - inversion Hs as [|i0 c0 Hi Hs']. subst.
      destruct (He pc i lo (code_at_head _ _ _ _ Hc) Hl) as [_ Hsuc].
      destruct (Hsuc (S pc) lo) as (lo1 & E1 & S1); [rewrite Hi; left; reflexivity|].
      destruct (IH (S pc) lo1 (code_at_tail _ _ _ _ Hc) Hs' E1) as (lo2 & E2 & S2).
      exists lo2. cbn [length]. replace (pc + S (length code)) with (S pc + length code) by lia.
      split; [exact E2|exact (CompileChecks.all2_trans _ CompileChecks.lp_sub_trans _ _ _ S1 S2)].
  Qed.

  Section Step.
    Variable dir : bool.
    Variables fp fo : nat.

    (* a nested run: any good chunk from its start, on related states.  The callee takes ALL frames
       of its caller as the base it must leave alone (bl := ends s, shape [] by LR_base): that is
       what loop_disc, `lt 0 = Some []`, is asked of every chunk for; SR_return gives them back *)
    Lemma nested tpl ae depth c s s' o : P dir fp fo ->
      tgood tpl -> good c -> SB s s' ->
      Q dir (opt_chunk c) (ends s) (ends s')
        (runP fp tpl ae depth c 0 s o) (runO fo (opt_tpl tpl) ae depth (opt_chunk c) 0 s' o).
    Proof.
      intros IH HT HG HS. destruct (cg_loops _ (proj1 HG)) as (lt & Hlt & H0).
      pose proof (IH tpl ae depth c lt 0 [] s s' o (ends s) (ends s') HT HG Hlt (Nat.le_0_l _)) as H.
      rewrite group_start_0 in H. apply H; [exact H0|]. split; [exact HS|apply LR_base].
    Qed.

    Lemma fused_step tpl ae depth ch lt n g lo s s' o bl bl' :
      P dir (fp - gsize g) fo -> (dir = false -> gsize g <= fp) ->
      tgood tpl -> good ch -> ltable_ok ch lt ->
      nth_error (opt_chunk ch) n = Some g -> is_fused g = true ->
      lt (group_start (opt_chunk ch) n) = Some lo ->
      SR (opt_chunk ch) bl bl' lo s s' ->
      Q dir (opt_chunk ch) bl bl'
        (runP fp tpl ae depth ch (group_start (opt_chunk ch) n) s o)
        (runO (S fo) (opt_tpl tpl) ae depth (opt_chunk ch) n s' o).
    Proof.
      intros IH Hfuel HT HG Hlt Eg Hf Elt HSR.
      set (oc := opt_chunk ch) in *. destruct HG as [HC HK].
      assert (HSn : S n <= length oc) by (apply nth_error_Some; congruence).
      pose proof (group_start_succ oc n g Eg) as Hsucc.
      destruct (cg_shape _ HC g (nth_error_In _ _ Eg) Hf) as (nm & attrs & Hm & Hg).
      assert (Htg : target_of g = None) by (destruct Hg as [-> | ->]; reflexivity).
      pose proof (group_code ch oc (cg_rel _ HC) n g Eg Htg) as Hcode.
      (* the runs after the group: the shape is what it was, no piece of the group touches the loops *)
      assert (AFTER : forall s1 s1' o1, SR oc bl bl' lo s1 s1' ->
                Q dir oc bl bl' (runP (fp - gsize g) tpl ae depth ch (group_start oc n + gsize g) s1 o1)
                                (runO fo (opt_tpl tpl) ae depth oc (S n) s1' o1)).
      { destruct (lt_walk ch lt Hlt _ _ lo Hcode) as (lo2 & E2 & S2); [|exact Elt|].
        { destruct Hg as [-> | ->]; cbn [expand1]; constructor; try (intros; reflexivity);
            [|apply Forall_app; split; [|repeat constructor]];
            apply Forall_forall; intros i Hi; apply in_map_iff in Hi; destruct Hi as (a & <- & _); intros; reflexivity. }
        fold (gsize g) in E2. rewrite <- Hsucc in *.
        intros s1 s1' o1 [HB1 HL1].
        apply (IH tpl ae depth ch lt (S n) lo2 s1 s1' o1 bl bl' HT (conj HC HK) Hlt HSn E2).
        split; [exact HB1|exact (LR_sub _ _ _ _ _ _ _ S2 HL1)]. }
      destruct HSR as [HB HL]. intros Hlive.
      assert (Hcond : gsize g <= fp \/ runP fp tpl ae depth ch (group_start oc n) s o <> ROutOfFuel).
      { destruct dir; [right; exact Hlive|left; apply Hfuel; reflexivity]. }
      revert Hlive. destruct Hg as [-> | ->]; cbn [expand1] in Hcode.
      - (* LoadPath *)
        rewrite gsize_LoadPath in *.
        rewrite (run_load_group nm attrs fp tpl ae depth ch _ s o Hcode Hm Hcond).
        rewrite (run_pure (opt_world wd) W wr fo (opt_tpl tpl) ae depth oc n s' o _ _ Eg eq_refl). unfold on_res.
        change (load_path_v (opt_world wd)) with (load_path_v wd).
        rewrite (load_path_chain_v s' nm attrs Hm), (SB_get_value good _ _ nm HB).
        destruct (chain_v (get_value s nm) attrs) as [v|e]; [|apply Q_fail].
        apply AFTER, SR_push. exact (conj HB HL).
      - (* WritePath *)
        rewrite gsize_WritePath in *.
        rewrite (run_write_group nm attrs fp tpl ae depth ch _ s o Hcode Hm Hcond).
        rewrite run_step, Eg. unfold instr_effect, pure_step. cbn [is_unop is_binop is_stackop].
        change (write_path_v (opt_world wd)) with (write_path_v wd).
        change (written (opt_world wd)) with (written wd).
        cbn [opt_tpl t_autoescape].
        rewrite (write_path_chain_v s' nm attrs Hm), (SB_get_value good _ _ nm HB).
        destruct (chain_v (get_value s nm) attrs) as [v|e]; [|apply Q_fail].
        destruct (is_undefined v); [apply Q_fail|]. cbn [perform].
        exact (Q_emit _ _ _ _ _ _ _ _ _ _ _ (conj HB HL) AFTER).
    Qed.

    (* returning from a block / super() chunk that ran on the caller's State *)
    Lemma SR_block_return oc bl bl' lo oc2 s1 s1' s3 s3' cb :
      SR oc2 (ends s1) (ends s1') [] s3 s3' -> LR oc bl bl' lo (ends s1) (ends s1') ->
      SR oc bl bl' lo (upd_blocks s3 (tl (blocks s3)) cb) (upd_blocks s3' (tl (blocks s3')) cb).
    Proof.
      intros H3 HL. pose proof (SR_return _ _ _ _ _ _ _ _ _ H3 HL) as HR.
      destruct H3 as [HB3 _]. unfold OptWorldBase.SB in HB3.
      destruct HB3 as (_ & _ & _ & Hbk3 & _ & _ & _ & _ & _ & _ & _ & Hbg3).
      rewrite Hbk3. unfold blocks_opt. rewrite tl_map. apply SR_upd_blocks; [exact HR|].
      destruct Hbg3; [constructor|assumption].
    Qed.

    Lemma SB_include s s' : SB s s' -> SB (include_start s) (include_start s').
    Proof.
      intros HB. unfold OptWorldBase.SB, include_start.
      cbn [stack loops setvars caps blocks cur_block parent context global capture_block block_buffer
           option_map map blocks_opt].
      repeat split; try reflexivity; try (constructor; fail); [f_equal; exact (SB_scope good _ _ HB)|apply HB].
    Qed.

    (* one step from group n when it is a single unfused instruction i, on both sides. A pure i:
       pure_step_rel, then the hypothesis P at the successor the table allows (CONT, NEXT). The seven
       that write or nest are the same instruction on both sides; their nested runs are related by
       CALL, and all go on at S ip *)
    Lemma plain_step tpl ae depth ch lt n g lo s s' o bl bl' :
      P dir fp fo ->
      tgood tpl -> good ch -> ltable_ok ch lt ->
      nth_error (opt_chunk ch) n = Some g -> is_fused g = false ->
      lt (group_start (opt_chunk ch) n) = Some lo ->
      SR (opt_chunk ch) bl bl' lo s s' ->
      Q dir (opt_chunk ch) bl bl'
        (runP (S fp) tpl ae depth ch (group_start (opt_chunk ch) n) s o)
        (runO (S fo) (opt_tpl tpl) ae depth (opt_chunk ch) n s' o).
    Proof.
      intros IH HT HG Hlt Eg Hf Elt HSR.
      set (oc := opt_chunk ch) in *. destruct HG as [HC HK].
      destruct (plain_group ch oc (cg_rel _ HC) n g Eg Hf) as (i & Hi & Hr & Hg1).
      assert (HSn : S n <= length oc) by (apply nth_error_Some; congruence).
      assert (Hsucc : group_start oc (S n) = S (group_start oc n))
        by (rewrite (group_start_succ oc n g Eg), Hg1; lia).
      pose proof (cg_unfused _ HC i (nth_error_In _ _ Hi)) as Hunf.
      set (ip := group_start oc n) in *.
      destruct (proj1 Hlt ip i lo Hi Elt) as [Hneed Hsuc].
      assert (CONT : forall n2 lo2 s1 s1' o1, n2 <= length oc ->
                In (group_start oc n2, lo2) (lsucc i ip lo) -> SR oc bl bl' lo2 s1 s1' ->
                Q dir oc bl bl' (runP fp tpl ae depth ch (group_start oc n2) s1 o1)
                                (runO fo (opt_tpl tpl) ae depth oc n2 s1' o1)).
      { intros n2 lo2 s1 s1' o1 Hn2 Hin [HB1 HL1]. destruct (Hsuc _ _ Hin) as (lo3 & E3 & Hsub).
        apply (IH tpl ae depth ch lt n2 lo3 s1 s1' o1 bl bl' HT (conj HC HK) Hlt Hn2 E3).
        split; [exact HB1|exact (LR_sub _ _ _ _ _ _ _ Hsub HL1)]. }
      assert (NEXT : forall lo2 s1 s1' o1, In (S ip, lo2) (lsucc i ip lo) -> SR oc bl bl' lo2 s1 s1' ->
                Q dir oc bl bl' (runP fp tpl ae depth ch (S ip) s1 o1)
                                (runO fo (opt_tpl tpl) ae depth oc (S n) s1' o1)).
      { intros lo2 s1 s1' o1 Hin HS1. rewrite <- Hsucc. apply (CONT (S n) lo2); [exact HSn|rewrite Hsucc; exact Hin|exact HS1]. }
      assert (NEST := fun t2 ae2 d2 c2 s2 s2' o2 => nested t2 ae2 d2 c2 s2 s2' o2 IH).
      clear IH Hsuc.
      pose proof (pure_step_rel oc bl bl' lo ip i g s s' Hr Hunf
                    ltac:(intros t ->; exact (cg_iter _ HC _ _ Hi)) Hneed HSR) as HP.
      rewrite !run_step, Hi, Eg. unfold instr_effect. change (pure_step (opt_world wd) g s') with (pure_step wd g s').
      destruct (pure_step wd i s) as [r|] eqn:Hp, (pure_step wd g s') as [r'|]; try contradiction.
      - destruct r as [s1|t s1|e], r' as [s1'|t' s1'|e']; try contradiction; cbn [perform].
        + destruct HP as (lo2 & Hin & HS1). exact (NEXT lo2 s1 s1' o Hin HS1).
        + destruct HP as (lo2 & Hin & Htl & <- & HS1). exact (CONT t' lo2 s1 s1' o Htl Hin HS1).
        + rewrite HP. apply Q_fail.
      - (* the instructions that write or start a nested run, the same on both sides *)
        subst g. clear CONT. pose proof HSR as [HB HL].
        pose proof HB as HB0. unfold OptWorldBase.SB in HB0.
        destruct HB0 as (Hst & Hsv & Hcp & Hbk & Hcb & Hpar & Hcx & Hgl & Hcpb & Hbb & Hlp & Hbg).
        apply pure_step_none in Hp.
        (* a nested run: a good callee started on related states; what the caller makes of its final state
           and text is related again *)
        assert (CALL : In (S ip, lo) (lsucc i ip lo) -> forall t2 d2 c2 s0 s0' b (k k' : state -> str -> state),
                  tgood t2 -> good c2 -> SB s0 s0' ->
                  (forall s3 s3' text, SR (opt_chunk c2) (ends s0) (ends s0') [] s3 s3' ->
                     SR oc bl bl' lo (k s3 text) (k' s3' text)) ->
                  Q dir oc bl bl'
                    (perform W wr (fun t d c => runP fp t ae d c) tpl depth ch ip o (EffCall t2 d2 c2 s0 b k))
                    (perform W wr (fun t d c => runO fo t ae d c) (opt_tpl tpl) depth oc n o
                       (EffCall (opt_tpl t2) d2 (opt_chunk c2) s0' b k'))).
        { intros Hin t2 d2 c2 s0 s0' b k k' HT2 HG2 HS0 Hk. cbn [perform].
          eapply Q_bind; [apply NEST; assumption|]. intros s3 o3 s3' HS3.
          destruct b; [destruct o3; [apply Q_fail|]|]; apply (NEXT lo _ _ _ Hin), Hk, HS3. }
        clear NEST.
        (* all of them go on at S ip with the shape unchanged *)
        destruct i; try discriminate Hp; try discriminate Hunf; cbn [lsucc] in NEXT, CALL;
          specialize (CALL (or_introl eq_refl)); specialize (fun s1 s1' o1 => NEXT lo s1 s1' o1 (or_introl eq_refl));
          unfold EffFail;
          rewrite ?opt_templates, ?opt_components;
          cbn [opt_world w_build_ctx w_max_depth w_format w_escape
               opt_tpl t_autoescape t_lineage].
        (* goals 5 and 6, in constructor order of `instr`: RenderInlineComponent and
           RenderBodyComponent; the second also pops the body *)
        5-6: (unfold pop1; rewrite Hst; destruct (stack s) as [|v st]; [apply Q_fail|]; cbv beta iota;
              destruct (kwargs_of v) as [k|]; [|apply Q_fail];
              destruct (assoc_get (w_components wd) n0) as [[def cchunk]|] eqn:Ec; cbn [option_map fst snd]; [|apply Q_fail];
              try (cbn [stack upd_stack]; destruct st as [|b st2]; cbv beta iota; [apply Q_fail|]);
              match goal with |- context [w_build_ctx wd ?d ?kk ?body] =>
                destruct (w_build_ctx wd d kk body) as [cctx|] end; [|apply Q_fail];
              destruct (Nat.ltb (w_max_depth wd) (S depth)); [apply Q_fail|];
              apply CALL; [exact HT|exact (Hwc _ _ _ Ec)|apply SB_refl; reflexivity|intros s3 s3' text _; apply SR_push; repeat apply SR_upd_stack; exact HSR]).
        + (* WriteText *)
          cbn [perform]. exact (Q_emit _ _ _ _ _ _ _ _ _ _ _ HSR NEXT).
        + (* WriteTop *)
          unfold pop1. rewrite Hst. destruct (stack s) as [|v st]; [apply Q_fail|]. cbv beta iota.
          destruct (is_undefined v); [apply Q_fail|]. cbn [perform].
          exact (Q_emit _ _ _ _ _ _ _ _ _ _ _ (SR_upd_stack good _ _ _ _ _ _ st HSR) NEXT).
        + (* Include *)
          destruct (assoc_get (w_templates wd) n0) as [t2|] eqn:Et; cbn [option_map]; [|apply Q_fail].
          pose proof (Hwt _ _ Et) as HT2. rewrite Hcp. cbn [opt_tpl t_root_chunk].
          destruct (caps s) as [|c ct];
            (apply CALL; [exact HT2|exact (proj1 HT2)|exact (SB_include _ _ HB)|intros s3 s3' text _]);
            [exact HSR|apply SR_upd_caps; exact HSR].
        + (* CallFunction: super() *)
          unfold pop1. rewrite Hst. destruct (stack s) as [|v st]; [apply Q_fail|]. cbv beta iota.
          cbn [cur_block upd_stack blocks caps]. rewrite ?Hcb, ?Hbk, ?Hcp.
          destruct (cur_block s) as [cb|]; [|apply Q_fail].
          rewrite (find_block_opt cb (blocks s) [] : find_block cb (blocks_opt (blocks s)) [] = _). unfold blk.
          destruct (find_block cb (blocks s) []) as [[[pre [[bn lin] lvl]] post]|] eqn:Ef; [|apply Q_fail].
          cbn [blk_opt fst snd]. rewrite nth_error_map.
          destruct (nth_error lin (S lvl)) as [bchunk|] eqn:En; cbn [option_map]; [|apply Q_fail].
          destruct (find_block_Forall good _ _ _ _ _ _ _ Ef Hbg) as (Hlin & HbgL).
          assert (EB : forall l, blocks_opt pre ++ (bn, map opt_chunk lin, l) :: blocks_opt post
                                 = blocks_opt (pre ++ (bn, lin, l) :: post))
            by (intros l; unfold blocks_opt; rewrite map_app; reflexivity).
          rewrite !EB. apply CALL.
          * exact HT.
          * rewrite Forall_forall in Hlin. apply Hlin. exact (nth_error_In _ _ En).
          * (* the parent block runs with the entry at level S lvl; the caller gets it back at lvl *)
            apply SB_upd_caps, SB_upd_blocks; [apply SB_upd_stack; exact HB|exact (HbgL (S lvl))].
          * intros s3 s3' text HS3. apply SR_push, SR_upd_caps.
            pose proof HS3 as [HB3 _]. unfold OptWorldBase.SB in HB3.
            destruct HB3 as (_ & _ & _ & _ & Hcb3 & _). rewrite Hcb3.
            apply SR_upd_blocks; [|exact (HbgL lvl)].
            eapply SR_return; [exact HS3|exact HL].
        + (* RenderBlock *)
          unfold opt_lineage. rewrite (assoc_get_map (map opt_chunk)).
          destruct (assoc_get (t_lineage tpl) n0) as [[|bchunk lin_rest]|] eqn:El; cbn [option_map map]; try apply Q_fail.
          pose proof (proj2 HT _ _ El) as Hlin.
          rewrite Hcpb, Hbk, Hcb, Hcp.
          change ((n0, opt_chunk bchunk :: map opt_chunk lin_rest, 0) :: blocks_opt (blocks s))
            with (blocks_opt ((n0, bchunk :: lin_rest, 0) :: blocks s)).
          assert (Hbg1 : blocks_good good ((n0, bchunk :: lin_rest, 0) :: blocks s)) by (constructor; assumption).
          destruct (match capture_block s with Some cbn0 => str_eqb cbn0 n0 | None => false end);
            (apply CALL; [exact HT|exact (Forall_inv Hlin)| |intros s3 s3' text HS3]).
          * apply SB_upd_caps, SB_upd_blocks; [exact HB|exact Hbg1].
          * apply SR_upd_block_buffer, SR_upd_caps. eapply SR_block_return; [exact HS3|exact HL].
          * apply SB_upd_blocks; [exact HB|exact Hbg1].
          * eapply SR_block_return; [exact HS3|exact HL].
    Qed.
  End Step.

  Lemma gsize_bound ch g : good ch -> In g (opt_chunk ch) -> gsize g <= K.
  Proof.
    intros [HC HK] Hg. pose proof (gsize_le_expand _ _ Hg) as H. rewrite (cg_len _ HC) in H. lia.
  Qed.

  Lemma exit_step dir fp fo tpl ae depth ch lt n lo s s' o bl bl' :
    good ch -> ltable_ok ch lt -> nth_error (opt_chunk ch) n = None -> n <= length (opt_chunk ch) ->
    lt (group_start (opt_chunk ch) n) = Some lo -> SR (opt_chunk ch) bl bl' lo s s' ->
    Q dir (opt_chunk ch) bl bl'
      (runP (S fp) tpl ae depth ch (group_start (opt_chunk ch) n) s o)
      (runO (S fo) (opt_tpl tpl) ae depth (opt_chunk ch) n s' o).
  Proof.
    intros [HC HK] [_ Hexit] En Hn Elt HSR.
    assert (n = length (opt_chunk ch)) by (apply nth_error_None in En; lia). subst n.
    rewrite (group_start_len_p ch _ (cg_rel _ HC)) in *. rewrite !run_step, En, (proj2 (nth_error_None ch _) (le_n _)).
    rewrite (Hexit _ Elt) in HSR. intros _. split; [reflexivity|exact HSR].
  Qed.

  (* original => optimised: the same fuel (or more) suffices on the optimised side;
     optimised => original: every optimised step is at most K original steps (gsize_bound); S K
     and not K so that the factor is positive when K = 0: the original side has fuel for a plain
     step whenever the optimised side has *)
  Lemma P_fuel (dir : bool) : forall fo fp, (if dir then fp <= fo else S K * fo <= fp) -> P dir fp fo.
  Proof.
    assert (P0 : forall fp fo, (if dir then fp = 0 else fo = 0) -> P dir fp fo).
    { intros fp fo E tpl ae depth ch lt n lo s s' o bl bl' _ _ _ _ _ _ Hl. exfalso.
      destruct dir; subst; apply Hl; reflexivity. }
    induction fo as [|fo IH]; intros fp Hle; [apply P0; destruct dir; lia|].
    destruct fp as [|fp]; [apply P0; destruct dir; lia|].
    intros tpl ae depth ch lt n lo s s' o bl bl' HT HG Hlt Hn Elt HSR.
    destruct (nth_error (opt_chunk ch) n) as [g|] eqn:Eg.
    - destruct (is_fused g) eqn:Ef.
      + pose proof (gsize_pos g). pose proof (gsize_bound ch g HG (nth_error_In _ _ Eg)).
        apply (fused_step dir (S fp) fo tpl ae depth ch lt n g lo s s' o bl bl'); try assumption.
        * apply IH. destruct dir; lia.
        * intros ->. lia.
      + apply (plain_step dir fp fo tpl ae depth ch lt n g lo s s' o bl bl'); try assumption.
        apply IH. destruct dir; lia.
    - apply (exit_step dir fp fo tpl ae depth ch lt n lo s s' o bl bl'); assumption.
  Qed.

  (* what a caller of render_to observes: the writer, or the error class *)
  Definition same_outcome (r r' : rres W) : Prop :=
    match r, r' with
    | RDone _ o, RDone _ o' => o' = o
    | RFail e, RFail e' => e' = e
    | _, _ => False
    end.

  Lemma RR_outcome oc bl bl' r r' : RR oc bl bl' r r' -> same_outcome r r'.
  Proof. destruct r, r'; cbn; tauto. Qed.

  Lemma render_rel dir fp fo tpl block c g w : P dir fp fo -> tgood tpl ->
    live_side dir (render_to W wr wd fp tpl block c g w)
                  (render_to W wr (opt_world wd) fo (opt_tpl tpl) block c g w) ->
    same_outcome (render_to W wr wd fp tpl block c g w)
                 (render_to W wr (opt_world wd) fo (opt_tpl tpl) block c g w).
  Proof.
    intros HP HT. unfold render_to. cbn [opt_tpl t_root_chunk].
    set (s0 := {| stack := []; loops := []; setvars := []; caps := []; blocks := []; cur_block := None;
                  parent := None; context := c; global := Some g; capture_block := block;
                  block_buffer := [] |}).
    pose proof (fun o => nested dir fp fo tpl None 0 (t_root_chunk tpl) s0 s0 o HP HT (proj1 HT)
                            (SB_refl good s0 eq_refl)) as HN.
    intros Hl. eapply RR_outcome. revert Hl. destruct block as [b|]; [|exact (HN _)].
    eapply Q_bind; [exact (HN _)|]. intros s3 o3 s3' HS3 _.
    pose proof HS3 as [HB3 _]. unfold OptWorldBase.SB in HB3.
    destruct HB3 as (_ & _ & _ & _ & _ & _ & _ & _ & _ & Hbb & _). rewrite Hbb.
    destruct (wr w (block_buffer s3)); [split; [reflexivity|exact HS3]|reflexivity].
  Qed.
End Sim.

Definition max_len (l : list (list instr)) : nat := fold_right (fun c m => Nat.max (length c) m) 0 l.

Lemma max_len_in l c : In c l -> length c <= max_len l.
Proof.
  induction l as [|x l IH]; intros []; cbn [max_len fold_right]; fold (max_len l).
  - subst. lia.
  - specialize (IH H). lia.
Qed.

(* the fuel factor of the direction optimised => original *)
Definition world_bound (wd : world) (tpl : template) : nat :=
  S (max_len (world_chunks wd ++ chunks_of_tpl tpl)).

Lemma world_tpl_chunks wd n t c :
  assoc_get (w_templates wd) n = Some t -> In c (chunks_of_tpl t) -> In c (world_chunks wd).
Proof.
  intros H Hc. apply assoc_get_in in H. unfold world_chunks.
  apply in_or_app. left. apply in_flat_map. exists (n, t). split; [exact H|exact Hc].
Qed.

Lemma world_comp_chunk wd n d c :
  assoc_get (w_components wd) n = Some (d, c) -> In c (world_chunks wd).
Proof.
  intros H. apply assoc_get_in in H. unfold world_chunks.
  apply in_or_app. right. apply in_map_iff. exists (n, (d, c)). split; [reflexivity|exact H].
Qed.

Lemma lineage_chunk t b lin c : assoc_get (t_lineage t) b = Some lin -> In c lin -> In c (chunks_of_tpl t).
Proof.
  intros H Hc. apply assoc_get_in in H. unfold chunks_of_tpl.
  right. right. apply in_flat_map. exists (b, lin). split; [exact H|exact Hc].
Qed.

Lemma tgood_of_chunks K t :
  (forall c, In c (chunks_of_tpl t) -> good K c) -> tgood K t.
Proof.
  intros H. split.
  - apply H. right. left. reflexivity.
  - intros b lin Hb. apply Forall_forall. intros c Hc. apply H. exact (lineage_chunk _ _ _ _ Hb Hc).
Qed.

Lemma opt_world_defined_ok wd : world_ok wd = true -> opt_world_defined wd = true.
Proof.
  unfold world_ok, opt_world_defined. rewrite !forallb_forall. intros H c Hc.
  unfold opt_defined. rewrite (opt_chunk_defined c (H c Hc)). reflexivity.
Qed.

(* what the statement means for tera is said at Props.C09.C09_optimize_world_correct *)
Theorem optimize_world_correct (W : Type) (wr : W -> str -> option W) (wd : world) (tpl : template) :
  world_ok wd = true -> tpl_ok tpl = true ->
  (forall a, w_get_attr wd VUndef a = None) -> scope_blind wd ->
  opt_world_defined wd = true /\
  forall (block : option str) (c g : ctx) (w : W),
    (forall fuel,
       render_to W wr wd fuel tpl block c g w <> ROutOfFuel ->
       same_outcome W (render_to W wr wd fuel tpl block c g w)
                      (render_to W wr (opt_world wd) fuel (opt_tpl tpl) block c g w)) /\
    (forall fuel',
       render_to W wr (opt_world wd) fuel' (opt_tpl tpl) block c g w <> ROutOfFuel ->
       same_outcome W (render_to W wr wd (world_bound wd tpl * fuel') tpl block c g w)
                      (render_to W wr (opt_world wd) fuel' (opt_tpl tpl) block c g w)).
Proof.
  intros Hw Ht Hga Hblind. split; [exact (opt_world_defined_ok _ Hw)|].
  set (K := max_len (world_chunks wd ++ chunks_of_tpl tpl)).
  unfold world_ok in Hw. unfold tpl_ok in Ht. rewrite forallb_forall in Hw, Ht.
  assert (Hg : forall c, In c (world_chunks wd ++ chunks_of_tpl tpl) -> good K c).
  { intros c Hc. split; [|exact (max_len_in _ _ Hc)]. apply chunk_ok_cgood.
    destruct (in_app_or _ _ _ Hc) as [H|H]; [exact (Hw c H)|exact (Ht c H)]. }
  assert (HgW : forall c, In c (world_chunks wd) -> good K c)
    by (intros c Hc; apply Hg, in_or_app; left; exact Hc).
  assert (Hwt : forall n t, assoc_get (w_templates wd) n = Some t -> tgood K t).
  { intros n t Hn. apply tgood_of_chunks. intros c Hc. apply HgW. exact (world_tpl_chunks _ _ _ _ Hn Hc). }
  assert (Hwc : forall n d c, assoc_get (w_components wd) n = Some (d, c) -> good K c).
  { intros n d c Hn. apply HgW. exact (world_comp_chunk _ _ _ _ Hn). }
  assert (HT : tgood K tpl)
    by (apply tgood_of_chunks; intros c Hc; apply Hg, in_or_app; right; exact Hc).
  intros block c g w. split.
  - intros fuel Hl.
    apply (render_rel W wr wd K true fuel fuel tpl block c g w); [|exact HT|exact Hl].
    apply (P_fuel W wr wd Hga Hblind K Hwt Hwc true). cbn. lia.
  - intros fuel' Hl.
    apply (render_rel W wr wd K false (world_bound wd tpl * fuel') fuel' tpl block c g w);
      [|exact HT|exact Hl].
    apply (P_fuel W wr wd Hga Hblind K Hwt Hwc false). unfold world_bound. fold K. lia.
Qed.

(* what happens to OutOfFuel: the optimised render diverges (runs out of every fuel) exactly
   when the original one does *)
Corollary optimize_world_diverges (W : Type) (wr : W -> str -> option W) (wd : world) (tpl : template) :
  world_ok wd = true -> tpl_ok tpl = true ->
  (forall a, w_get_attr wd VUndef a = None) -> scope_blind wd ->
  forall block c g w,
    (forall fuel, render_to W wr wd fuel tpl block c g w = ROutOfFuel) <->
    (forall fuel', render_to W wr (opt_world wd) fuel' (opt_tpl tpl) block c g w = ROutOfFuel).
Proof.
  intros Hw Ht Hga Hb block c g w.
  destruct (optimize_world_correct W wr wd tpl Hw Ht Hga Hb) as [_ H]. destruct (H block c g w) as [H1 H2].
  split; intros Hd f.
  - specialize (H2 f). rewrite (Hd _) in H2.
    destruct (render_to W wr (opt_world wd) f (opt_tpl tpl) block c g w);
      [exfalso; apply H2; discriminate..|reflexivity].
  - specialize (H1 f). rewrite (Hd f) in H1.
    destruct (render_to W wr wd f tpl block c g w); [exfalso; apply H1; discriminate..|reflexivity].
Qed.

