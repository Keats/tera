(* The two decimal printers (VFormat.z_to_str: division loop; Format.dec: Coq's Z.to_int) print
   the same numeral (Numeral.digits), hence Value::format as modelled by VFormat.v (World0) and by
   Format.v with World1's oracles agree on float-free, bytes-free values (format1_plain; what an
   element and an entry look like on either side is taken from FormatProofs.v and FormatUtf8.v). *)
From Coq Require Import List ZArith NArith Bool.
From TeraV Require Import Model.Value.
From TeraV Require Model.VFormat Model.Format Model.Order Model.World1 Proofs.OrderProofs Proofs.World1Proofs
  Proofs.ValueFacts Proofs.FormatProofs Proofs.FormatUtf8.
Import ListNotations.

Theorem dec_z_to_str z : Format.dec z = VFormat.z_to_str z.
Proof.
  destruct z as [|p|p]; unfold Format.dec; cbn [Z.to_int Format.str_of_int VFormat.z_to_str]; [reflexivity|..];
    now rewrite FormatUtf8.n_to_str_digits.
Qed.

(* no float and no byte string anywhere *)
Fixpoint plain (v : value) : bool :=
  match v with
  | VFloat _ | VBytes _ => false
  | VArr l => (fix go (l : list value) := match l with [] => true | x :: t => plain x && go t end) l
  | VMap m => (fix go (m : list (key * value)) := match m with [] => true | kv :: t => plain (snd kv) && go t end) m
  | _ => true
  end.

Lemma plain_arr l : plain (VArr l) = true <-> Forall (fun x => plain x = true) l.
Proof. exact (OrderProofs.all_b_Forall plain l). Qed.
Lemma plain_map m : plain (VMap m) = true <-> Forall (fun kv : key * value => plain (snd kv) = true) m.
Proof. exact (OrderProofs.all_b_Forall (fun kv => plain (snd kv)) m). Qed.

Lemma fmt_key_eq k : Format.fmt_key VFormat.debug_str k = VFormat.format_key k.
Proof. destruct k; cbn; trivial. apply dec_z_to_str. Qed.

Lemma ksort_same {A} (l : list (key * A)) : Format.ksort l = VFormat.sort_entries l.
Proof.
  unfold Format.ksort, VFormat.sort_entries. induction l as [|e t IH]; cbn [fold_right]; [reflexivity|].
  rewrite IH. generalize (fold_right VFormat.insert_entry [] t) as s.
  induction s as [|x s IHs]; cbn; [reflexivity|]. rewrite World1Proofs.vformat_key_cmp_fkey_cmp, IHs. reflexivity.
Qed.

Lemma inner_elem ffmt blossy x :
  Format.format ffmt VFormat.debug_str blossy x = VFormat.format_value x ->
  FormatProofs.inner ffmt VFormat.debug_str blossy x = FormatUtf8.elem x.
Proof. destruct x; trivial. Qed.

(* Format.join, s_comma, s_colon and VFormat.join_with, s_comma_sp, s_colon_sp are the same terms;
   the sorts differ in name only (ksort_same): no hypothesis on the keys is used *)
Lemma format1_plain : forall v, plain v = true -> World1.format1 v = VFormat.format_value v.
Proof.
  unfold World1.format1.
  induction v as [ | | | r z| | |l IH|m IH| ] using ValueFacts.value_ind'; intros P;
    try reflexivity; try discriminate.
  - apply dec_z_to_str.
  - rewrite FormatProofs.format_arr, FormatUtf8.format_value_arr.
    apply plain_arr in P. rewrite Forall_forall in IH, P.
    change (Format.join Format.s_comma) with (VFormat.join_with VFormat.s_comma_sp).
    do 3 f_equal. apply map_ext_in. intros x Hx. apply inner_elem; auto.
  - rewrite FormatProofs.format_map_eq, FormatUtf8.format_value_map, ksort_same.
    apply plain_map in P. rewrite Forall_forall in IH, P.
    change (Format.join Format.s_comma) with (VFormat.join_with VFormat.s_comma_sp).
    unfold FormatUtf8.entries_of.
    rewrite (map_ext_in _ (fun e : key * value => (fst e, FormatUtf8.elem (snd e))) m).
    + do 3 f_equal. apply map_ext. intros e. unfold FormatProofs.fmt_entry. rewrite fmt_key_eq. reflexivity.
    + intros e He. f_equal. apply inner_elem; auto.
Qed.
