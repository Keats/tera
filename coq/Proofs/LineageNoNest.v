(* C04 — a finite render never activates a block inside its own activation: an activation of b
   does not depend on its context, so it would have to contain itself. *)
From Coq Require Import List NArith Bool Arith Lia.
From TeraV Require Import Model.Lineage Spec.Inherit Proofs.LineageRender.
Import ListNotations.

Lemma existsb_none : forall A (g : A -> bool) l, (forall x, In x l -> g x = false) -> existsb g l = false.
Proof.
  intros A g l H. apply not_true_iff_false. rewrite existsb_exists.
  intros (x & Hx & E). rewrite (H x Hx) in E. discriminate.
Qed.

Section NoNest.
  Variable ch : chain.

  (* what an activation of b produces with fuel f, wherever it happens *)
  Definition blk (f : nat) (b : name) : rres (list otree) :=
    match resolve ch b with
    | None => Err ENoLineage
    | Some (body, anc) => spec_list f ch (Some (b, anc)) body
    end.

  (* every TBlock is an activation *)
  Inductive prov : otree -> Prop :=
  | prov_text : forall i, prov (TText i)
  | prov_open : prov TOpen
  | prov_close : prov TClose
  | prov_blk : forall b r f, blk f b = Ok r -> Forall prov r -> prov (TBlock b r).

  (* the two facts wanted of a successful run, proved by one induction over it *)
  Definition stable (g g' : rres (list otree)) : Prop :=
    forall tr, g = Ok tr -> g' = Ok tr /\ Forall prov tr.

  Lemma list_bind_stable : forall (g g' : node -> rres (list otree)) l,
    Forall (fun n => stable (g n) (g' n)) l -> stable (list_bind g l) (list_bind g' l).
  Proof.
    intros g g' l HF. induction HF as [|x l Hx _ IH]; intros r H.
    - inversion H. split; [reflexivity|constructor].
    - rewrite list_bind_cons in *.
      destruct (g x) as [a|]; [|discriminate]. destruct (Hx a eq_refl) as [-> Pa].
      destruct (list_bind g l) as [r1|]; [|discriminate]. destruct (IH r1 eq_refl) as [-> Pr].
      inversion H. split; [reflexivity|now apply Forall_app].
  Qed.

  (* calls made by the node (block, super()) get fuel f *)
  Lemma spec_node_stable : forall f,
    (forall cur body, stable (spec_list f ch cur body) (spec_list (S f) ch cur body)) ->
    forall cur n, stable (spec_node (S f) ch cur n) (spec_node (S (S f)) ch cur n).
  Proof.
    intros f IH cur. induction n as [i| |b bd _|k body IHb] using node_ind'; intros tr H;
      rewrite spec_node_S in H |- *; cbv iota in *.
    - inversion H. split; [reflexivity|repeat constructor].
    - destruct cur as [[b anc]|]; [|discriminate].
      destruct (resolve anc b) as [[body anc']|]; [|discriminate]. now apply IH.
    - destruct (resolve ch b) as [[body anc]|] eqn:Er; [|discriminate].
      destruct (spec_list f ch (Some (b, anc)) body) as [r|] eqn:E; [|discriminate].
      destruct (IH _ _ r E) as [-> Pr]. inversion H. split; [reflexivity|].
      constructor; [|constructor]. apply (prov_blk b r f); [unfold blk; now rewrite Er|exact Pr].
    - destruct (list_bind (spec_node (S f) ch cur) body) as [r|] eqn:E; [|discriminate].
      destruct (list_bind_stable _ _ body IHb r E) as [-> Pr].
      inversion H. split; [reflexivity|]. destruct k; cbn; auto.
      constructor; [constructor|]. apply Forall_app. split; [exact Pr|repeat constructor].
  Qed.

  Lemma sub_stable : forall f cur body, stable (spec_list f ch cur body) (spec_list (S f) ch cur body).
  Proof.
    induction f as [|f IH]; intros cur body; [discriminate|].
    apply list_bind_stable, Forall_forall. intros n _. now apply spec_node_stable.
  Qed.

  Lemma blk_mono : forall f f' b r, f <= f' -> blk f b = Ok r -> blk f' b = Ok r.
  Proof.
    intros f f' b r Hle. induction Hle; auto. intros H. specialize (IHHle H).
    unfold blk in *. destruct (resolve ch b) as [[body anc]|]; auto. now apply sub_stable.
  Qed.

  Fixpoint tsize (t : otree) : nat :=
    match t with TBlock _ r => S (list_sum (map tsize r)) | _ => 1 end.
  Definition lsize (l : list otree) : nat := list_sum (map tsize l).

  Lemma lsize_in : forall x l, In x l -> tsize x <= lsize l.
  Proof.
    unfold lsize, list_sum. induction l; cbn; intros H; [contradiction|].
    destruct H as [->|H]; [lia|]. apply IHl in H. lia.
  Qed.

  Lemma contains_activation : forall b t,
    prov t -> self_nested_node true b t = true ->
    exists r', (exists f, blk f b = Ok r') /\ lsize r' < tsize t.
  Proof.
    intros b. induction t as [i| | |b' body IH] using otree_ind'; intros Hp Hc; try discriminate.
    inversion Hp as [| | |? ? f Hb Hall]; subst. change (tsize (TBlock b' body)) with (S (lsize body)).
    cbn [self_nested_node] in Hc. destruct (N.eqb b b') eqn:E.
    - apply N.eqb_eq in E. subst b'. exists body. split; eauto.
    - apply existsb_exists in Hc. destruct Hc as (x & Hx & Hcx).
      rewrite Forall_forall in IH, Hall.
      destruct (IH x Hx (Hall x Hx) Hcx) as (r' & Hr' & Hlt).
      exists r'. split; auto. assert (Hle := lsize_in x body Hx). lia.
  Qed.

  Lemma no_self_nesting_node : forall b t, prov t -> self_nested_node false b t = false.
  Proof.
    intros b. induction t as [i| | |b' body IH] using otree_ind'; intros Hp; auto.
    inversion Hp as [| | |? ? f Hb Hall]; subst.
    cbn [self_nested_node]. rewrite Forall_forall in IH, Hall. destruct (N.eqb b b') eqn:E.
    - apply N.eqb_eq in E. subst b'. cbn [orb].
      apply existsb_none. intros x Hx. apply not_true_iff_false. intros Hcx.
      destruct (contains_activation b x (Hall x Hx) Hcx) as (r' & [f' Hr'] & Hlt).
      assert (H1 := blk_mono f (max f f') b body (Nat.le_max_l _ _) Hb).
      assert (H2 := blk_mono f' (max f f') b r' (Nat.le_max_r _ _) Hr').
      assert (body = r') by congruence. subst r'.
      assert (Hle := lsize_in x body Hx). lia.
    - apply existsb_none. intros x Hx. exact (IH x Hx (Hall x Hx)).
  Qed.

  Theorem no_self_nesting : forall fuel b tr, spec_render fuel ch = Ok tr -> self_nested b tr = false.
  Proof.
    intros fuel b tr H. apply sub_stable in H. destruct H as [_ H]. rewrite Forall_forall in H.
    apply existsb_none. intros x Hx. exact (no_self_nesting_node b x (H x Hx)).
  Qed.
End NoNest.
