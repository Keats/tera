(* The interior scanner is local: when `scan_inside` finds the end
   delimiter of an expression/tag, it finds the same end (same tokens, same marker) whatever
   follows, for every end delimiter other than `--` (after `-` the scanner looks one byte
   further).  Consequently the `inside_ends` side condition of wf_doc can be checked on an item
   alone, by running the model on `src ++ marker ++ end delimiter`. *)
From Coq Require Import Arith.
From TeraV Require Import Model.Value Model.Utf8Lex Model.Lexer Spec.Doc Model.LexerDoc
  Proofs.Utf8Proofs Proofs.LexerProofs Proofs.LexerSpans.
Local Open Scope nat_scope.

Lemma skip_ascii_ws_app_cons : forall s b t x,
  skip_ascii_ws s = b :: t -> skip_ascii_ws (s ++ x) = (b :: t) ++ x.
Proof.
  induction s as [|c s IH]; intros b t x H; [discriminate|].
  cbn [skip_ascii_ws app] in *. destruct (is_ascii_ws c); [now apply IH|].
  inversion H; subst. reflexivity.
Qed.

Lemma starts2_app_long : forall d s x, 2 <= length s -> starts2 d (s ++ x) = starts2 d s.
Proof. intros d [|a [|b s]] x H; cbn in H; try lia. reflexivity. Qed.

Lemma firstn_app_le : forall (A : Type) n (s x : list A), n <= length s -> firstn n (s ++ x) = firstn n s.
Proof.
  intros A n s x H. rewrite firstn_app. replace (n - length s) with 0 by lia.
  cbn [firstn]. apply app_nil_r.
Qed.

Lemma starts_with_app_long : forall p s x, length p <= length s ->
  starts_with p (s ++ x) = starts_with p s.
Proof. intros p s x H. unfold starts_with. now rewrite firstn_app_le. Qed.

Lemma byte_at_is_app : forall s i b x, byte_at_is s i b = true -> byte_at_is (s ++ x) i b = true.
Proof.
  intros s i b x H. pose proof (byte_at_is_lt _ _ _ H) as L.
  unfold byte_at_is in *. now rewrite nth_error_app1.
Qed.

Lemma str_scan_app : forall a q e x, fst (str_scan a q e) < length a ->
  str_scan (a ++ x) q e = str_scan a q e.
Proof.
  induction a as [|c t IH]; intros q e x H; [cbn in H; lia|].
  cbn [app str_scan] in *. destruct e.
  - destruct (str_scan t q false) as [n h] eqn:E. cbn [fst length] in H.
    rewrite IH by (rewrite E; cbn; lia). now rewrite E.
  - destruct (c =? backslash)%N.
    + destruct (str_scan t q true) as [n h] eqn:E. cbn [fst length] in H.
      rewrite IH by (rewrite E; cbn; lia). now rewrite E.
    + destruct (c =? q)%N; [reflexivity|].
      destruct (str_scan t q false) as [n h] eqn:E. cbn [fst length] in H.
      rewrite IH by (rewrite E; cbn; lia). now rewrite E.
Qed.

Lemma num_scan_app : forall a f x, fst (num_scan a f) < length a ->
  num_scan (a ++ x) f = num_scan a f.
Proof.
  induction a as [|c t IH]; intros f x H; [cbn in H; lia|].
  cbn [app num_scan] in *. destruct (negb f && (c =? 46)%N).
  - destruct (num_scan t true) as [n h] eqn:E. cbn [fst length] in H.
    rewrite IH by (rewrite E; cbn; lia). now rewrite E.
  - destruct (is_ascii_digit c); [|reflexivity].
    destruct (num_scan t f) as [n h] eqn:E. cbn [fst length] in H.
    rewrite IH by (rewrite E; cbn; lia). now rewrite E.
Qed.

Lemma ident_scan_app : forall a f x, ident_scan a f < length a ->
  ident_scan (a ++ x) f = ident_scan a f.
Proof.
  induction a as [|c t IH]; intros f x H; [cbn in H; lia|].
  cbn [app ident_scan] in *.
  destruct ((c =? 95)%N || (if f then is_ascii_alpha c else is_ascii_alnum c)); [|reflexivity].
  cbn [length] in H. rewrite IH by lia. reflexivity.
Qed.

Lemma inner_token_app : forall s t n x, inner_token s = Some (t, n) -> n + 2 <= length s ->
  inner_token (s ++ x) = Some (t, n).
Proof.
  intros s t n x H L. pose proof (inner_token_spec _ _ _ H) as (_ & N1 & _).
  destruct s as [|b1 [|b2 t2]]; try (cbn [length] in L; lia).
  unfold inner_token in *. cbn [app].
  change (b1 :: b2 :: t2 ++ x) with ((b1 :: b2 :: t2) ++ x). set (r := b1 :: b2 :: t2) in *.
  assert (L3 : 3 <= length r) by (cbn [length] in *; lia).
  rewrite starts_with_app_long by exact L3.
  destruct (starts_with _ r); [exact H|].
  destruct (op2_of b1 b2); [exact H|].
  destruct (op1_of b1); [exact H|].
  destruct (is_quote b1).
  { unfold lex_string in *. change (tl (r ++ x)) with (tl r ++ x).
    destruct (str_scan (tl r) b1 false) as [k h] eqn:E.
    destruct (byte_at_is r (k + 1) b1) eqn:B; [|discriminate].
    pose proof (byte_at_is_lt _ _ _ B) as BL. change (length r) with (S (length (tl r))) in BL.
    rewrite str_scan_app by (rewrite E; cbn [fst]; lia). rewrite E.
    rewrite (byte_at_is_app _ _ _ x B). cbn [negb] in *.
    rewrite firstn_app_le by lia. exact H. }
  destruct (is_ascii_digit b1).
  { unfold lex_number in *. destruct (num_scan r false) as [k f] eqn:E.
    assert (K : k = n).
    { destruct f; [inversion H; reflexivity|]. destruct (_ <=? _)%Z; [inversion H; reflexivity|discriminate]. }
    rewrite num_scan_app by (rewrite E; cbn [fst]; lia). rewrite E.
    rewrite firstn_app_le by lia. exact H. }
  destruct (ident_scan r true) as [|k] eqn:E; [discriminate|].
  assert (K : S k = n).
  { destruct (_ || _); [inversion H; reflexivity|]. destruct (_ || _); inversion H; reflexivity. }
  rewrite ident_scan_app by (rewrite E; lia). rewrite E.
  rewrite firstn_app_le by lia. exact H.
Qed.

Lemma end_marker_some_app : forall e r w x, length e = 2 -> e <> [dash; dash] ->
  end_marker e r = Some w -> end_marker e (r ++ x) = Some w.
Proof.
  intros e [|b0 t0] w x Le Ne H; [discriminate|]. cbn [end_marker app] in *.
  destruct ((b0 =? dash)%N && starts2 e t0) eqn:D.
  { apply andb_true_iff in D as [D1 D2]. now rewrite D1, starts2_app_long, D2 by exact (starts2_len _ _ D2). }
  destruct (starts2 e (b0 :: t0)) eqn:D2; [|discriminate]. pose proof (starts2_len _ _ D2) as L2.
  change (b0 :: t0 ++ x) with ((b0 :: t0) ++ x). rewrite (starts2_app_long e (b0 :: t0)), D2 by exact L2.
  enough (D' : (b0 =? dash)%N && starts2 e (t0 ++ x) = false) by now rewrite D'.
  destruct (b0 =? dash)%N eqn:B; [|reflexivity]. cbn [andb] in *.
  destruct t0 as [|c1 [|c2 t0']].
  - cbn in L2. lia.
  - (* e = [`-`; c1]: on the longer input the `-` + end test reads [c1; first of x], and e is not `--` *)
    cbn [starts2] in D2. apply bytes_eqb_eq in D2.
    destruct x as [|y x']; [reflexivity|]. cbn [app starts2].
    apply bytes_eqb_neq. intro Q. rewrite <- D2 in Q. inversion Q; subst.
    apply N.eqb_eq in B. subst. apply Ne. reflexivity.
  - rewrite starts2_app_long by (cbn [length]; lia). exact D.
Qed.

Lemma end_marker_none_app : forall e r x, 3 <= length r ->
  end_marker e r = None -> end_marker e (r ++ x) = None.
Proof.
  intros e [|b0 t0] x L H; [cbn in L; lia|]. cbn [end_marker app length] in *.
  rewrite starts2_app_long by lia. change (b0 :: t0 ++ x) with ((b0 :: t0) ++ x).
  rewrite starts2_app_long by (cbn [length]; lia). exact H.
Qed.

Lemma scan_inside_app : forall f e s toks w pre rest x, length e = 2 -> e <> [dash; dash] ->
  scan_inside f e s = IEnd toks w pre rest -> scan_inside f e (s ++ x) = IEnd toks w pre (rest ++ x).
Proof.
  induction f as [|f IH]; intros e s toks w pre rest x Le Ne H; [discriminate|].
  pose proof (skip_ascii_ws_len s) as SL.
  destruct (skip_ascii_ws s) as [|b0 t0] eqn:E; [rewrite scan_inside_eof in H; [discriminate|exact E]|].
  rewrite (scan_inside_S f e s _ E) in H by discriminate.
  rewrite (scan_inside_S f e (s ++ x) _ (skip_ascii_ws_app_cons _ _ _ x E)) by discriminate.
  replace (length (s ++ x) - length ((b0 :: t0) ++ x)) with (length s - length (b0 :: t0))
    by (rewrite !app_length; lia).
  set (r := b0 :: t0) in *.
  destruct (end_marker e r) as [w'|] eqn:M.
  { rewrite (end_marker_some_app _ _ _ x Le Ne M). injection H as <- <- <- <-.
    apply end_marker_len in M. rewrite skipn_app. now replace (mlen w' - length r) with 0 by lia. }
  destruct (inner_token r) as [[t len]|] eqn:T; [|discriminate].
  destruct (scan_inside f e (skipn len r)) as [toks' w' pre' rest'| |] eqn:R;
    cbn [ires_cons] in H; try discriminate.
  injection H as <- <- <- <-.
  pose proof (scan_inside_spec f e (skipn len r)) as C2. rewrite R in C2. destruct C2 as (_ & C2 & _).
  rewrite skipn_length in C2. pose proof (inner_token_spec _ _ _ T) as (_ & T1 & T2).
  pose proof (mlen_ge w').
  rewrite (end_marker_none_app _ _ x) by (exact M || lia).
  rewrite (inner_token_app _ _ _ x T) by lia.
  rewrite skipn_app. replace (len - length r) with 0 by lia. cbn [skipn].
  rewrite (IH _ _ _ _ _ _ x Le Ne R). reflexivity.
Qed.

Theorem inside_ends_local : forall e s r rest x, length e = 2 -> e <> [dash; dash] ->
  inside_ends_model e s r rest -> inside_ends_model e (s ++ x) r (rest ++ x).
Proof.
  intros e s r rest x Le Ne [toks [pre H]]. exists toks, pre.
  rewrite (scan_inside_fuel _ (S (length (s ++ x)))) in H by (rewrite ?app_length; lia).
  exact (scan_inside_app _ _ _ _ _ _ _ x Le Ne H).
Qed.
