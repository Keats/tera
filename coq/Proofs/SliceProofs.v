(* Proofs for C14: the Rust slice/index algorithms (Model/Slice.v) meet the Python
   specification (Spec/PySlice.v) for every length and every i128 start/stop/step. *)
From TeraV Require Import Model.Value Model.Slice Spec.PySlice.
From TeraV Require Proofs.IntRange.

Definition opt_in_i128 (o : option Z) : Prop :=
  match o with None => True | Some z => i128_min <= z <= i128_max end.

(* all that the proofs below need of the numerical values of the bounds *)
Lemma i128_bounds : i128_min <= -1 /\ 1 <= i128_max.
Proof. pose proof IntRange.bounds_order. lia. Qed.

Lemma sat_add_exact a b :
  i128_min <= a + b <= i128_max -> sat_add a b = a + b.
Proof. unfold sat_add. lia. Qed.

Lemma sat_add_hi a b : i128_max <= a + b -> sat_add a b = i128_max.
Proof. pose proof i128_bounds. unfold sat_add. lia. Qed.

Lemma sat_add_lo a b : a + b <= i128_min -> sat_add a b = i128_min.
Proof. pose proof i128_bounds. unfold sat_add. lia. Qed.

(* the clamp's precondition (std asserts lo <= hi) *)
Lemma lo_le_hi len step : 0 <= len -> fst (bounds len step) <= snd (bounds len step).
Proof. unfold bounds. destruct (0 <? step) eqn:?; simpl; lia. Qed.

(* resolving one bound is PySlice_AdjustIndices on it; a bound that is given is resolved the
   same way whether it is the start or the stop, only the defaults differ *)
Lemma resolve_param_is_py len step b is_start :
  0 <= len <= i128_max -> opt_in_i128 b -> step <> 0 ->
  resolve_param len (fst (bounds len step)) (snd (bounds len step)) b
    (if Bool.eqb is_start (0 <? step) then fst (bounds len step) else snd (bounds len step))
  = py_adjust len step b is_start.
Proof.
  intros Hlen Hs Hstep. unfold resolve_param, py_adjust, bounds, clamp.
  destruct b as [p|]; simpl in Hs.
  - destruct (0 <? step) eqn:E1; simpl;
    destruct (p <? 0) eqn:E2.
    + rewrite sat_add_exact by lia.
      destruct (p + len <? 0) eqn:?; destruct (step <? 0) eqn:?;
      destruct (len <? p + len) eqn:?; try lia.
    + destruct (p <? 0) eqn:?; try lia.
      destruct (len <? p) eqn:?; destruct (len <=? p) eqn:?; destruct (step <? 0) eqn:?; lia.
    + rewrite sat_add_exact by lia.
      destruct (p + len <? -1) eqn:?; destruct (p + len <? 0) eqn:?;
      destruct (step <? 0) eqn:?; destruct (len - 1 <? p + len) eqn:?; try lia.
    + destruct (p <? -1) eqn:?; try lia.
      destruct (len - 1 <? p) eqn:?; destruct (len <=? p) eqn:?; destruct (step <? 0) eqn:?; lia.
  - destruct is_start; destruct (0 <? step) eqn:?; destruct (step <? 0) eqn:?; simpl; lia.
Qed.

Lemma py_adjust_bounds len step b is_start : 0 <= len ->
  -1 <= py_adjust len step b is_start <= len /\
  (0 < step -> 0 <= py_adjust len step b is_start) /\
  (step < 0 -> py_adjust len step b is_start <= len - 1).
Proof.
  intros. unfold py_adjust. destruct b as [p|]; destruct is_start;
  repeat match goal with |- context [if ?c then _ else _] => destruct c eqn:? end; lia.
Qed.

Lemma py_adjust_range len step b is_start :
  0 <= len -> -1 <= py_adjust len step b is_start <= len.
Proof. intros H. apply (py_adjust_bounds len step b is_start H). Qed.

Lemma py_range_nil start stop step :
  (if 0 <? step then stop <= start else start <= stop) -> py_range start stop step = [].
Proof.
  intros H. unfold py_range, py_range_len.
  destruct (0 <? step) eqn:?.
  - destruct (start <? stop) eqn:?; [lia|reflexivity].
  - destruct (stop <? start) eqn:?; [lia|reflexivity].
Qed.

Lemma py_range_len_nonneg start stop step : step <> 0 -> 0 <= py_range_len start stop step.
Proof.
  intros. unfold py_range_len.
  destruct (0 <? step) eqn:?; [destruct (start <? stop) eqn:?|destruct (stop <? start) eqn:?]; try lia.
  - assert (0 <= (stop - start - 1) / step) by (apply Z.div_pos; lia). lia.
  - assert (0 <= (start - stop - 1) / (- step)) by (apply Z.div_pos; lia). lia.
Qed.

Lemma py_range_len_mirror start stop step : step < 0 ->
  py_range_len start stop step = py_range_len (- start) (- stop) (- step).
Proof.
  intros Hs. unfold py_range_len.
  destruct (0 <? step) eqn:?, (0 <? - step) eqn:?; try lia.
  destruct (stop <? start) eqn:?, (- start <? - stop) eqn:?; try lia.
  do 2 f_equal. lia.
Qed.

(* by the mirror image, a positive step is the only case *)
Lemma py_range_len_step start stop step :
  step <> 0 -> (if 0 <? step then start < stop else stop < start) ->
  py_range_len start stop step = py_range_len (start + step) stop step + 1.
Proof.
  assert (P : forall a b st, 0 < st -> a < b -> py_range_len a b st = py_range_len (a + st) b st + 1).
  { intros a b st Hs Hlt. unfold py_range_len.
    destruct (0 <? st) eqn:?; try lia.
    destruct (a <? b) eqn:?; try lia.
    destruct (a + st <? b) eqn:E.
    - replace (b - a - 1) with ((b - (a + st) - 1) + 1 * st) by lia.
      rewrite Z.div_add by lia. lia.
    - rewrite Z.div_small by lia. lia. }
  intros Hnz H. destruct (0 <? step) eqn:?; [apply P; lia|].
  rewrite (py_range_len_mirror start), (py_range_len_mirror (start + step)), Z.opp_add_distr by lia.
  apply P; lia.
Qed.

Lemma py_range_cons start stop step :
  step <> 0 -> (if 0 <? step then start < stop else stop < start) ->
  py_range start stop step = start :: py_range (start + step) stop step.
Proof.
  intros Hnz H. unfold py_range.
  rewrite py_range_len_step by assumption.
  pose proof (py_range_len_nonneg (start + step) stop step Hnz) as Hn.
  rewrite Z2Nat.inj_add by lia. rewrite Nat.add_comm.
  change (Z.to_nat 1) with 1%nat. cbn [Nat.add seq map].
  f_equal; [cbn; lia|].
  rewrite <- seq_shift, map_map. apply map_ext. intros k. lia.
Qed.

Lemma slice_loop_stop fuel i e step :
  (if 0 <? step then e <= i else i <= e) -> slice_loop fuel i e step = [].
Proof.
  intros H. destruct fuel; [reflexivity|]. cbn [slice_loop].
  destruct (0 <? step) eqn:?.
  - destruct (i <? e) eqn:?; [lia|reflexivity].
  - destruct (e <? i) eqn:?; [lia|reflexivity].
Qed.

(* the one point where the loop's arithmetic differs from Python's: a step past i128::MAX (or
   i128::MIN) saturates there, and since e lies within i128 the next test ends the loop, as
   Python's range has ended as well *)
Lemma slice_loop_is_range step : step <> 0 -> i128_min <= step <= i128_max ->
  forall fuel i e, i128_min <= i <= i128_max -> i128_min <= e <= i128_max ->
  (if 0 <? step then e - i else i - e) <= Z.of_nat fuel ->
  slice_loop fuel i e step = py_range i e step.
Proof.
  intros Hnz Hs.
  pose proof (fun i e => py_range_nil i e step) as Nil.
  pose proof (fun i e => py_range_cons i e step Hnz) as Cons.
  pose proof (fun f i e => slice_loop_stop f i e step) as Stop.
  (* the direction is fixed here, once: both cases then read the same *)
  destruct (0 <? step) eqn:E.
  all: induction fuel as [|f IH]; intros i e Hi He Hf; cbn [slice_loop].
  1, 3: symmetry; apply Nil; lia.
  all: destruct (if 0 <? step then i <? e else e <? i) eqn:Hlt; rewrite E in Hlt;
    [|symmetry; apply Nil; lia].
  all: rewrite Cons by lia; f_equal.
  all: destruct (Z_le_gt_dec (i + step) i128_max); [destruct (Z_le_gt_dec i128_min (i + step))|].
  1, 4: rewrite sat_add_exact by lia; apply IH; lia.
  1, 3: rewrite sat_add_lo, Stop, Nil by lia; reflexivity.
  all: rewrite sat_add_hi, Stop, Nil by lia; reflexivity.
Qed.

Theorem slice_indices_is_python len start stop step :
  0 <= len <= i128_max -> opt_in_i128 start -> opt_in_i128 stop ->
  i128_min <= step <= i128_max -> step <> 0 ->
  slice_indices len start stop step = py_slice_indices len start stop step.
Proof.
  intros Hlen Hs He Hst Hnz. unfold slice_indices, py_slice_indices.
  pose proof (resolve_param_is_py len step start true Hlen Hs Hnz) as R1.
  pose proof (resolve_param_is_py len step stop false Hlen He Hnz) as R2.
  pose proof (py_adjust_bounds len step start true ltac:(lia)).
  pose proof (py_adjust_bounds len step stop false ltac:(lia)).
  pose proof i128_bounds.
  unfold bounds in *. destruct (0 <? step) eqn:E; cbn [fst snd Bool.eqb] in R1, R2 |- *; rewrite R1, R2;
    apply slice_loop_is_range; rewrite ?E; lia.
Qed.

(* k <= (d - 1) / s gives k * s < d: the elements of a range stay on their side of stop *)
Lemma py_range_bounds start stop step x :
  step <> 0 -> In x (py_range start stop step) ->
  if 0 <? step then start <= x < stop else stop < x <= start.
Proof.
  intros Hnz. unfold py_range. rewrite in_map_iff. intros [k [<- Hin]].
  apply in_seq in Hin. unfold py_range_len in Hin.
  destruct (0 <? step) eqn:?.
  - destruct (start <? stop) eqn:?; [|simpl in Hin; lia].
    pose proof (Z.mul_div_le (stop - start - 1) step ltac:(lia)). nia.
  - destruct (stop <? start) eqn:?; [|simpl in Hin; lia].
    pose proof (Z.mul_div_le (start - stop - 1) (- step) ltac:(lia)). nia.
Qed.

Lemma py_slice_indices_in_bounds len start stop step x :
  0 <= len -> step <> 0 -> In x (py_slice_indices len start stop step) -> 0 <= x < len.
Proof.
  intros Hlen Hnz Hin. apply py_range_bounds in Hin; [|exact Hnz].
  pose proof (py_adjust_bounds len step start true Hlen).
  pose proof (py_adjust_bounds len step stop false Hlen).
  destruct (0 <? step) eqn:?; lia.
Qed.

Lemma index_usize_in {A} (items : list A) i : 0 <= i < Z.of_nat (length items) ->
  exists x, index_usize items i = Some x /\ nth_error items (Z.to_nat i) = Some x.
Proof.
  intros Hi. unfold index_usize. destruct (i <? 0) eqn:?; [lia|].
  destruct (nth_error items (Z.to_nat i)) as [x|] eqn:E; [exists x; auto|].
  apply nth_error_None in E. lia.
Qed.

Lemma collect_in_bounds {A} (items : list A) idx :
  (forall x, In x idx -> 0 <= x < Z.of_nat (length items)) ->
  collect items idx =
    Some (flat_map (fun i => match nth_error items (Z.to_nat i) with Some x => [x] | None => [] end) idx).
Proof.
  induction idx as [|i t IH]; intros H; [reflexivity|].
  cbn [collect flat_map]. rewrite IH by (intros; apply H; right; assumption).
  destruct (index_usize_in items i) as (x & -> & ->); [apply H; left|]; reflexivity.
Qed.

Theorem slice_items_is_python {A} (items : list A) start stop step :
  Z.of_nat (length items) <= i128_max -> opt_in_i128 start -> opt_in_i128 stop ->
  i128_min <= step <= i128_max -> step <> 0 ->
  slice_items items start stop step = Some (py_slice items start stop step).
Proof.
  intros Hlen Hs He Hst Hnz. unfold slice_items, py_slice.
  rewrite slice_indices_is_python by (try assumption; lia).
  apply collect_in_bounds. intros x Hx.
  eapply py_slice_indices_in_bounds; eauto. lia.
Qed.

Lemma py_range_len_le start stop step : step <> 0 -> py_range_len start stop step <= Z.abs (stop - start).
Proof.
  assert (P : forall a b st, 0 < st -> py_range_len a b st <= Z.abs (b - a)).
  { intros a b st Hs. unfold py_range_len. destruct (0 <? st) eqn:?; [|lia].
    destruct (a <? b) eqn:?; [|lia].
    assert ((b - a - 1) / st <= b - a - 1) by (apply Z.div_le_upper_bound; nia). lia. }
  intros Hnz. destruct (Z_lt_ge_dec 0 step) as [Hpos|Hneg]; [auto|].
  rewrite py_range_len_mirror by lia. specialize (P (- start) (- stop) (- step)). lia.
Qed.

(* the adjusted bounds are at most len apart *)
Lemma py_slice_length {A} (items : list A) start stop step :
  step <> 0 -> (length (py_slice items start stop step) <= length items)%nat.
Proof.
  intros Hnz. unfold py_slice.
  set (len := Z.of_nat (length items)).
  assert (Hcount : (length (py_slice_indices len start stop step) <= length items)%nat).
  { unfold py_slice_indices, py_range. rewrite map_length, seq_length.
    pose proof (py_adjust_bounds len step start true ltac:(lia)).
    pose proof (py_adjust_bounds len step stop false ltac:(lia)).
    pose proof (py_range_len_le (py_adjust len step start true) (py_adjust len step stop false) step Hnz).
    lia. }
  etransitivity; [|exact Hcount].
  clear Hcount. induction (py_slice_indices len start stop step) as [|i t IH]; [simpl; lia|].
  cbn [flat_map]. rewrite app_length. destruct (nth_error items (Z.to_nat i)); simpl; lia.
Qed.

Definition int_value (v : value) : Prop :=
  match v with VInt r z => rep_ok r z = true | _ => False end.

Definition int_val (v : value) : Z := match v with VInt _ z => z | _ => 0 end.

Lemma resolve_index_spec v len :
  int_value v -> 0 <= len <= i128_max ->
  resolve_index v len =
    ROk (let i := int_val v in
         if (0 <=? i) && (i <? len) then Some i
         else if (- len <=? i) && (i <? 0) then Some (i + len) else None).
Proof.
  intros Hv Hlen. destruct v; try contradiction. cbn [int_value int_val] in *.
  unfold resolve_index, as_i128, is_u128.
  destruct (in_i128 z) eqn:Hin.
  - cbn zeta. destruct (z <? 0) eqn:?;
    repeat match goal with |- context [if ?c then _ else _] => destruct c eqn:? end;
      try reflexivity; try lia.
  - (* only a u128 above i128::MAX fails as_i128 *)
    cbn zeta. destruct (IntRange.rep_ok_not_i128 r z Hv Hin) as [-> [Hbig _]].
    repeat match goal with |- context [if ?c then _ else _] => destruct c eqn:? end;
      try reflexivity; try lia.
Qed.

(* x[i] on any sequence whose elements [f] turns into values: arrays with the identity, strings
   with the one-character string *)
Lemma index_resolved {A} (l : list A) (f : A -> value) v :
  int_value v -> Z.of_nat (length l) <= i128_max ->
  res_bind (resolve_index v (Z.of_nat (length l)))
    (fun r => match r with
              | Some i => match index_usize l i with Some x => ROk (f x) | None => RErr ErrPanic end
              | None => ROk VUndef
              end)
  = ROk (match py_index l (int_val v) with Some x => f x | None => VUndef end).
Proof.
  intros Hv Hlen. rewrite resolve_index_spec by (auto; lia).
  cbn [res_bind]. unfold py_index. set (i := int_val v). set (len := Z.of_nat (length l)).
  destruct ((0 <=? i) && (i <? len)) eqn:E1.
  - destruct (index_usize_in l i) as (x & -> & ->); [lia|reflexivity].
  - destruct ((- len <=? i) && (i <? 0)) eqn:E2; [|reflexivity].
    destruct (index_usize_in l (i + len)) as (x & -> & ->); [lia|reflexivity].
Qed.

Definition step_of (o : option Z) : Z := match o with None => 1 | Some s => s end.

(* Value::slice and the Slice instruction treat arrays and strings alike: [v] is a sequence with
   elements [items], rebuilt from its selected elements by [wrap] *)
Definition slices_as {A} (v : value) (items : list A) (wrap : list A -> value) : Prop :=
  is_undefined v = false /\ is_none v = false /\
  forall start stop step, value_slice v start stop step =
    if step_of step =? 0 then RErr ErrMsg
    else match slice_items items start stop (step_of step) with
         | Some r => ROk (wrap r)
         | None => RErr ErrPanic
         end.

Lemma slices_arr l : slices_as (VArr l) l VArr.
Proof. repeat split. Qed.
Lemma slices_str s safe : slices_as (VStr s safe) s (fun r => VStr r safe).
Proof. repeat split. Qed.

Theorem value_slice_seq {A} v (items : list A) wrap : slices_as v items wrap -> forall start stop step,
  Z.of_nat (length items) <= i128_max -> opt_in_i128 start -> opt_in_i128 stop -> opt_in_i128 step ->
  value_slice v start stop step =
    if step_of step =? 0 then RErr ErrMsg else ROk (wrap (py_slice items start stop (step_of step))).
Proof.
  intros [_ [_ V]] start stop step Hl Hs He Hst. rewrite V.
  destruct (step_of step =? 0) eqn:E; [reflexivity|].
  rewrite slice_items_is_python; auto; try lia.
  pose proof i128_bounds. destruct step; cbn in *; lia.
Qed.

Lemma py_slice_incl {A} (items : list A) start stop step : incl (py_slice items start stop step) items.
Proof.
  unfold py_slice. intros x Hx. apply in_flat_map in Hx. destruct Hx as [i [_ Hi]].
  destruct (nth_error items (Z.to_nat i)) eqn:E; [|contradiction].
  destruct Hi as [<-|[]]. eapply nth_error_In; eauto.
Qed.

Lemma py_index_in {A} (items : list A) i x : py_index items i = Some x -> In x items.
Proof.
  unfold py_index. repeat match goal with |- context [if ?c then _ else _] => destruct c end;
    try discriminate; apply nth_error_In.
Qed.

(* an operand of the Slice instruction: none or an integer; its value as Python sees it; and what
   slice_operand makes of a u128 above i128::MAX (it takes i128::MAX, which py_adjust_clip shows
   makes no difference for lengths up to i128::MAX) *)
Definition slice_arg (v : value) : Prop := v = VNone \/ int_value v.
Definition arg_val (v : value) : option Z := match v with VInt _ z => Some z | _ => None end.
Definition clip (o : option Z) : option Z :=
  match o with Some z => Some (if i128_max <? z then i128_max else z) | None => None end.

Lemma slice_operand_spec v :
  slice_arg v -> slice_operand v = ROk (clip (arg_val v)) /\ opt_in_i128 (clip (arg_val v)).
Proof.
  intros [->|Hv]; [split; [reflexivity|exact I]|].
  destruct v; try contradiction. cbn [int_value arg_val clip opt_in_i128] in *.
  pose proof (IntRange.rep_ok_range r z Hv) as Hr.
  unfold slice_operand. cbn [is_none is_undefined as_i128].
  destruct (in_i128 z) eqn:Hin.
  - unfold in_i128 in Hin. destruct (i128_max <? z) eqn:?; split; try reflexivity; try lia.
  - destruct (IntRange.rep_ok_not_i128 r z Hv Hin) as [-> [Hbig _]].
    pose proof i128_bounds. cbn [is_u128]. destruct (_ <? z) eqn:?; split; try reflexivity; lia.
Qed.

Lemma py_adjust_clip len step b is_start :
  0 <= len <= i128_max -> py_adjust len step (clip b) is_start = py_adjust len step b is_start.
Proof.
  intros Hlen. destruct b as [z|]; [|reflexivity]. cbn [clip].
  destruct (i128_max <? z) eqn:E; [|reflexivity].
  unfold py_adjust. pose proof i128_bounds.
  assert (Hz : (z <? 0) = false) by lia.
  assert (Hm : (i128_max <? 0) = false) by lia.
  assert (Hlz : (len <=? z) = true) by lia.
  assert (Hlm : (len <=? i128_max) = true) by lia.
  rewrite Hz, Hm, Hlz, Hlm. reflexivity.
Qed.

Lemma py_adjust_sign len step step' b is_start :
  (step <? 0) = (step' <? 0) -> py_adjust len step b is_start = py_adjust len step' b is_start.
Proof. intros H. unfold py_adjust. rewrite H. reflexivity. Qed.

Lemma py_range_big_step a b step step' :
  b - a <= step -> b - a <= step' -> 0 < step -> 0 < step' ->
  py_range a b step = py_range a b step'.
Proof.
  intros H1 H2 Hs Hs'. unfold py_range, py_range_len.
  destruct (0 <? step) eqn:?; destruct (0 <? step') eqn:?; try lia.
  destruct (a <? b) eqn:?; [|reflexivity].
  rewrite !Z.div_small by lia. change (Z.to_nat (0 + 1)) with 1%nat.
  cbn [seq map]. f_equal.
Qed.

Lemma py_slice_indices_clip len start stop step :
  0 <= len <= i128_max -> step_of step <> 0 ->
  py_slice_indices len (clip start) (clip stop) (step_of (clip step))
  = py_slice_indices len start stop (step_of step).
Proof.
  intros Hlen Hnz. unfold py_slice_indices. destruct step as [step|]; cbn [clip step_of] in *;
    rewrite !py_adjust_clip by assumption; [|reflexivity]. pose proof i128_bounds.
  destruct (i128_max <? step) eqn:E; [|reflexivity].
  rewrite (py_adjust_sign len i128_max step start true), (py_adjust_sign len i128_max step stop false)
    by (destruct (_ <? 0) eqn:?; destruct (step <? 0) eqn:?; lia).
  pose proof (py_adjust_bounds len step start true ltac:(lia)).
  pose proof (py_adjust_bounds len step stop false ltac:(lia)).
  apply py_range_big_step; lia.
Qed.

Lemma step_of_clip o : (step_of (clip o) =? 0) = (step_of o =? 0).
Proof.
  destruct o as [z|]; [|reflexivity]. cbn [clip step_of].
  pose proof i128_bounds. destruct (i128_max <? z) eqn:?; [|reflexivity]. lia.
Qed.

Lemma py_slice_clip {A} (items : list A) start stop step :
  Z.of_nat (length items) <= i128_max -> step_of step <> 0 ->
  py_slice items (clip start) (clip stop) (step_of (clip step)) = py_slice items start stop (step_of step).
Proof.
  intros Hlen Hnz. unfold py_slice. rewrite py_slice_indices_clip by (try assumption; lia). reflexivity.
Qed.

Theorem vm_slice_seq {A} v (items : list A) wrap : slices_as v items wrap -> forall opt start stop step,
  Z.of_nat (length items) <= i128_max ->
  slice_arg start -> slice_arg stop -> slice_arg step ->
  vm_slice opt v start stop step =
    if step_of (arg_val step) =? 0 then RErr ErrRender
    else ROk (wrap (py_slice items (arg_val start) (arg_val stop) (step_of (arg_val step)))).
Proof.
  intros S opt start stop step Hl Ha Hb Hc. unfold vm_slice.
  rewrite (proj1 S), (proj1 (proj2 S)), andb_false_r.
  destruct (slice_operand_spec _ Ha) as [-> Ia], (slice_operand_spec _ Hb) as [-> Ib],
           (slice_operand_spec _ Hc) as [-> Ic].
  cbn [res_bind]. rewrite (value_slice_seq v items wrap S) by assumption. rewrite step_of_clip.
  destruct (step_of (arg_val step) =? 0) eqn:E; [reflexivity|].
  rewrite py_slice_clip by (try assumption; lia). reflexivity.
Qed.
