(* C04 — finalize_templates on a compiled set, for every iteration order: loop1 records anc_names (the
   ancestor chain of a template), loop2 each template's own block map, the inherit pass completes
   them to clin (the lineage of a block along a chain).  The block-cycle check reads the lineage maps
   through lookups only, so the verdict is the same for all orders. *)
From Coq Require Import List NArith Bool Arith Lia Permutation.
From TeraV Require Import Model.Lineage Spec.Inherit Proofs.LineageRender.
Import ListNotations.

Lemma alookup_ainsert : forall V k k' (v : V) m,
  alookup k (ainsert k' v m) = if N.eqb k k' then Some v else alookup k m.
Proof.
  induction m as [|[k0 v0] m IH]; cbn.
  - destruct (N.eqb k k'); auto.
  - destruct (N.eqb k' k0) eqn:E0; cbn.
    + apply N.eqb_eq in E0. subst k0. destruct (N.eqb k k'); auto.
    + destruct (N.eqb k k0) eqn:E1.
      * apply N.eqb_eq in E1. subst k0. rewrite N.eqb_sym, E0. reflexivity.
      * exact IH.
Qed.

Lemma in_keys_iff : forall V (m : list (name * V)) k, In k (map fst m) <-> alookup k m <> None.
Proof.
  induction m as [|[k0 v0] m IH]; cbn; intros k.
  - split; [intros []|intros H; now apply H].
  - destruct (N.eqb_spec k k0) as [->|E].
    + split; [discriminate|now left].
    + rewrite <- IH. split; [intros [H|H]; [now destruct E|exact H]|now right].
Qed.

Lemma keys_ainsert_in : forall V k (v : V) m x,
  In x (map fst (ainsert k v m)) <-> x = k \/ In x (map fst m).
Proof.
  intros V k v m x. rewrite !in_keys_iff, alookup_ainsert. destruct (N.eqb_spec x k) as [E|E].
  - split; [now left|discriminate].
  - split; [now right|intros [H|H]; [now destruct E|exact H]].
Qed.

Lemma nodup_ainsert : forall V k (v : V) m, NoDup (map fst m) -> NoDup (map fst (ainsert k v m)).
Proof.
  induction m as [|[k0 v0] m IH]; cbn; intros H.
  - constructor; [intros []|constructor].
  - inversion H; subst. destruct (N.eqb k k0) eqn:E; cbn.
    + apply N.eqb_eq in E. subst. constructor; auto.
    + constructor; auto. rewrite keys_ainsert_in. intros [->|Hin]; auto.
      rewrite N.eqb_refl in E. discriminate.
Qed.

Lemma alookup_aor_insert : forall V k k' (v : V) m,
  alookup k (aor_insert k' v m) =
  match alookup k m with Some x => Some x | None => if N.eqb k k' then Some v else None end.
Proof.
  intros. unfold aor_insert, amem. destruct (alookup k' m) eqn:E.
  - destruct (alookup k m) eqn:E2; auto. destruct (N.eqb k k') eqn:E3; auto.
    apply N.eqb_eq in E3. subst. congruence.
  - rewrite alookup_ainsert. destruct (N.eqb k k') eqn:E3.
    + apply N.eqb_eq in E3. subst. now rewrite E.
    + destruct (alookup k m); auto.
Qed.

Lemma nodup_aor_insert : forall V k (v : V) m, NoDup (map fst m) -> NoDup (map fst (aor_insert k v m)).
Proof.
  intros. unfold aor_insert. destruct (amem k m); auto. now apply nodup_ainsert.
Qed.

Lemma alookup_merge : forall pb child k,
  alookup k (merge_blocks child pb) =
  match alookup k child with Some x => Some x | None => alookup k pb end.
Proof.
  unfold merge_blocks. induction pb as [|[b l] pb IH]; intros child k; cbn.
  - destruct (alookup k child); auto.
  - rewrite IH, alookup_aor_insert.
    destruct (alookup k child); auto. destruct (N.eqb k b); auto.
Qed.

Lemma nodup_merge : forall pb child, NoDup (map fst child) -> NoDup (map fst (merge_blocks child pb)).
Proof.
  unfold merge_blocks. induction pb as [|[b l] pb IH]; intros child H; cbn; auto.
  apply IH. now apply nodup_aor_insert.
Qed.

Lemma alookup_iff : forall V (m : list (name * V)) k v,
  NoDup (map fst m) -> (alookup k m = Some v <-> In (k, v) m).
Proof.
  induction m as [|[k0 v0] m IH]; cbn; intros k v Hnd.
  - split; [discriminate|contradiction].
  - inversion Hnd as [|? ? Hk0 Hnd']; subst. destruct (N.eqb_spec k k0) as [->|E].
    + split; [intros [= ->]; now left|]. intros [[= ->]|Hin]; [reflexivity|].
      destruct Hk0. apply (in_map fst) in Hin. exact Hin.
    + rewrite (IH k v Hnd'). split; [now right|]. intros [[= <- _]|Hin]; [now destruct E|exact Hin].
Qed.

Lemma alookup_perm : forall V (m m' : list (name * V)) k,
  NoDup (map fst m) -> Permutation m' m -> alookup k m' = alookup k m.
Proof.
  intros V m m' k Hnd Hp.
  assert (Hnd' : NoDup (map fst m')).
  { eapply Permutation_NoDup; [|exact Hnd]. apply Permutation_map. now apply Permutation_sym. }
  destruct (alookup k m) eqn:E.
  - apply alookup_iff in E; auto. apply alookup_iff; auto.
    eapply Permutation_in; [|exact E]. now apply Permutation_sym.
  - destruct (alookup k m') eqn:E'; auto.
    apply alookup_iff in E'; auto. apply (Permutation_in _ Hp), alookup_iff in E'; auto. congruence.
Qed.

Lemma alookup_app : forall V (a b : list (name * V)) k,
  alookup k (a ++ b) = match alookup k a with Some x => Some x | None => alookup k b end.
Proof.
  induction a as [|[k0 v0] a IH]; cbn; intros; auto. destruct (N.eqb k k0); auto.
Qed.

Lemma alookup_map : forall V W (g : V -> W) (m : list (name * V)) k,
  alookup k (map (fun '(b, x) => (b, g x)) m) = option_map g (alookup k m).
Proof.
  induction m as [|[k0 v0] m IH]; cbn; intros; auto. destruct (N.eqb k k0); auto.
Qed.

Lemma existsb_eqb_in : forall x l, existsb (N.eqb x) l = true <-> In x l.
Proof.
  intros x l. rewrite existsb_exists. split.
  - intros (y & Hy & E). apply N.eqb_eq in E. now subst y.
  - intros H. exists x. split; [exact H|apply N.eqb_refl].
Qed.

Lemma nodupb_NoDup : forall l, nodupb l = true <-> NoDup l.
Proof.
  induction l as [|a l IH]; cbn.
  - split; [constructor|reflexivity].
  - rewrite andb_true_iff, negb_true_iff, NoDup_cons_iff, IH, <- existsb_eqb_in, not_true_iff_false.
    reflexivity.
Qed.

Definition names (reg : list ctemplate) : list name := map c_name reg.

Lemma get_tpl_some : forall reg n t, get_tpl reg n = Some t -> In t reg /\ c_name t = n.
Proof.
  induction reg as [|c reg IH]; cbn; intros n t H; [discriminate|].
  destruct (N.eqb n (c_name c)) eqn:E.
  - apply N.eqb_eq in E. inversion H; subst. auto.
  - apply IH in H. tauto.
Qed.

Lemma get_tpl_in : forall reg t, NoDup (names reg) -> In t reg -> get_tpl reg (c_name t) = Some t.
Proof.
  induction reg as [|c reg IH]; cbn; intros t Hnd Hin; [contradiction|].
  inversion Hnd; subst. destruct Hin as [->|Hin].
  - now rewrite N.eqb_refl.
  - destruct (N.eqb (c_name t) (c_name c)) eqn:E.
    + apply N.eqb_eq in E. exfalso. apply H1. rewrite <- E. now apply in_map.
    + auto.
Qed.

(* nearest first *)
Inductive anc_names (reg : list ctemplate) : name -> list name -> Prop :=
| AN_root : forall t n, get_tpl reg n = Some t -> c_extends t = None -> anc_names reg n []
| AN_step : forall t n p l, get_tpl reg n = Some t -> c_extends t = Some p ->
                            anc_names reg p l -> anc_names reg n (p :: l).

Lemma an_det : forall reg n l, anc_names reg n l -> forall l', anc_names reg n l' -> l = l'.
Proof.
  induction 1; intros l' H'; inversion H'; subst; try congruence.
  assert (t0 = t) by congruence. subst. assert (p0 = p) by congruence. subst.
  f_equal. auto.
Qed.

Lemma an_self : forall reg n l, anc_names reg n l -> exists t, get_tpl reg n = Some t.
Proof. intros. inversion H; eauto. Qed.

Lemma an_suffix : forall reg n l, anc_names reg n l ->
  forall p, In p l -> exists l', anc_names reg p l' /\ length l' < length l.
Proof.
  induction 1; intros q Hq; [contradiction|].
  destruct Hq as [->|Hq].
  - exists l. split; auto.
  - destruct (IHanc_names q Hq) as (l' & Ha & Hlen). exists l'. split; auto. cbn. lia.
Qed.

Lemma an_no_self : forall reg n l, anc_names reg n l -> ~ In n l.
Proof.
  intros reg n l Ha Hin. destruct (an_suffix _ _ _ Ha n Hin) as (l' & Ha' & Hlen).
  assert (l = l') by (eapply an_det; eauto). subst. lia.
Qed.

(* Ok: the chain of t, behind what was collected on the way.  Err: t has no chain, or one that the
   fuel or the circularity test (membership in start :: acc) does not let through. *)
Lemma find_parents_outcome : forall f reg start t acc,
  get_tpl reg (c_name t) = Some t ->
  match find_parents f reg start t acc with
  | Ok ps => exists l, anc_names reg (c_name t) l /\ ps = rev (acc ++ l)
  | Err _ => forall l, anc_names reg (c_name t) l -> NoDup (start :: acc ++ l) -> f <= length l
  end.
Proof.
  induction f as [|f IH]; cbn [find_parents]; intros reg start t acc Hg; [intros; lia|].
  destruct (c_extends t) as [p|] eqn:Ee.
  2:{ exists []. split; [eapply AN_root; eauto|now rewrite app_nil_r]. }
  assert (Hinv : forall l, anc_names reg (c_name t) l -> exists l', l = p :: l' /\ anc_names reg p l').
  { intros l Ha. inversion Ha as [t0 ? Hg0 He0|t0 ? p0 l0 Hg0 He0 Ha0]; subst; assert (t0 = t) by congruence; subst t0;
      [congruence|]. assert (p0 = p) by congruence. subst p0. now exists l0. }
  destruct (get_tpl reg p) as [parent|] eqn:Ep.
  2:{ intros l Ha _. destruct (Hinv l Ha) as (l' & _ & Hp). destruct (an_self _ _ _ Hp). congruence. }
  destruct (get_tpl_some _ _ _ Ep) as [_ <-].
  destruct (N.eqb (c_name parent) start || existsb (N.eqb (c_name parent)) acc) eqn:Ec.
  - intros l Ha Hnd. destruct (Hinv l Ha) as (l' & -> & _).
    apply (existsb_eqb_in _ (start :: acc)) in Ec.
    destruct (NoDup_remove_2 (start :: acc) l' _ Hnd). apply in_or_app. now left.
  - specialize (IH reg start parent (acc ++ [c_name parent]) Ep).
    destruct (find_parents f reg start parent (acc ++ [c_name parent])) as [ps|e].
    + destruct IH as (l & Ha & ->). exists (c_name parent :: l).
      split; [eapply AN_step; eauto|now rewrite <- app_assoc].
    + intros l Ha Hnd. destruct (Hinv l Ha) as (l' & -> & Hp).
      apply IH in Hp; [cbn; lia|]. rewrite <- app_assoc. exact Hnd.
Qed.

(* nearest first *)
Definition ancl (P : list (name * list name)) (n : name) : list name :=
  match alookup n P with Some ps => rev ps | None => [] end.

(* tpl_parents after loop 1 has gone through [todo] *)
Definition parents_for (reg todo : list ctemplate) (P : list (name * list name)) : Prop :=
  NoDup (map fst P) /\
  (forall t, In t todo -> exists ps, alookup (c_name t) P = Some ps /\
                                     anc_names reg (c_name t) (rev ps)) /\
  (forall n, In n (map fst P) -> In n (names todo)).

Definition parents_ok (reg : list ctemplate) : list (name * list name) -> Prop := parents_for reg reg.

Lemma parents_ok_lookup : forall reg P t, parents_ok reg P -> In t reg ->
  exists ps, alookup (c_name t) P = Some ps /\ anc_names reg (c_name t) (rev ps).
Proof. intros reg P t (_ & H & _). exact (H t). Qed.

Lemma ancl_some : forall P n ps, alookup n P = Some ps -> ancl P n = rev ps.
Proof. intros P n ps H. unfold ancl. now rewrite H. Qed.

Lemma parents_ok_anc : forall reg P t, parents_ok reg P -> In t reg ->
  anc_names reg (c_name t) (ancl P (c_name t)).
Proof.
  intros reg P t HP Hin. destruct (parents_ok_lookup reg P t HP Hin) as (ps & E & Ha).
  now rewrite (ancl_some P _ ps E).
Qed.

Lemma an_nodup : forall reg n l, anc_names reg n l -> NoDup l.
Proof.
  induction 1; constructor; auto. eapply an_no_self; eauto.
Qed.

Lemma an_in_names : forall reg n l, anc_names reg n l -> incl l (names reg).
Proof.
  induction 1; intros x Hx; [contradiction|].
  destruct Hx as [->|Hx]; auto.
  destruct (an_self _ _ _ H1) as [pt Hpt]. destruct (get_tpl_some _ _ _ Hpt) as [Hin <-].
  now apply in_map.
Qed.

Lemma loop1_spec : forall reg todo,
  NoDup (names reg) -> incl todo reg ->
  match loop1 reg todo with
  | Ok P => parents_for reg todo P
  | Err _ => exists t, In t todo /\ forall l, ~ anc_names reg (c_name t) l
  end.
Proof.
  intros reg todo Hnd. induction todo as [|t todo IH]; cbn [loop1]; intros Hincl.
  - split; [constructor|]. split; [intros t []|tauto].
  - assert (Hg : get_tpl reg (c_name t) = Some t) by (apply get_tpl_in; auto; apply Hincl; now left).
    assert (Sp := find_parents_outcome (S (length reg)) reg (c_name t) t [] Hg).
    destruct (find_parents (S (length reg)) reg (c_name t) t []) as [ps|e]; cbn [rbind].
    2:{ exists t. split; [now left|]. intros l Ha.
        assert (length l <= length (names reg)).
        { apply NoDup_incl_length; [eapply an_nodup; eauto|eapply an_in_names; eauto]. }
        unfold names in H. rewrite map_length in H.
        assert (S (length reg) <= length l); [|lia].
        apply (Sp l Ha). constructor; [eapply an_no_self|eapply an_nodup]; eauto. }
    specialize (IH (fun x Hx => Hincl x (or_intror Hx))).
    destruct (loop1 reg todo) as [m|e]; cbn [rbind].
    2:{ destruct IH as (t' & Hin & H). exists t'. split; [now right|exact H]. }
    destruct IH as (Hk & Hall & Hkeys).
    split; [now apply nodup_ainsert|]. split.
    + intros t' Hin'. rewrite alookup_ainsert. destruct (N.eqb_spec (c_name t') (c_name t)) as [->|E].
      * destruct Sp as (l & Ha & ->). eexists. split; [reflexivity|]. now rewrite rev_involutive.
      * destruct Hin' as [<-|Hin']; [now destruct E|apply (Hall t' Hin')].
    + intros n. rewrite keys_ainsert_in. cbn. intros [->|Hx]; auto.
Qed.

Lemma loop1_parents_ok : forall reg P,
  NoDup (names reg) -> loop1 reg reg = Ok P -> parents_ok reg P.
Proof. intros reg P Hnd H. generalize (loop1_spec reg reg Hnd (incl_refl _)). now rewrite H. Qed.

Fixpoint clin (reg : list ctemplate) (l : list name) (b : name) : list code :=
  match l with
  | [] => []
  | p :: l' =>
      match get_tpl reg p with
      | None => []
      | Some pt =>
          match alookup b (c_blocks pt) with
          | Some c => c :: (if calls_super c then clin reg l' b else [])
          | None => clin reg l' b
          end
      end
  end.

(* the entry for b in the map that loop2 builds for a template with blocks bl and ancestors l
   (nearest first) *)
Definition own_entry (reg : list ctemplate) (bl : list (name * code)) (l : list name) (b : name)
  : option (list code) :=
  match alookup b bl with
  | Some c => Some (c :: (if calls_super c then clin reg l b else []))
  | None => None
  end.

Lemma clin_cons : forall reg n t l b, get_tpl reg n = Some t ->
  nonempty (clin reg (n :: l) b) =
  match own_entry reg (c_blocks t) l b with Some x => Some x | None => nonempty (clin reg l b) end.
Proof.
  intros. cbn. rewrite H. unfold own_entry. destruct (alookup b (c_blocks t)); auto.
Qed.

Lemma walk_parents_clin : forall reg n l b, anc_names reg n l ->
  walk_parents reg l b = Ok (clin reg l b).
Proof.
  induction 1 as [|t n p l _ _ Ha IH]; cbn; auto.
  destruct (an_self _ _ _ Ha) as [pt Hp]. rewrite Hp. destruct (alookup b (c_blocks pt)) as [c|]; auto.
  destruct (calls_super c); auto. now rewrite IH.
Qed.

Lemma own_lineage_ok : forall reg n parents bl, anc_names reg n (rev parents) ->
  exists m, own_lineage reg parents bl = Ok m /\ NoDup (map fst m) /\
            forall b, alookup b m = own_entry reg bl (rev parents) b.
Proof.
  intros reg n parents bl HF. unfold own_entry. induction bl as [|[b0 c0] bl IH]; cbn.
  - exists []. split; auto. split; [constructor|]. auto.
  - destruct IH as (m & Hm & Hnd & Hl). rewrite Hm.
    assert (Hr : (if calls_super c0 then walk_parents reg (rev parents) b0 else Ok []) =
                 Ok (if calls_super c0 then clin reg (rev parents) b0 else [])).
    { destruct (calls_super c0); auto. now apply (walk_parents_clin reg n). }
    rewrite Hr. cbn. eexists. split; [reflexivity|]. split; [now apply nodup_ainsert|].
    intros b. rewrite alookup_ainsert. destruct (N.eqb b b0) eqn:E.
    + apply N.eqb_eq in E. subst. reflexivity.
    + apply Hl.
Qed.

Definition orders_ok (ord : orders) : Prop :=
  (forall l, Permutation (o_loop2 ord l) l) /\
  (forall n l, Permutation (o_blocks ord n l) l) /\
  (forall l, Permutation (o_inherit ord l) l) /\
  (forall n p l, Permutation (o_pblocks ord n p l) l).

Lemma id_orders_ok : orders_ok id_orders.
Proof. repeat split; intros; apply Permutation_refl. Qed.

Definition reg_wf (reg : list ctemplate) : Prop :=
  NoDup (names reg) /\ forall t, In t reg -> NoDup (map fst (c_blocks t)).

Definition orphans_of (reg : list ctemplate) (P : list (name * list name)) (t : ctemplate) : list name :=
  match alookup (c_name t) P with Some ps => orphan_blocks reg ps t | None => [] end.

Definition maps_nodup (tb : list (name * list (name * list code))) : Prop :=
  forall n m, alookup n tb = Some m -> NoDup (map fst m).

Lemma maps_nodup_ainsert : forall n m tb,
  maps_nodup tb -> NoDup (map fst m) -> maps_nodup (ainsert n m tb).
Proof.
  intros n m tb Hmn Hm x mx Hx. rewrite alookup_ainsert in Hx.
  destruct (N.eqb x n); [now inversion Hx; subst|eapply Hmn; eauto].
Qed.

(* what the inherit pass and the render read for block b *)
Fixpoint first_some (ps : list name) (b : name) (tb : list (name * list (name * list code)))
  : option (list code) :=
  match ps with
  | [] => None
  | p :: ps' =>
      match alookup p tb with
      | Some pb => match alookup b pb with Some x => Some x | None => first_some ps' b tb end
      | None => first_some ps' b tb
      end
  end.

Lemma first_some_ext : forall ps b tb tb',
  (forall p, In p ps -> alookup p tb' = alookup p tb) -> first_some ps b tb' = first_some ps b tb.
Proof.
  induction ps as [|p ps IH]; cbn; intros b tb tb' H; auto.
  rewrite H by auto. rewrite (IH b tb tb') by auto. reflexivity.
Qed.

Section Passes.
  Variable ord : orders.
  Variable reg : list ctemplate.
  Variable P : list (name * list name).
  Hypothesis Hord : orders_ok ord.
  Hypothesis Hwf : reg_wf reg.
  Hypothesis HP : parents_ok reg P.

  Lemma loop2_ok : forall todo, incl todo reg -> NoDup (names todo) ->
    exists tb,
      loop2 ord reg P todo = Ok (flat_map (orphans_of reg P) todo, tb) /\
      maps_nodup tb /\
      forall t, In t todo -> exists m, alookup (c_name t) tb = Some m /\
                                       forall b, alookup b m = own_entry reg (c_blocks t) (ancl P (c_name t)) b.
  Proof.
    destruct Hord as (_ & Hob & _). destruct Hwf as [_ Hbl].
    induction todo as [|t todo IH]; intros Hincl Hndt.
    - exists []. split; [reflexivity|]. split; [discriminate|intros t []].
    - cbn [loop2].
      assert (Hin : In t reg) by (apply Hincl; now left).
      destruct (parents_ok_lookup reg P t HP Hin) as (ps & EP & Hanc).
      cbn [flat_map]. unfold orphans_of at 1. rewrite EP.
      destruct (own_lineage_ok reg _ ps (o_blocks ord (c_name t) (c_blocks t)) Hanc)
        as (m & Hm & Hmnd & Hml).
      rewrite Hm. cbn [rbind].
      inversion Hndt as [|? ? Hfresh Hndt']; subst.
      destruct (IH (fun x Hx => Hincl x (or_intror Hx)) Hndt') as (tb & Hr & Hmn & Htall).
      rewrite Hr. cbn [rbind fst snd].
      eexists. split; [reflexivity|]. split; [now apply maps_nodup_ainsert|].
      intros t' [->|Hin']; rewrite alookup_ainsert.
      + exists m. rewrite N.eqb_refl. split; [reflexivity|].
        intros b. rewrite Hml. unfold own_entry. rewrite (ancl_some P _ ps EP).
        rewrite (alookup_perm _ (c_blocks t')); auto.
      + destruct (N.eqb_spec (c_name t') (c_name t)) as [E|_]; [|auto].
        destruct Hfresh. rewrite <- E. now apply in_map.
  Qed.

  Lemma inherit_one_ok : forall n ps tb cb,
    ~ In n ps -> alookup n tb = Some cb -> maps_nodup tb ->
    exists tb' cb',
      inherit_one ord n ps tb = Ok tb' /\ maps_nodup tb' /\
      (forall x, alookup x tb' = if N.eqb x n then Some cb' else alookup x tb) /\
      forall b, alookup b cb' = match alookup b cb with Some x => Some x | None => first_some ps b tb end.
  Proof.
    intros n ps. induction ps as [|p ps IH]; intros tb cb Hni Hn Hmn; cbn [inherit_one first_some].
    - exists tb, cb. split; [reflexivity|]. split; [exact Hmn|]. split.
      + intros x. destruct (N.eqb_spec x n) as [->|_]; auto.
      + intros b. now destruct (alookup b cb).
    - apply not_in_cons in Hni. destruct Hni as [_ Hni].
      destruct (alookup p tb) as [pb|] eqn:Ep; [|now apply IH].
      rewrite Hn.
      set (cb1 := merge_blocks cb (o_pblocks ord n p pb)).
      assert (Hpb : NoDup (map fst pb)) by (eapply Hmn; eauto).
      destruct (IH (ainsert n cb1 tb) cb1 Hni) as (tb' & cb' & Hr & Hmn' & Hlk & Hl').
      { now rewrite alookup_ainsert, N.eqb_refl. }
      { apply maps_nodup_ainsert; [exact Hmn|]. apply nodup_merge. eapply Hmn; eauto. }
      exists tb', cb'. split; [exact Hr|]. split; [exact Hmn'|]. split.
      + intros x. rewrite Hlk, alookup_ainsert. now destruct (N.eqb x n).
      + intros b. rewrite Hl', (first_some_ext ps b tb (ainsert n cb1 tb)).
        2:{ intros q Hq. rewrite alookup_ainsert. destruct (N.eqb_spec q n) as [->|_]; [contradiction|reflexivity]. }
        unfold cb1. rewrite alookup_merge. destruct (alookup b cb); auto.
        destruct Hord as (_ & _ & _ & Hop). now rewrite (alookup_perm _ pb).
  Qed.

  (* tpl_blocks after the inherit pass, whatever the orders were *)
  Definition tb_full (tb : list (name * list (name * list code))) : Prop :=
    maps_nodup tb /\
    forall t, In t reg ->
      exists m, alookup (c_name t) tb = Some m /\
        forall b, alookup b m = nonempty (clin reg (c_name t :: ancl P (c_name t)) b).

  (* State of tpl_blocks while the inherit pass has [rest] still to go: every template carries its
     full lineage map, or still its own map if it is one of [rest].  A parent's map is only read
     through first_some, which gives the same for both (first_some_clin), so the order in which
     the templates are completed does not matter. *)
  Definition tb_inv (rest : list name) (tb : list (name * list (name * list code))) : Prop :=
    maps_nodup tb /\
    forall t, In t reg ->
      exists m, alookup (c_name t) tb = Some m /\
        forall b, alookup b m = nonempty (clin reg (c_name t :: ancl P (c_name t)) b) \/
                  In (c_name t) rest /\ alookup b m = own_entry reg (c_blocks t) (ancl P (c_name t)) b.

  Lemma first_some_clin : forall rest tb, tb_inv rest tb ->
    forall l n, anc_names reg n l -> forall b, first_some l b tb = nonempty (clin reg l b).
  Proof.
    intros rest tb (_ & Hall) l. induction l as [|p l IH]; intros n Ha b; cbn [first_some]; auto.
    assert (Hap : anc_names reg p l) by (inversion Ha; assumption).
    destruct (an_self _ _ _ Hap) as [pt Hpt].
    destruct (get_tpl_some _ _ _ Hpt) as [Hin <-].
    destruct (Hall pt Hin) as (m & -> & Hl). specialize (Hl b).
    rewrite (an_det _ _ _ (parents_ok_anc reg P pt HP Hin) _ Hap), (clin_cons reg _ pt l b Hpt) in Hl.
    rewrite (clin_cons reg _ pt l b Hpt), (IH _ Hap b).
    destruct Hl as [->|[_ ->]]; [|reflexivity].
    destruct (own_entry reg (c_blocks pt) l b); auto. destruct (nonempty (clin reg l b)); auto.
  Qed.

  Lemma inherit_one_inv : forall rest tb n ps, alookup n P = Some ps -> tb_inv (n :: rest) tb ->
    exists tb', inherit_one ord n (rev ps) tb = Ok tb' /\ tb_inv rest tb'.
  Proof.
    intros rest tb n ps HnP Hinv.
    destruct Hwf as [Hnd _]. pose proof HP as (_ & _ & Hkeys). pose proof Hinv as (Hmn & Hall).
    assert (Hnreg : In n (names reg)) by (apply Hkeys, in_keys_iff; congruence).
    apply in_map_iff in Hnreg. destruct Hnreg as (t & <- & Htin).
    assert (Hanc := parents_ok_anc reg P t HP Htin).
    assert (Hl := ancl_some P _ ps HnP). rewrite Hl in Hanc.
    assert (Hg := get_tpl_in reg t Hnd Htin).
    destruct (Hall t Htin) as (cb & Hcb & Hcbl).
    destruct (inherit_one_ok (c_name t) (rev ps) tb cb (an_no_self _ _ _ Hanc) Hcb Hmn)
      as (tb1 & cb1 & Hr & Hmn1 & Hlk & Hl1).
    exists tb1. split; [exact Hr|]. split; [exact Hmn1|].
    intros t' Hin'. rewrite Hlk. destruct (N.eqb_spec (c_name t') (c_name t)) as [E|E].
    - assert (t' = t) by (rewrite <- E, (get_tpl_in reg t' Hnd Hin') in Hg; congruence).
      subst t'. exists cb1. split; [reflexivity|]. intros b. left.
      rewrite Hl1, Hl, (clin_cons reg (c_name t) t _ b Hg), (first_some_clin _ tb Hinv _ _ Hanc b).
      destruct (Hcbl b) as [->|[_ ->]]; rewrite Hl; [|reflexivity].
      rewrite (clin_cons reg (c_name t) t _ b Hg).
      destruct (own_entry reg (c_blocks t) (rev ps) b); auto. destruct (nonempty (clin reg (rev ps) b)); auto.
    - destruct (Hall t' Hin') as (m' & Hm' & Hl'). exists m'. split; [exact Hm'|].
      intros b. destruct (Hl' b) as [H|[[Heq|Hd] H]]; [now left|congruence|now right].
  Qed.

  Lemma inherit_pass_ok : forall todo tb, incl todo P -> tb_inv (map fst todo) tb ->
    exists tb', inherit_pass ord todo tb = Ok tb' /\ tb_full tb'.
  Proof.
    induction todo as [|[n ps] todo IH]; intros tb Htodo Hinv.
    - exists tb. split; [reflexivity|]. destruct Hinv as (Hmn & Hall). split; [exact Hmn|].
      intros t Hin. destruct (Hall t Hin) as (m & Hm & Hl). exists m. split; [exact Hm|].
      intros b. now destruct (Hl b) as [H|[[] _]].
    - assert (HnP : alookup n P = Some ps) by (apply alookup_iff; [apply HP|apply Htodo; now left]).
      destruct (inherit_one_inv (map fst todo) tb n ps HnP Hinv) as (tb1 & Hr & Hinv1).
      cbn [inherit_pass]. rewrite Hr. cbn [rbind].
      apply IH; [|exact Hinv1]. intros x Hx. apply Htodo. now right.
  Qed.
End Passes.

Lemma flat_map_nil : forall A B (g : A -> list B) l,
  flat_map g l = [] <-> forall x, In x l -> g x = [].
Proof.
  induction l as [|a l IH]; cbn.
  - tauto.
  - split.
    + intros H x [<-|Hx]; apply app_eq_nil in H; [tauto|]. apply IH; tauto.
    + intros H. rewrite (H a), (proj2 IH); auto.
Qed.

Lemma orphans_perm : forall reg P l l',
  Permutation l l' -> flat_map (orphans_of reg P) l = [] -> flat_map (orphans_of reg P) l' = [].
Proof.
  intros reg P l l' Hp H. apply Permutation_nil. rewrite <- H. now apply Permutation_flat_map.
Qed.

Lemma finalize_after_loop1 : forall ord reg P,
  orders_ok ord -> reg_wf reg -> loop1 reg reg = Ok P ->
  match flat_map (orphans_of reg P) reg with
  | _ :: _ => finalize ord reg = Err EOrphanBlock
  | [] =>
      exists tb, tb_full reg P tb /\
        finalize ord reg =
        (cyc <- cycle_pass reg tb ;;
         match cyc with
         | [] => Ok {| f_tpls := reg; f_parents := P; f_lineage := tb |}
         | _ :: _ => Err EBlockCycle
         end)
  end.
Proof.
  intros ord reg P Hord Hwf E1. unfold finalize. rewrite E1. cbn [rbind].
  pose proof Hwf as [Hnd _]. pose proof Hord as (Ho2 & _ & Hoi & _).
  assert (HP := loop1_parents_ok reg P Hnd E1).
  destruct (loop2_ok ord reg P Hord Hwf HP (o_loop2 ord reg)) as (tb & Hr & Hmn & Htall).
  { intros x. apply Permutation_in, Ho2. }
  { eapply Permutation_NoDup; [|exact Hnd]. apply Permutation_map, Permutation_sym, Ho2. }
  rewrite Hr. cbn [rbind fst snd].
  destruct (inherit_pass_ok ord reg P Hord Hwf HP (o_inherit ord P) tb) as (tb' & Hr' & Hfull).
  { intros x. apply Permutation_in, Hoi. }
  { split; [exact Hmn|]. intros t Hin.
    destruct (Htall t (Permutation_in _ (Permutation_sym (Ho2 reg)) Hin)) as (m & Hm & Hl).
    exists m. split; [exact Hm|]. intros b. right. split; [|apply Hl].
    eapply Permutation_in; [apply Permutation_map, Permutation_sym, Hoi|].
    destruct (parents_ok_lookup reg P t HP Hin) as (ps & E' & _). apply in_keys_iff. congruence. }
  rewrite Hr'. cbn [rbind].
  destruct (flat_map (orphans_of reg P) reg) eqn:E.
  - rewrite (orphans_perm reg P reg (o_loop2 ord reg)) by (auto using Permutation_sym).
    exists tb'. split; [exact Hfull|reflexivity].
  - destruct (flat_map (orphans_of reg P) (o_loop2 ord reg)) eqn:E'; auto.
    apply (orphans_perm reg P _ reg (Ho2 reg)) in E'. congruence.
Qed.

Definition finalized (reg : list ctemplate) (fr : freg) : Prop :=
  f_tpls fr = reg /\ parents_ok reg (f_parents fr) /\
  flat_map (orphans_of reg (f_parents fr)) reg = [] /\
  cycle_pass (f_tpls fr) (f_lineage fr) = Ok [] /\
  forall t, In t reg -> forall b,
    lineage_of fr (c_name t) b = nonempty (clin reg (c_name t :: ancl (f_parents fr) (c_name t)) b).

Theorem finalize_ok : forall ord reg fr,
  orders_ok ord -> reg_wf reg -> finalize ord reg = Ok fr -> finalized reg fr.
Proof.
  intros ord reg fr Hord Hwf H.
  destruct (loop1 reg reg) as [P|e] eqn:E1; [|unfold finalize in H; rewrite E1 in H; discriminate].
  assert (A := finalize_after_loop1 ord reg P Hord Hwf E1).
  destruct (flat_map (orphans_of reg P) reg) eqn:Eo; [|congruence].
  destruct A as (tb & [_ Hfull] & Hfin). rewrite Hfin in H.
  destruct (cycle_pass reg tb) as [[|]|] eqn:Ec; try discriminate.
  inversion H; subst fr. unfold finalized, lineage_of. cbn [f_tpls f_parents f_lineage].
  split; auto. split; [apply loop1_parents_ok; [apply Hwf|exact E1]|]. split; auto. split; auto.
  intros t Hin b. destruct (Hfull t Hin) as (m & -> & Hl). apply Hl.
Qed.

Lemma insert_name_comm : forall x y s, insert_name x (insert_name y s) = insert_name y (insert_name x s).
Proof.
  intros x y s. induction s as [|a s IH]; cbn.
  - destruct (N.leb_spec x y), (N.leb_spec y x); try reflexivity; [|lia].
    assert (x = y) by lia. now subst.
  - destruct (N.leb y a) eqn:Eya, (N.leb x a) eqn:Exa; cbn; rewrite ?Eya, ?Exa.
    + (* both go before a: the smaller first *)
      destruct (N.leb_spec x y), (N.leb_spec y x); try reflexivity; [|lia].
      assert (x = y) by lia. now subst.
    + (* y <= a < x *)
      apply N.leb_le in Eya. apply N.leb_gt in Exa.
      destruct (N.leb_spec x y); [lia|reflexivity].
    + (* x <= a < y *)
      apply N.leb_le in Exa. apply N.leb_gt in Eya.
      destruct (N.leb_spec y x); [lia|reflexivity].
    + now rewrite IH.
Qed.

Lemma sort_names_perm : forall l l', Permutation l l' -> sort_names l = sort_names l'.
Proof.
  induction 1; cbn; auto.
  - now rewrite IHPermutation.
  - apply insert_name_comm.
  - congruence.
Qed.

(* the loop over the successors inside bc_walk, with the recursive call as a parameter *)
Definition bc_loop (walk : bnode -> list bnode -> rres (option name * list bnode)) (stack : list bnode) :=
  fix loop (next visited : list bnode) {struct next} : rres (option name * list bnode) :=
    match next with
    | [] => Ok (None, visited)
    | node :: rest =>
        if existsb (bnode_eqb node) stack then Ok (Some (fst node), visited)
        else if existsb (bnode_eqb node) visited then loop rest visited
        else
          match walk node visited with
          | Err e => Err e
          | Ok (Some found, v) => Ok (Some found, v)
          | Ok (None, v) => loop rest (node :: v)
          end
    end.

Lemma bc_walk_S : forall f lin current stack visited,
  bc_walk (S f) lin current stack visited =
  match next_nodes lin current with
  | Err e => Err e
  | Ok next => bc_loop (fun n v => bc_walk f lin n (n :: stack) v) stack next visited
  end.
Proof. reflexivity. Qed.

(* Every loop of the walk is asked the same two things: that it gives the same on maps with equal
   lookups, and that it fails only for lack of fuel or on a missing table entry. *)
Definition same {A} (r r' : rres A) : Prop :=
  r = r' /\ match r with Err e => e = EPanic \/ e = EOutOfFuel | Ok _ => True end.

Lemma bc_loop_same : forall w w' stack, (forall n v, same (w n v) (w' n v)) ->
  forall next v, same (bc_loop w stack next v) (bc_loop w' stack next v).
Proof.
  intros w w' stack Hw. induction next as [|n next IH]; intros v; cbn; [now split|].
  destruct (existsb (bnode_eqb n) stack); [now split|].
  destruct (existsb (bnode_eqb n) v); [apply IH|].
  destruct (Hw n v) as [<- B]. destruct (w n v) as [[[found|] v']|e]; [now split|apply IH|now split].
Qed.

Section SameLookups.
  Variables m m' : list (name * list code).
  Hypothesis He : forall b, alookup b m = alookup b m'.

  Lemma next_nodes_ext : forall c, next_nodes m c = next_nodes m' c.
  Proof.
    intros c. unfold next_nodes. rewrite (He (fst c)).
    destruct (alookup (fst c) m'); auto. destruct (nth_error l (snd c)); auto.
    f_equal. f_equal. f_equal. apply filter_ext. intros b. now rewrite (He b).
  Qed.

  Lemma bc_walk_same : forall f c st v, same (bc_walk f m c st v) (bc_walk f m' c st v).
  Proof.
    induction f as [|f IH]; intros c st v; [split; [reflexivity|now right]|].
    rewrite !bc_walk_S, next_nodes_ext. unfold next_nodes.
    destruct (alookup (fst c) m'); [|split; [reflexivity|now left]].
    destruct (nth_error l (snd c)); [|split; [reflexivity|now left]].
    apply bc_loop_same. intros n v'. apply IH.
  Qed.

  Lemma first_cycle_same : forall f starts, same (first_cycle f m starts) (first_cycle f m' starts).
  Proof.
    intros f. induction starts as [|s starts IH]; cbn [first_cycle]; [now split|].
    destruct (bc_walk_same f s [s] []) as [<- B].
    destruct (bc_walk f m s [s] []) as [[[found|] v]|e]; [now split|exact IH|now split].
  Qed.

  Lemma fbc_same : NoDup (map fst m) -> NoDup (map fst m') -> same (find_block_cycle m) (find_block_cycle m').
  Proof.
    intros Hn Hn'. unfold find_block_cycle.
    assert (Hl : forall k, lin_len m k = lin_len m' k) by (intros k; unfold lin_len; now rewrite He).
    rewrite (sort_names_perm (map fst m) (map fst m')).
    2:{ apply NoDup_Permutation; auto. intros k. now rewrite !in_keys_iff, (He k). }
    rewrite (map_ext _ _ Hl), (flat_map_ext _ _ (fun k => f_equal (fun n => map (fun lv => (k, lv)) (seq 0 n)) (Hl k))).
    apply first_cycle_same.
  Qed.
End SameLookups.

Lemma cycle_pass_same : forall reg P tb tb', tb_full reg P tb -> tb_full reg P tb' ->
  forall todo, incl todo reg -> same (cycle_pass todo tb) (cycle_pass todo tb').
Proof.
  intros reg P tb tb' [Hn Hf] [Hn' Hf']. induction todo as [|t todo IH]; intros Hincl; [now split|].
  cbn [cycle_pass].
  destruct (Hf t (Hincl t (or_introl eq_refl))) as (m & Hm & Hl).
  destruct (Hf' t (Hincl t (or_introl eq_refl))) as (m' & Hm' & Hl').
  rewrite Hm, Hm'.
  destruct (fbc_same m m') as [<- B]; [intros b; now rewrite Hl, Hl'|eapply Hn; eauto|eapply Hn'; eauto|].
  destruct (find_block_cycle m) as [c|e]; cbn [rbind]; [|now split].
  destruct IH as [<- B']; [intros x Hx; apply Hincl; now right|].
  destruct (cycle_pass todo tb); now split.
Qed.

(* a cycle that the pass finds is an Ok answer, which finalize turns into EBlockCycle *)
Lemma cycle_pass_errors : forall reg P tb e, tb_full reg P tb ->
  cycle_pass reg tb = Err e -> e = EPanic \/ e = EOutOfFuel.
Proof.
  (* the second half of `same`, of the pass with itself *)
  intros reg P tb e Hf H. destruct (cycle_pass_same reg P tb tb Hf Hf reg (incl_refl _)) as [_ B].
  now rewrite H in B.
Qed.

Lemma finalize_class_indep : forall ord ord' reg,
  orders_ok ord -> orders_ok ord' -> reg_wf reg ->
  rmap (fun _ => tt) (finalize ord reg) = rmap (fun _ => tt) (finalize ord' reg).
Proof.
  intros ord ord' reg H H' Hwf. destruct (loop1 reg reg) as [P|e] eqn:E1.
  - assert (A := finalize_after_loop1 ord reg P H Hwf E1).
    assert (B := finalize_after_loop1 ord' reg P H' Hwf E1).
    destruct (flat_map (orphans_of reg P) reg).
    + destruct A as (tb & Hf & ->). destruct B as (tb' & Hf' & ->).
      rewrite (proj1 (cycle_pass_same reg P tb tb' Hf Hf' reg (incl_refl _))).
      destruct (cycle_pass reg tb') as [[|c cyc]|e]; reflexivity.
    + now rewrite A, B.
  - unfold finalize. now rewrite E1.
Qed.
