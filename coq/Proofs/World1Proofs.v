(* Several model files carry their own model of the same Rust function (listed below).  The models
   of one function are proved equal here (on well-formed values: integers inside the range of their
   variant, as in Order.wf), and the fields of Model/World1.v are proved to agree with those of the toy
   world Model/World0.v on the World0 subset (put together in C03_world1_extends_world0; Value::format:
   World1Format.v).
     keys            Key::eq / Key::cmp:  VFormat.v, Format.v, Component.v  vs  Order.v
     lookups         Map::get, get_attr, as_key, kwargs.get:  VFormat.v, World0.v, Component.v,
                     Builtins.v  vs  Order.v
     ==, <, in       World0.veq0 / vcmp0 / contains0  vs  Order.veq / vpcmp / contains
     numbers         Number.num_eq / num_partial_cmp (C13)  vs  Order.veq / vpcmp (C15)
     escape_html     Builtins.escape_html  vs  VFormat.escape_html
     filters/tests   World0.filter0 / test0  vs  World1.filter1 / test1 *)
From Coq Require Import List ZArith NArith Bool Lia String.
From TeraV Require Import Model.Value Model.Instr Model.VM Gen.Tables.
From TeraV Require Model.VFormat Model.World0 Model.Format Model.Number Model.Order Model.CollFilters
  Model.Builtins Model.Component Model.World1 Spec.Arith.
From TeraV Require Proofs.OrderProofs Proofs.NumCmpProofs Proofs.ValueFacts Proofs.FormatProofs Proofs.FormatUtf8.
Import ListNotations.
Open Scope Z_scope.

Lemma list_eq2_eqb a : forall b, Order.list_eq2 N.eqb a b = list_eqb N.eqb a b.
Proof. induction a as [|x a IH]; intros [|y b]; cbn; trivial. all: try (rewrite IH; reflexivity). Qed.

Lemma is_prefix_w0 p : forall s, World0.is_prefix p s = Order.is_prefix p s.
Proof. induction p as [|x p IH]; intros [|y s]; cbn; trivial. all: try (rewrite IH; reflexivity). Qed.

Lemma is_substr_w0 p s : World0.is_substr p s = Order.str_contains s p.
Proof.
  induction s as [|c s IH]; cbn.
  - rewrite is_prefix_w0. reflexivity.
  - rewrite is_prefix_w0, IH. reflexivity.
Qed.

(* Key::eq and Key::cmp.  VFormat.v, Format.v and Component.v hold the same two functions, case for
   case (the three lemmas below are by computation): they compare the integers whatever the variants
   are, i.e. they compare Order.key_norm of the keys (fkey_eqb_norm, FormatProofs.fkey_cmp_norm).
   Order.v ports key.rs with its signed/unsigned cases, which comes to the same on keys whose
   integer fits its variant (OrderProofs.key_eq_norm, key_cmp_norm). *)
Lemma vformat_key_eq_fkey_eqb a b : VFormat.key_eq a b = Format.fkey_eqb a b.
Proof. destruct a, b; reflexivity. Qed.

Lemma component_key_eqb_fkey_eqb a b : Component.key_eqb a b = Format.fkey_eqb a b.
Proof. destruct a, b; reflexivity. Qed.

Lemma vformat_key_cmp_fkey_cmp a b : VFormat.key_cmp a b = Format.fkey_cmp a b.
Proof. destruct a, b; reflexivity. Qed.

Lemma fkey_eqb_norm a b : Format.fkey_eqb a b = true <-> Order.key_norm a = Order.key_norm b.
Proof.
  destruct a, b; cbn; try (split; congruence).
  - rewrite Bool.eqb_true_iff. split; congruence.
  - rewrite Z.eqb_eq. split; congruence.
  - rewrite ValueFacts.str_eqb_eq. split; congruence.
Qed.

Lemma key_eq_format a b : Order.key_wf a = true -> Order.key_wf b = true ->
  Format.fkey_eqb a b = Order.key_eq a b.
Proof.
  intros Ha Hb. apply eq_true_iff_eq.
  rewrite fkey_eqb_norm, OrderProofs.key_eq_norm by assumption. reflexivity.
Qed.

Lemma key_eq_vformat a b : Order.key_wf a = true -> Order.key_wf b = true ->
  VFormat.key_eq a b = Order.key_eq a b.
Proof. rewrite vformat_key_eq_fkey_eqb. apply key_eq_format. Qed.

Lemma key_eq_component a b : Order.key_wf a = true -> Order.key_wf b = true ->
  Component.key_eqb a b = Order.key_eq a b.
Proof. rewrite component_key_eqb_fkey_eqb. apply key_eq_format. Qed.

(* outside the well-formed keys they differ: an "unsigned" -1 *)
Example key_eq_vformat_differs_on_ill_formed :
  VFormat.key_eq (KInt I64 (-1)) (KInt U64 (-1)) = true /\ Order.key_eq (KInt I64 (-1)) (KInt U64 (-1)) = false.
Proof. split; reflexivity. Qed.

Lemma key_cmp_format a b : Order.key_wf a = true -> Order.key_wf b = true ->
  Format.fkey_cmp a b = Order.key_cmp a b.
Proof. intros Ha Hb. rewrite FormatProofs.fkey_cmp_norm, OrderProofs.key_cmp_norm by assumption. reflexivity. Qed.

Lemma key_cmp_vformat a b : Order.key_wf a = true -> Order.key_wf b = true ->
  VFormat.key_cmp a b = Order.key_cmp a b.
Proof. rewrite vformat_key_cmp_fkey_cmp. apply key_cmp_format. Qed.

Lemma as_key_vformat v : VFormat.as_key v = Order.as_key v.
Proof. destruct v; reflexivity. Qed.

Definition kwf {V} (m : list (key * V)) : Prop := Forall (fun kv => Order.key_wf (fst kv) = true) m.

Lemma map_get_vformat m k : kwf m -> Order.key_wf k = true ->
  VFormat.map_get m k = Order.map_get m k.
Proof.
  intros Hm Hk. induction Hm as [|[k' v] t Hk' _ IH]; cbn; trivial.
  cbn in Hk'. rewrite (key_eq_vformat k' k Hk' Hk), IH. reflexivity.
Qed.

(* a lookup with a string key needs no well-formedness: only string keys can equal it *)
Lemma key_eq_str_format k s o : Format.fkey_eqb k (KStr s o) = Order.key_eq k (KStr s o).
Proof. destruct k as [b|r z|s' o']; cbn; trivial. destruct r; reflexivity. Qed.

Lemma map_get_str_vformat m s o : VFormat.map_get m (KStr s o) = Order.map_get m (KStr s o).
Proof.
  induction m as [|[k v] t IH]; cbn; trivial.
  rewrite vformat_key_eq_fkey_eqb, key_eq_str_format, IH. reflexivity.
Qed.

(* Value::get_attr: VFormat.v looks the attribute up with Map::get; Order.v ports the linear
   scan below the cutoff and the hash lookup above it *)
Lemma get_attr_vformat v a : VFormat.get_attr v a = Order.get_attr v a.
Proof.
  rewrite OrderProofs.get_attr_spec. destruct v; trivial. cbn. apply map_get_str_vformat.
Qed.

(* kwargs.get(&Key::Str(name)) as Component.v writes it *)
Lemma kw_get_component m n : Component.kw_get m n = Order.map_get m (KStr n false).
Proof.
  unfold Component.kw_get. induction m as [|[k v] t IH]; cbn; trivial.
  rewrite component_key_eqb_fkey_eqb, key_eq_str_format, IH. reflexivity.
Qed.

(* Kwargs::get as Builtins.v reads it (a list of the string-keyed entries) *)
Lemma kw_strs_cons k v t :
  World1.kw_strs ((k, v) :: t) = match k with KStr s _ => [(s, v)] | _ => [] end ++ World1.kw_strs t.
Proof. reflexivity. Qed.

Lemma kw_find_strs k n : Builtins.kw_find n (World1.kw_strs k) = Order.map_get k (KStr n false).
Proof.
  induction k as [|[k' v] t IH]; [reflexivity|].
  rewrite kw_strs_cons. cbn [Order.map_get].
  destruct k' as [b|r z|s o]; cbn [app Builtins.kw_find].
  - rewrite IH. reflexivity.
  - rewrite IH. destruct r; reflexivity.
  - rewrite IH. cbn. rewrite (ValueFacts.str_eqb_sym n s). reflexivity.
Qed.

Lemma kw_get_w0 k n : World0.kw_get k n = Builtins.kw_find n (World1.kw_strs k).
Proof. unfold World0.kw_get. rewrite kw_find_strs. apply map_get_str_vformat. Qed.

(* no float anywhere (World0.v has no float arms) *)
Fixpoint ffree (v : value) : bool :=
  match v with
  | VFloat _ => false
  | VArr l => (fix go (l : list value) := match l with [] => true | x :: t => ffree x && go t end) l
  | VMap m => (fix go (m : list (key * value)) := match m with [] => true | kv :: t => ffree (snd kv) && go t end) m
  | _ => true
  end.

Lemma ffree_arr l : ffree (VArr l) = true <-> Forall (fun x => ffree x = true) l.
Proof. exact (OrderProofs.all_b_Forall ffree l). Qed.

Lemma ffree_map m : ffree (VMap m) = true <-> Forall (fun kv : key * value => ffree (snd kv) = true) m.
Proof. exact (OrderProofs.all_b_Forall (fun kv => ffree (snd kv)) m). Qed.

Lemma kwf_of_wf m : Order.wf (VMap m) -> kwf m.
Proof. intros W. apply OrderProofs.wf_map in W as [K _]. exact K. Qed.

Lemma list_eq2_ext_in {A B} (e e' : A -> B -> bool) l : forall l',
  (forall x y, In x l -> In y l' -> e x y = e' x y) -> Order.list_eq2 e l l' = Order.list_eq2 e' l l'.
Proof.
  induction l as [|x t IH]; intros [|y t'] H; cbn; trivial.
  rewrite H, IH by auto with datatypes. reflexivity.
Qed.

Lemma all_b_ext_in {A} (p q : A -> bool) l :
  (forall x, In x l -> p x = q x) -> Order.all_b p l = Order.all_b q l.
Proof.
  induction l as [|x t IH]; intros H; cbn; trivial. rewrite H, IH by auto with datatypes. reflexivity.
Qed.

(* HashMap::eq as World0.v writes it, in the shape of Order.veq *)
Lemma veq0_map m m' :
  World0.veq0 (VMap m) (VMap m') =
  Nat.eqb (length m) (length m') &&
  Order.all_b (fun kv : key * value =>
                 match VFormat.map_get m' (fst kv) with Some y => World0.veq0 (snd kv) y | None => false end) m.
Proof.
  cbn. f_equal. induction m as [|[k x] t IH]; cbn; [reflexivity|].
  rewrite IH. destruct (VFormat.map_get m' k); reflexivity.
Qed.

Theorem veq0_veq : forall a, Order.wf a -> ffree a = true ->
  forall b, Order.wf b -> ffree b = true -> World0.veq0 a b = Order.veq a b.
Proof.
  induction a as [ | |x|r z|f|s o|l IH|m IH|bs] using ValueFacts.value_ind'; intros Wa Fa b Wb Fb;
    try discriminate; destruct b as [ | | |r' z'| | |l'|m'| ]; try reflexivity; try discriminate.
  - cbn [World0.veq0 Order.veq]. rewrite OrderProofs.int_eq_x; trivial.
  - cbn. symmetry. apply list_eq2_eqb.
  - apply OrderProofs.wf_arr in Wa, Wb. apply ffree_arr in Fa, Fb. rewrite Forall_forall in IH, Wa, Wb, Fa, Fb.
    apply (list_eq2_ext_in World0.veq0 Order.veq). auto.
  - pose proof (kwf_of_wf _ Wa) as Ka. pose proof (kwf_of_wf _ Wb) as Kb.
    apply OrderProofs.wf_map in Wa as (_ & _ & Wa), Wb as (_ & _ & Wb). apply ffree_map in Fa, Fb.
    unfold kwf in Ka. rewrite Forall_forall in IH, Ka, Wa, Wb, Fa, Fb.
    rewrite veq0_map. cbn [Order.veq]. f_equal. apply all_b_ext_in. intros e He.
    rewrite (map_get_vformat m' (fst e) Kb (Ka e He)).
    destruct (Order.map_get m' (fst e)) as [y|] eqn:G; trivial.
    destruct (OrderProofs.map_get_some _ _ _ G) as [k' [Hy _]]. apply (IH e He); auto. apply (Wb _ Hy). apply (Fb _ Hy).
  - cbn. symmetry. apply list_eq2_eqb.
Qed.

(* the kinds World0.vcmp0 orders *)
Definition w0_scalar (v : value) : bool :=
  match v with VUndef | VNone | VBool _ | VInt _ _ | VStr _ _ => true | _ => false end.

Theorem vcmp0_vpcmp a b : Order.wf a -> Order.wf b -> w0_scalar a = true -> w0_scalar b = true ->
  World0.vcmp0 a b = Order.vpcmp a b.
Proof.
  intros Wa Wb Sa Sb. destruct a, b; try discriminate; try reflexivity.
  cbn [World0.vcmp0 Order.vpcmp]. rewrite OrderProofs.int_pcmp_x; trivial.
Qed.

(* arrays and byte strings are ordered by the engine (lexicographically); World0.v refuses them *)
Example vcmp0_differs_on_arrays :
  World0.vcmp0 (VArr [VInt U64 1]) (VArr [VInt U64 2]) = None /\
  Order.vpcmp (VArr [VInt U64 1]) (VArr [VInt U64 2]) = Some Lt.
Proof. split; reflexivity. Qed.

Theorem contains0_contains c n : Order.wf c -> ffree c = true -> Order.wf n -> ffree n = true ->
  World0.contains0 c n = Order.contains c n.
Proof.
  intros Wc Fc Wn Fn. destruct c as [| | | | |s o|l|m|]; try reflexivity.
  - cbn. destruct n; trivial. rewrite is_substr_w0. reflexivity.
  - cbn. f_equal. apply OrderProofs.wf_arr in Wc. apply ffree_arr in Fc.
    induction Wc as [|x t Wx _ IH]; cbn; trivial. apply Forall_cons_iff in Fc as [Fx Ft].
    rewrite (veq0_veq x), IH by assumption. reflexivity.
  - cbn. f_equal. rewrite as_key_vformat. destruct (Order.as_key n) as [k|] eqn:E; trivial.
    rewrite (map_get_vformat m k (kwf_of_wf _ Wc) (OrderProofs.as_key_wf n k Wn E)). reflexivity.
Qed.

(* Number.v is proved exact against Arith.xcmp on Arith.xreal, Order.v against OrderProofs.xcmp on
   Order.fcls: the same order (NumCmpProofs.xcmp_bridge) *)
Lemma fcls_of_xval f : NumCmpProofs.fcls_x (Arith.xval_float f) = Order.fcls_of f.
Proof. destruct f as [s|s| |s m e]; try reflexivity. destruct s; reflexivity. Qed.

Lemma sk_of_num v : NumCmpProofs.wf_num v ->
  OrderProofs.sk v = Some (OrderProofs.SNum (NumCmpProofs.fcls_x (NumCmpProofs.xval v))).
Proof.
  destruct v; cbn; try contradiction; intros _.
  - reflexivity.
  - rewrite fcls_of_xval. reflexivity.
Qed.

Lemma wf_of_wf_num v : NumCmpProofs.wf_num v -> Order.wf v.
Proof. destruct v; cbn; try contradiction; intros H; [exact H|reflexivity]. Qed.

(* PartialOrd, numeric arms: Number.v (f64 primitives of SpecFloat) = Order.v (exact dyadic
   comparison), for every pair of numbers the engine can hold *)
Theorem num_partial_cmp_vpcmp a b : NumCmpProofs.wf_num a -> NumCmpProofs.wf_num b ->
  Number.num_partial_cmp a b = Order.vpcmp a b.
Proof.
  intros Wa Wb.
  rewrite (NumCmpProofs.num_partial_cmp_exact a b Wa Wb).
  rewrite (OrderProofs.vpcmp_sk a b _ _ (wf_of_wf_num a Wa) (wf_of_wf_num b Wb) (sk_of_num a Wa) (sk_of_num b Wb)).
  cbn [OrderProofs.srank OrderProofs.scmp]. rewrite N.eqb_refl. rewrite NumCmpProofs.xcmp_bridge. reflexivity.
Qed.

Theorem num_eq_veq a b : NumCmpProofs.wf_num a -> NumCmpProofs.wf_num b ->
  Number.num_eq a b = Order.veq a b.
Proof.
  intros Wa Wb.
  rewrite (NumCmpProofs.num_eq_exact a b Wa Wb).
  rewrite (OrderProofs.veq_sk a b _ _ (wf_of_wf_num a Wa) (wf_of_wf_num b Wb) (sk_of_num a Wa) (sk_of_num b Wb)).
  cbn [OrderProofs.scmp]. rewrite NumCmpProofs.xcmp_bridge. reflexivity.
Qed.

Theorem escape_html_builtins s : Builtins.escape_html s = VFormat.escape_html s.
Proof. apply flat_map_ext. intro c. symmetry. apply FormatUtf8.esc_lookup_find. Qed.

(* dispatch: which model a World0 name reaches in World1 *)
Lemma filter_res_default v kw :
  World1.filter_res World0.n_default v kw = Some (World1.of_bres (Builtins.f_default kw v)).
Proof. reflexivity. Qed.
Lemma filter_res_length v kw :
  World1.filter_res World0.n_length v kw = Some (World1.of_bres (Builtins.f_length kw v)).
Proof. reflexivity. Qed.
Lemma filter_res_safe v kw : World1.filter_res World0.n_safe v kw = Some (World1.f_safe1 v).
Proof. reflexivity. Qed.
Lemma filter_res_upper_str s o kw :
  World1.filter_res World0.n_upper (VStr s o) kw =
  if World1.is_ascii_str s then Some (ROk (VStr (flat_map World1.ascii_upper s) false)) else None.
Proof. unfold World1.filter_res. cbn. destruct (World1.is_ascii_str s); reflexivity. Qed.

Theorem filter_default_w0 v k sc :
  World1.filter1 World0.n_default v k sc = World0.filter0 World0.n_default v k sc.
Proof.
  unfold World1.filter1, World0.filter0.
  rewrite filter_res_default, ValueFacts.str_eqb_refl, !kw_get_w0.
  unfold Builtins.f_default, Builtins.kw_must, Builtins.kw_get.
  change (Builtins.s2l "value") with World0.n_value.
  change (Builtins.s2l "boolean") with World0.n_boolean.
  destruct (Builtins.kw_find World0.n_value (World1.kw_strs k)) as [d|]; [|reflexivity].
  destruct (Builtins.kw_find World0.n_boolean (World1.kw_strs k)) as [[| |[]| | | | | |]|];
    try reflexivity; cbn.
  - destruct (is_truthy v); reflexivity.
  - destruct v; reflexivity.
  - destruct v; reflexivity.
Qed.

Theorem filter_length_w0 v k sc :
  World1.filter1 World0.n_length v k sc = World0.filter0 World0.n_length v k sc.
Proof. unfold World1.filter1. rewrite filter_res_length. destruct v; reflexivity. Qed.

(* what ApplyFilter pushes (interpreter.rs: `if filter.is_safe() { res.mark_safe() }`) *)
Definition pushed (x : option (res value * bool)) : option (res value) :=
  match x with
  | Some (ROk r, safe) => Some (ROk (if safe then mark_safe r else r))
  | Some (RErr e, _) => Some (RErr e)
  | None => None
  end.

(* World0.v gives `safe` the is_safe flag, the engine's StoredFilter::is_safe is false for every
   built-in (Gen/SafeTables.v) and the filter mints the safe string itself: the same value is pushed *)
Theorem filter_safe_w0 s o k sc :
  pushed (World1.filter1 World0.n_safe (VStr s o) k sc) = pushed (World0.filter0 World0.n_safe (VStr s o) k sc).
Proof. reflexivity. Qed.

(* `safe` takes any value in the engine (ArgFromValue for Cow<str> formats it); World0.v only
   knows the string receiver *)
Example filter_safe_differs_on_non_strings :
  World0.filter0 World0.n_safe (VInt U64 1) [] (Scope [] [] None [] None) = Some (RErr ErrMsg, true) /\
  World1.filter1 World0.n_safe (VInt U64 1) [] (Scope [] [] None [] None) = Some (ROk (VStr [49%N] true), false).
Proof. split; vm_compute; reflexivity. Qed.

Lemma flat_map_singleton {A B} (f : A -> B) l : flat_map (fun c => [f c]) l = map f l.
Proof. induction l as [|x t IH]; cbn; [reflexivity|rewrite IH; reflexivity]. Qed.

(* `upper` on ASCII text (char::to_uppercase needs the Unicode tables elsewhere: World1 refuses
   to answer, World0 passes the character through) *)
Theorem filter_upper_w0 v k sc :
  (forall s o, v = VStr s o -> World1.is_ascii_str s = true) ->
  World1.filter1 World0.n_upper v k sc = World0.filter0 World0.n_upper v k sc.
Proof.
  intros H. destruct v as [| | | | |s o| | |]; try reflexivity.
  unfold World1.filter1. rewrite filter_res_upper_str, (H s o eq_refl).
  change (World0.filter0 World0.n_upper (VStr s o) k sc)
    with (Some (ROk (VStr (map World0.ascii_upper s) false), false)).
  change (World1.filter_is_safe World0.n_upper) with false.
  rewrite <- flat_map_singleton. reflexivity.
Qed.

Theorem test_defined_w0 v k : World1.test1 World0.n_defined v k = World0.test0 World0.n_defined v k.
Proof. reflexivity. Qed.
Theorem test_undefined_w0 v k : World1.test1 World0.n_undefined v k = World0.test0 World0.n_undefined v k.
Proof. reflexivity. Qed.
