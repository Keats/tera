(* Lemmas for C05 (components): argument binding (build_context) over a small theory of
   association lists, the callee's fresh state, the component table by priority, the
   recursion-depth counter, the shape of compiled call sites (over Corr.CorrC05), and the API entry
   against the call site.  String equality facts are those of Proofs.ValueFacts. *)
From Coq Require Import Permutation.
From TeraV Require Import Model.Value Gen.Tables Gen.TypeTables Model.Component Spec.ComponentSpec.
From TeraV Require Import Proofs.ValueFacts.

Lemma type_matches_doc : forall t v, type_matches t v = doc_matches t v.
Proof.
  intros t v. destruct t; destruct v as [| |b|r z|f|s sf|l|m|bs]; try destruct r; reflexivity.
Qed.

Lemma type_from_value_doc : forall v, type_from_value v = doc_infer v.
Proof.
  intros v. destruct v as [| |b|r z|f|s sf|l|m|bs]; try destruct r; reflexivity.
Qed.

Lemma effective_type_spec : forall p, effective_type p = spec_type p.
Proof.
  intros p. unfold effective_type, spec_type.
  destruct (p_declared p); [reflexivity|].
  destruct (p_default p); [apply type_from_value_doc|reflexivity].
Qed.

Lemma arg_type_matches_spec : forall p v,
  arg_type_matches p v = true <-> (forall t, spec_type p = Some t -> doc_matches t v = true).
Proof.
  intros p v. unfold arg_type_matches. rewrite effective_type_spec.
  destruct (spec_type p) as [t|].
  - rewrite type_matches_doc. split.
    + intros H t' E. inversion E; subst. exact H.
    + intros H. apply H. reflexivity.
  - split; [intros _ t E; discriminate|reflexivity].
Qed.

(* Association lists whose key test [eqb] decides equality of a projection [f] of the key.
   Context (BTreeMap<String, Value>) and the component table are the instance [str_eqb] with the
   identity; value::Map is [key_eqb] with [kn] below.  ctx_get, ctx_remove, kmap_get, kmap_remove
   and the specification's lookup are these functions up to conversion. *)
Section Assoc.
Context {K K' V : Type} (eqb : K -> K -> bool) (f : K -> K').
Hypothesis eqb_spec : forall a b, eqb a b = true <-> f a = f b.

Fixpoint aget (m : list (K * V)) (k : K) : option V :=
  match m with
  | [] => None
  | (k', v) :: t => if eqb k' k then Some v else aget t k
  end.

Fixpoint aremove (k : K) (m : list (K * V)) : list (K * V) :=
  match m with
  | [] => []
  | (k', v) :: t => if eqb k' k then aremove k t else (k', v) :: aremove k t
  end.

Definition aput (k : K) (v : V) (m : list (K * V)) : list (K * V) := (k, v) :: aremove k m.

Lemma eqb_proj : forall a a' b b', f a = f a' -> f b = f b' -> eqb a b = eqb a' b'.
Proof.
  intros a a' b b' Ha Hb. apply eq_true_iff_eq. rewrite !eqb_spec, Ha, Hb. reflexivity.
Qed.

Lemma aget_remove : forall k m k', aget (aremove k m) k' = if eqb k k' then None else aget m k'.
Proof.
  intros k m k'. induction m as [|[k0 v] m IH]; cbn; [destruct (eqb k k'); reflexivity|].
  destruct (eqb k0 k) eqn:E0; cbn; rewrite IH.
  - apply eqb_spec in E0. rewrite (eqb_proj k0 k k' k' E0 eq_refl). destruct (eqb k k'); reflexivity.
  - destruct (eqb k k') eqn:E; [|reflexivity]. apply eqb_spec in E.
    rewrite <- (eqb_proj k0 k0 k k' eq_refl E), E0. reflexivity.
Qed.

Lemma aget_put : forall k v m k', aget (aput k v m) k' = if eqb k k' then Some v else aget m k'.
Proof. intros. cbn. rewrite aget_remove. destruct (eqb k k'); reflexivity. Qed.

Lemma aget_some_in : forall m k v, aget m k = Some v -> exists k0, In (k0, v) m /\ f k0 = f k.
Proof.
  induction m as [|[k0 v0] m IH]; cbn; intros k v H; [discriminate|].
  destruct (eqb k0 k) eqn:E.
  - inversion H; subst. exists k0. split; [left; reflexivity|apply eqb_spec; exact E].
  - destruct (IH k v H) as [k1 [Hin Hk]]. exists k1. split; [right; exact Hin|exact Hk].
Qed.

Lemma aget_nodup_in : forall m k0 k v,
  NoDup (map (fun kv => f (fst kv)) m) -> In (k0, v) m -> f k0 = f k -> aget m k = Some v.
Proof.
  induction m as [|[k1 v1] m IH]; cbn; intros k0 k v Hd Hin E; [contradiction|].
  inversion Hd as [|? ? Hn Hd']; subst. destruct Hin as [Hin|Hin].
  - inversion Hin; subst. rewrite (proj2 (eqb_spec k0 k) E). reflexivity.
  - destruct (eqb k1 k) eqn:E1; [|exact (IH k0 k v Hd' Hin E)].
    exfalso. apply Hn. apply eqb_spec in E1. apply in_map_iff. exists (k0, v). split; [cbn; congruence|exact Hin].
Qed.

Lemma aremove_in : forall k m kv, In kv (aremove k m) -> In kv m /\ eqb (fst kv) k = false.
Proof.
  intros k. induction m as [|[k0 v] m IH]; cbn; intros kv H; [contradiction|].
  destruct (eqb k0 k) eqn:E.
  - destruct (IH kv H). split; [right|]; assumption.
  - destruct H as [H|H].
    + subst. split; [left; reflexivity|exact E].
    + destruct (IH kv H). split; [right|]; assumption.
Qed.

Lemma aremove_nodup : forall (X : Type) (g : K * V -> X) k m,
  NoDup (map g m) -> NoDup (map g (aremove k m)).
Proof.
  intros X g k. induction m as [|[k0 v] m IH]; cbn; intros H; [constructor|].
  inversion H as [|? ? Hn Hd]; subst.
  destruct (eqb k0 k); [apply IH; exact Hd|].
  cbn. constructor; [|apply IH; exact Hd].
  intros Hin. apply Hn. apply in_map_iff in Hin. destruct Hin as [kv [E Hin]].
  apply aremove_in in Hin. apply in_map_iff. exists kv. split; [exact E|apply Hin].
Qed.

Lemma aput_nodup : forall k v m,
  NoDup (map (fun kv => f (fst kv)) m) -> NoDup (map (fun kv => f (fst kv)) (aput k v m)).
Proof.
  intros k v m H. cbn. constructor; [|apply aremove_nodup; exact H].
  intros Hin. apply in_map_iff in Hin. destruct Hin as [kv [E Hin]].
  apply aremove_in in Hin. destruct Hin as [_ Hne]. apply eqb_spec in E. congruence.
Qed.

End Assoc.

Lemma ctx_get_remove : forall k c k', ctx_get (ctx_remove k c) k' = if str_eqb k k' then None else ctx_get c k'.
Proof. exact (aget_remove str_eqb (fun k => k) str_eqb_eq). Qed.

Lemma ctx_get_remove_same : forall k c, ctx_get (ctx_remove k c) k = None.
Proof. intros k c. rewrite ctx_get_remove, str_eqb_refl. reflexivity. Qed.

Lemma ctx_get_insert : forall k v c k',
  ctx_get (ctx_insert k v c) k' = if str_eqb k k' then Some v else ctx_get c k'.
Proof. exact (aget_put str_eqb (fun k => k) str_eqb_eq). Qed.

Lemma ctx_get_some_in : forall c k v, ctx_get c k = Some v -> In k (ctx_keys c).
Proof.
  intros c k v H. destruct (aget_some_in str_eqb (fun k => k) str_eqb_eq c k v H) as [k0 [Hin E]].
  cbn in E. subst k0. exact (in_map fst c _ Hin).
Qed.

Lemma ctx_get_in_some : forall c k, In k (ctx_keys c) -> ctx_get c k <> None.
Proof.
  induction c as [|[k0 v] c IH]; cbn; intros k H; [contradiction|].
  destruct (str_eqb k0 k) eqn:E; [discriminate|].
  destruct H as [H|H]; [|exact (IH k H)].
  subst k0. rewrite str_eqb_refl in E. discriminate.
Qed.

Lemma ctx_insert_nodup : forall k v c, NoDup (ctx_keys c) -> NoDup (ctx_keys (ctx_insert k v c)).
Proof. exact (aput_nodup str_eqb (fun k => k) str_eqb_eq). Qed.

(* what Key equality looks at *)
Definition kn (k : key) : bool + (Z + str) :=
  match k with KBool b => inl b | KInt _ z => inr (inl z) | KStr s _ => inr (inr s) end.

Lemma key_eqb_kn : forall a b, key_eqb a b = true <-> kn a = kn b.
Proof.
  intros [x|r x|s o] [y|r' y|s' o']; cbn; try (split; congruence).
  - rewrite eqb_true_iff. split; congruence.
  - rewrite Z.eqb_eq. split; congruence.
  - rewrite str_eqb_eq. split; congruence.
Qed.

Lemma kmap_get_kn : forall m a b, kn a = kn b -> kmap_get m a = kmap_get m b.
Proof.
  intros m a b H. induction m as [|[k v] m IH]; cbn; [reflexivity|].
  rewrite (eqb_proj key_eqb kn key_eqb_kn k k a b eq_refl H), IH. reflexivity.
Qed.

Lemma kmap_get_app : forall m1 m2 k,
  kmap_get (m1 ++ m2) k = match kmap_get m1 k with Some v => Some v | None => kmap_get m2 k end.
Proof.
  induction m1 as [|[k' v] m1 IH]; intros m2 k; cbn; [reflexivity|].
  destruct (key_eqb k' k); [reflexivity|apply IH].
Qed.

Lemma kmap_get_remove : forall k m k',
  kmap_get (kmap_remove k m) k' = if key_eqb k k' then None else kmap_get m k'.
Proof. exact (aget_remove key_eqb kn key_eqb_kn). Qed.

Lemma kmap_get_insert : forall k v m k',
  kmap_get (kmap_insert k v m) k' = if key_eqb k k' then Some v else kmap_get m k'.
Proof.
  intros. unfold kmap_insert. rewrite kmap_get_app, kmap_get_remove. cbn.
  destruct (key_eqb k k'); [reflexivity|]. destruct (kmap_get m k'); reflexivity.
Qed.

(* invariant of the rest map under construction *)
Definition kmap_ok (m : kmap) : Prop :=
  (forall kv, In kv m -> key_is_str (fst kv)) /\ NoDup (map (fun kv => kn (fst kv)) m).

Lemma kmap_insert_ok : forall s o v m, kmap_ok m -> kmap_ok (kmap_insert (KStr s o) v m).
Proof.
  intros s o v m [Hs Hd]. unfold kmap_insert. split.
  - intros kv Hin. apply in_app_or in Hin. destruct Hin as [Hin|[Hin|[]]].
    + apply (aremove_in key_eqb) in Hin. apply Hs. apply Hin.
    + subst. exact I.
  - rewrite map_app. eapply Permutation_NoDup; [apply Permutation_cons_append|].
    exact (aput_nodup key_eqb kn key_eqb_kn (KStr s o) v m Hd).
Qed.

Lemma kmap_ok_names : forall m, kmap_ok m -> NoDup (map (fun kv => key_name (fst kv)) m).
Proof.
  intros m [Hs Hd]. apply (NoDup_map_inv (fun s : str => inr (inr s) : bool + (Z + str))). rewrite map_map.
  erewrite map_ext_in; [exact Hd|]. intros [k v] Hin. specialize (Hs _ Hin).
  destruct k; [contradiction|contradiction|reflexivity].
Qed.

Lemma kmap_get_in : forall m k v, kmap_ok m ->
  (kmap_get m (KStr k false) = Some v <-> exists o, In (KStr k o, v) m).
Proof.
  intros m k v [_ Hd]. split.
  - intros H. destruct (aget_some_in key_eqb kn key_eqb_kn m _ v H) as [[b|r z|s o] [Hin E]]; try discriminate E.
    inversion E; subst. exists o. exact Hin.
  - intros [o Hin]. exact (aget_nodup_in key_eqb kn key_eqb_kn m (KStr k o) (KStr k false) v Hd Hin eq_refl).
Qed.

Lemma existsb_str_in : forall (X : Type) (f : X -> str) k l,
  existsb (fun x => str_eqb (f x) k) l = true <-> In k (map f l).
Proof.
  intros X f k l. rewrite existsb_exists, in_map_iff.
  split; intros [x [H1 H2]]; exists x; split; try assumption; apply str_eqb_eq; assumption.
Qed.

Lemma declared_iff : forall d k, declared d k = true <-> is_param d k.
Proof. intros d k. exact (existsb_str_in param p_name k (def_params d)). Qed.

Lemma declared_false_iff : forall d k, declared d k = false <-> ~ is_param d k.
Proof. intros d k. rewrite <- declared_iff. destruct (declared d k); split; congruence. Qed.

Lemma forallb_filter_nil : forall (A : Type) (p : A -> bool) l,
  forallb p l = match filter (fun x => negb (p x)) l with [] => true | _ :: _ => false end.
Proof.
  intros A p. induction l as [|x l IH]; cbn; [reflexivity|]. destruct (p x); [exact IH|reflexivity].
Qed.

(* the second loop of build_context in closed form *)
Section Bind.
Variable get : str -> option value.

Definition bound (p : param) : option value :=
  match get (p_name p) with Some v => Some v | None => p_default p end.

Definition param_ok (p : param) : bool :=
  match get (p_name p) with
  | Some v => arg_type_matches p v
  | None => match p_default p with Some _ => true | None => false end
  end.

Definition bind_one (c : ctx) (p : param) : ctx :=
  match bound p with Some v => ctx_insert (p_name p) v c | None => c end.

Lemma bind_params_spec : forall ps c,
  bind_params ps get c = if forallb param_ok ps then ROk (fold_left bind_one ps c) else RErr ErrOther.
Proof.
  induction ps as [|p t IH]; intros c; cbn [bind_params forallb fold_left]; [reflexivity|].
  unfold param_ok at 1, bind_one at 2, bound.
  destruct (get (p_name p)) as [v|].
  - destruct (arg_type_matches p v); [apply IH|reflexivity].
  - destruct (p_default p); [apply IH|reflexivity].
Qed.

Lemma param_ok_bound : forall p, param_ok p = true -> bound p <> None.
Proof.
  unfold param_ok, bound. intros p H.
  destruct (get (p_name p)); [discriminate|]. destruct (p_default p); discriminate.
Qed.

Lemma ctx_get_bind_one : forall c p n,
  ctx_get (bind_one c p) n =
  if str_eqb (p_name p) n then match bound p with Some v => Some v | None => ctx_get c n end
  else ctx_get c n.
Proof.
  intros c p n. unfold bind_one. destruct (bound p); [apply ctx_get_insert|].
  destruct (str_eqb (p_name p) n); reflexivity.
Qed.

Lemma bind_all_spec : forall ps c0, NoDup (map p_name ps) ->
  (forall p, In p ps -> bound p <> None -> ctx_get (fold_left bind_one ps c0) (p_name p) = bound p) /\
  (forall n, ~ In n (map p_name ps) -> ctx_get (fold_left bind_one ps c0) n = ctx_get c0 n) /\
  (NoDup (ctx_keys c0) -> NoDup (ctx_keys (fold_left bind_one ps c0))).
Proof.
  induction ps as [|p t IH]; intros c0 Hnd; cbn [fold_left].
  - split; [intros p []|]. split; [reflexivity|auto].
  - cbn [map] in Hnd. inversion Hnd as [|? ? Hnotin Hnd']; subst.
    destruct (IH (bind_one c0 p) Hnd') as [H1 [H2 H3]]. split; [|split].
    + intros q [Hq|Hq] Hb; [|exact (H1 q Hq Hb)].
      subst q. rewrite (H2 _ Hnotin), ctx_get_bind_one, str_eqb_refl.
      destruct (bound p); [reflexivity|contradiction].
    + intros n Hn. rewrite H2 by (intros X; apply Hn; right; exact X). rewrite ctx_get_bind_one.
      destruct (str_eqb (p_name p) n) eqn:E; [|reflexivity].
      exfalso. apply Hn. left. apply str_eqb_eq. exact E.
    + intros Hd. apply H3. unfold bind_one. destruct (bound p); [apply ctx_insert_nodup|]; exact Hd.
Qed.

End Bind.

Lemma param_ok_spec : forall s p,
  param_ok (ctx_get s) p = true <->
  ((p_default p = None -> In (p_name p) (map fst s)) /\
   (forall v t, lookup s (p_name p) = Some v -> spec_type p = Some t -> doc_matches t v = true)).
Proof.
  intros s p. unfold param_ok. change (ctx_get s) with (lookup s).
  destruct (lookup s (p_name p)) as [v|] eqn:L.
  - rewrite arg_type_matches_spec. split.
    + intros H. split; [intros _; exact (ctx_get_some_in s _ _ L)|].
      intros v' t E. inversion E; subst. apply H.
    + intros [_ H] t E. exact (H v t eq_refl E).
  - split.
    + intros H. split; [intros D; rewrite D in H; discriminate|intros v t E; discriminate].
    + intros [H _]. destruct (p_default p); [reflexivity|].
      exfalso. exact (ctx_get_in_some s _ (H eq_refl) L).
Qed.

Lemma collect_norest : forall d keys get rm u, def_rest d = None ->
  collect_unknown d keys get rm u = ROk (rm, rev (filter (fun k => negb (declared d k)) keys) ++ u).
Proof.
  intros d keys get rm u Hr. revert u. induction keys as [|k t IH]; intros u; cbn [collect_unknown filter].
  - reflexivity.
  - destruct (declared d k) eqn:Dk; cbn [negb].
    + apply IH.
    + rewrite Hr. rewrite IH. cbn [rev]. rewrite <- app_assoc. reflexivity.
Qed.

Lemma collect_rest : forall d r keys get rm u, def_rest d = Some r ->
  (forall k, In k keys -> get k <> None) -> kmap_ok rm ->
  exists rm', collect_unknown d keys get rm u = ROk (rm', u) /\ kmap_ok rm' /\
    forall k, kmap_get rm' (KStr k false) =
              if negb (declared d k) && existsb (fun k' => str_eqb k' k) keys then get k
              else kmap_get rm (KStr k false).
Proof.
  intros d r keys get rm u Hr. revert rm. induction keys as [|k t IH]; intros rm Hget Hk.
  - exists rm. cbn. split; [reflexivity|]. split; [exact Hk|].
    intros k. rewrite andb_false_r. reflexivity.
  - destruct (get k) as [v|] eqn:G; [|destruct (Hget k (or_introl eq_refl) G)].
    destruct (IH (if declared d k then rm else kmap_insert (KStr k true) v rm)) as [rm' [E [Hk' Hf]]].
    + intros k0 Hk0. apply Hget. right. exact Hk0.
    + destruct (declared d k); [exact Hk|apply kmap_insert_ok; exact Hk].
    + exists rm'. cbn [collect_unknown existsb]. rewrite Hr, G.
      split; [destruct (declared d k); exact E|]. split; [exact Hk'|].
      intros k0. rewrite Hf. destruct (str_eqb k k0) eqn:E0.
      2:{ destruct (declared d k); [|rewrite kmap_get_insert; cbn [key_eqb]; rewrite E0]; reflexivity. }
      apply str_eqb_eq in E0. subst k0. destruct (declared d k); [reflexivity|].
      rewrite kmap_get_insert. cbn [key_eqb negb andb orb]. rewrite str_eqb_refl.
      destruct (existsb (fun k' => str_eqb k' k) t); [reflexivity|symmetry; exact G].
Qed.

Lemma collect_rest_map : forall d r s, def_rest d = Some r ->
  exists rm, collect_unknown d (ctx_keys s) (ctx_get s) [] [] = ROk (rm, []) /\ is_rest_map d s rm.
Proof.
  intros d r s Hr.
  destruct (collect_rest d r (ctx_keys s) (ctx_get s) [] [] Hr (ctx_get_in_some s)) as [rm [E [Hk Hf]]];
    [split; [intros kv []|constructor]|].
  exists rm. split; [exact E|]. split; [apply Hk|]. split; [exact (kmap_ok_names rm Hk)|].
  intros k v. rewrite <- (kmap_get_in rm k v Hk), Hf. change (lookup s k) with (ctx_get s k).
  destruct (declared d k) eqn:Dk; cbn [negb andb].
  - split; [discriminate|]. intros [_ Hn]. apply declared_iff in Dk. contradiction.
  - apply declared_false_iff in Dk.
    destruct (existsb (fun k' => str_eqb k' k) (ctx_keys s)) eqn:Ex.
    + split; [intros E'; split; [exact E'|exact Dk]|intros [E' _]; exact E'].
    + split; [discriminate|]. intros [E' _]. apply ctx_get_some_in in E'.
      rewrite <- map_id in E'. apply existsb_str_in in E'. congruence.
Qed.

Definition acceptsb (d : comp_def) (s : ctx) : bool :=
  (if def_rest d then true else forallb (declared d) (ctx_keys s)) &&
  forallb (param_ok (ctx_get s)) (def_params d).

Definition finish_ctx (d : comp_def) (rm : kmap) (body : option value) (c0 : ctx) : ctx :=
  let c1 := match def_rest d with Some r => ctx_insert r (VMap rm) c0 | None => c0 end in
  match body with Some b => ctx_insert body_name b c1 | None => c1 end.

Lemma build_context_of_spec : forall d s body, exists rm,
  build_context_of d s body =
    (if acceptsb d s
     then ROk (finish_ctx d rm body (fold_left (bind_one (ctx_get s)) (def_params d) []))
     else RErr ErrOther) /\
  (def_rest d <> None -> is_rest_map d s rm).
Proof.
  intros d s body. unfold build_context_of, build_context, acceptsb, finish_ctx.
  rewrite bind_params_spec. destruct (def_rest d) as [r|] eqn:Hr.
  - destruct (collect_rest_map d r s Hr) as [rm [E Hrm]]. exists rm. rewrite E.
    split; [|intros _; exact Hrm].
    destruct (forallb (param_ok (ctx_get s)) (def_params d)); reflexivity.
  - exists []. split; [|congruence].
    rewrite (collect_norest d _ _ _ _ Hr), (forallb_filter_nil _ (declared d)).
    destruct (filter (fun k => negb (declared d k)) (ctx_keys s)) as [|k l]; cbn [rev app andb].
    + destruct (forallb (param_ok (ctx_get s)) (def_params d)); reflexivity.
    + destruct (rev l); reflexivity.
Qed.

Lemma acceptsb_iff : forall d s, acceptsb d s = true <-> accepts d s.
Proof.
  intros d s. unfold acceptsb, accepts. rewrite andb_true_iff, forallb_forall.
  apply Morphisms_Prop.and_iff_morphism.
  - destruct (def_rest d).
    + split; [intros _; right; discriminate|reflexivity].
    + rewrite forallb_forall. split.
      * intros H. left. intros k Hk. apply declared_iff. apply H. exact Hk.
      * intros [H|H] k Hk; [apply declared_iff; apply H; exact Hk|congruence].
  - split.
    + intros H. split; intros p; [|intros v t]; intros Hp; apply (proj1 (param_ok_spec s p) (H p Hp)).
    + intros [H2 H3] p Hp. apply param_ok_spec. split; [apply H2; exact Hp|intros v t; apply H3; exact Hp].
Qed.

Lemma build_context_accepts : forall d s body,
  (exists c, build_context_of d s body = ROk c) <-> accepts d s.
Proof.
  intros d s body. rewrite <- acceptsb_iff. destruct (build_context_of_spec d s body) as [rm [E _]].
  rewrite E. destruct (acceptsb d s); split; try discriminate; try reflexivity.
  - eexists. reflexivity.
  - intros [c H]. discriminate.
Qed.

Lemma build_context_of_err : forall d s body e, build_context_of d s body = RErr e -> e = ErrOther.
Proof.
  intros d s body e. destruct (build_context_of_spec d s body) as [rm [E _]]. rewrite E.
  destruct (acceptsb d s); [discriminate|]. intros H. inversion H. reflexivity.
Qed.

Lemma ctx_get_finish_ctx : forall d rm body c0 n,
  ctx_get (finish_ctx d rm body c0) n =
  match (if str_eqb body_name n then body else None) with
  | Some b => Some b
  | None =>
      match def_rest d with
      | Some r => if str_eqb r n then Some (VMap rm) else ctx_get c0 n
      | None => ctx_get c0 n
      end
  end.
Proof.
  intros d rm body c0 n. unfold finish_ctx. destruct body as [b|].
  - rewrite ctx_get_insert. destruct (str_eqb body_name n); [reflexivity|].
    destruct (def_rest d); [apply ctx_get_insert|reflexivity].
  - destruct (str_eqb body_name n); (destruct (def_rest d); [apply ctx_get_insert|reflexivity]).
Qed.

Lemma ctx_insert_bound : forall k v c n, ctx_get (ctx_insert k v c) n <> None <-> k = n \/ ctx_get c n <> None.
Proof.
  intros k v c n. rewrite ctx_get_insert. destruct (str_eqb k n) eqn:E.
  - apply str_eqb_eq in E. split; [left; exact E|discriminate].
  - apply str_eqb_neq in E. tauto.
Qed.

Lemma finish_ctx_bound : forall d rm body c0 n,
  ctx_get (finish_ctx d rm body c0) n <> None <->
  ctx_get c0 n <> None \/ def_rest d = Some n \/ (n = body_name /\ body <> None).
Proof.
  intros d rm body c0 n. unfold finish_ctx.
  destruct body, (def_rest d); rewrite ?ctx_insert_bound; intuition congruence.
Qed.

Lemma wf_def_names : forall d, wf_def d ->
  (forall n, is_param d n -> str_eqb body_name n = false /\
                              forall r, def_rest d = Some r -> str_eqb r n = false) /\
  (forall r, def_rest d = Some r -> str_eqb body_name r = false).
Proof.
  intros d [_ [Hnb [Hrb Hrp]]]. split.
  - intros n Hn. split; [apply str_eqb_neq; congruence|].
    intros r Hr. apply str_eqb_neq. intros E. subst n. exact (Hrp r Hr Hn).
  - intros r Hr. apply str_eqb_neq. congruence.
Qed.

Lemma build_context_binds : forall d s body c,
  wf_def d -> build_context_of d s body = ROk c ->
  (forall p, In p (def_params d) -> ctx_get c (p_name p) = bound_value s p) /\
  (forall r, def_rest d = Some r -> exists m, ctx_get c r = Some (VMap m) /\ is_rest_map d s m) /\
  ctx_get c body_name = body /\
  (forall n, ctx_get c n <> None <-> visible d body n) /\
  NoDup (ctx_keys c).
Proof.
  (* the accepted context in closed form (build_context_of_spec): the parameters folded in by bind_one
     (bind_all_spec), then the rest map and the body inserted (finish_ctx).  Each clause is a lookup
     through the two insertions (ctx_get_finish_ctx); wf_def keeps the names apart (wf_def_names) *)
  intros d s body c W H.
  destruct (build_context_of_spec d s body) as [rm [E Hrm]]. rewrite E in H. clear E.
  destruct (acceptsb d s) eqn:Acc; [|discriminate]. inversion H; subst c. clear H.
  apply andb_true_iff in Acc. destruct Acc as [_ Acc]. rewrite forallb_forall in Acc.
  destruct (wf_def_names d W) as [Np Nr]. destruct W as [Hnd [Hnb _]].
  destruct (bind_all_spec (ctx_get s) (def_params d) [] Hnd) as [P1 [P2 P3]].
  set (c0 := fold_left (bind_one (ctx_get s)) (def_params d) []) in *. clearbody c0.
  (* P1 speaks of `bound (ctx_get s) p` (Section Bind), which is `bound_value s p` by conversion:
     the specification's `lookup` is `ctx_get` *)
  assert (Hc0 : forall p, In p (def_params d) -> ctx_get c0 (p_name p) = bound_value s p)
    by (intros p Hp; exact (P1 p Hp (param_ok_bound _ p (Acc p Hp)))).
  split; [|split; [|split; [|split]]].
  - intros p Hp. destruct (Np (p_name p) (in_map p_name _ _ Hp)) as [Eb Er].
    rewrite ctx_get_finish_ctx, Eb. destruct (def_rest d) as [r|]; [rewrite (Er r eq_refl)|]; apply Hc0; exact Hp.
  - intros r Hr. exists rm. split; [|apply Hrm; congruence].
    rewrite ctx_get_finish_ctx, Hr, (Nr r Hr), str_eqb_refl. reflexivity.
  - rewrite ctx_get_finish_ctx, str_eqb_refl. destruct body as [b|]; [reflexivity|].
    rewrite (P2 _ Hnb). destruct (def_rest d) as [r|]; [|reflexivity].
    rewrite str_eqb_sym, (Nr r eq_refl). reflexivity.
  - intros n. rewrite finish_ctx_bound. apply or_iff_compat_r. split.
    + intros Hn. apply declared_iff. destruct (declared d n) eqn:Dn; [reflexivity|].
      apply declared_false_iff in Dn. rewrite (P2 n Dn) in Hn. contradiction.
    + intros Hp. apply in_map_iff in Hp. destruct Hp as [p [En Hp]]. subst n. rewrite (Hc0 p Hp).
      apply param_ok_bound, Acc, Hp.
  - unfold finish_ctx. destruct (def_rest d), body; repeat apply ctx_insert_nodup; apply P3; constructor.
Qed.

Definition ctx_value (c : ctx) (n : str) : value :=
  match ctx_get c n with Some v => v | None => VUndef end.

(* State::new_with_chunk(&context, chunk) *)
Lemma get_value_state_new : forall c n, get_value (state_new c) n = ctx_value c n.
Proof. reflexivity. Qed.

Lemma get_value_include_of_new : forall c n, get_value (state_include (state_new c)) n = ctx_value c n.
Proof.
  (* the include takes the parent's value when that is defined and else looks in the context it
     copied from the parent: the same value either way *)
  intros c n. rewrite <- get_value_state_new. cbn. destruct (negb _); reflexivity.
Qed.

Lemma ctx_extend_get : forall over base n,
  NoDup (ctx_keys over) ->
  ctx_get (ctx_extend base over) n = match ctx_get over n with Some v => Some v | None => ctx_get base n end.
Proof.
  unfold ctx_extend. induction over as [|[k v] over IH]; intros base n Hd; cbn [fold_left ctx_get fst snd].
  - reflexivity.
  - cbn [ctx_keys map fst] in Hd. inversion Hd as [|? ? Hn Hd']; subst.
    rewrite (IH _ _ Hd'). rewrite ctx_get_insert.
    destruct (str_eqb k n) eqn:E.
    + apply str_eqb_eq in E. subst k.
      destruct (ctx_get over n) eqn:G; [|reflexivity].
      exfalso. apply Hn. eapply ctx_get_some_in. exact G.
    + reflexivity.
Qed.

(* `{{ __tera_context }}` inside a component shows exactly the built context *)
Lemma dump_context_state_new : forall c n,
  NoDup (ctx_keys c) -> ctx_get (dump_context (state_new c)) n = ctx_get c n.
Proof.
  intros c n Hd. change (dump_context (state_new c)) with (ctx_extend [] c).
  rewrite (ctx_extend_get c [] n Hd). destruct (ctx_get c n); reflexivity.
Qed.

Lemma callee_sees_only_visible : forall d s body c,
  wf_def d -> build_context_of d s body = ROk c ->
  forall n, (get_value (state_new c) n <> VUndef \/ get_value (state_include (state_new c)) n <> VUndef) ->
            visible d body n.
Proof.
  intros d s body c W H n Hn.
  destruct (build_context_binds d s body c W H) as [_ [_ [_ [Hv _]]]].
  apply Hv. rewrite get_value_state_new, get_value_include_of_new in Hn. unfold ctx_value in Hn.
  destruct (ctx_get c n); [discriminate|]. destruct Hn as [Hn|Hn]; contradiction.
Qed.

Section Prio.
Context {A : Type}.
Notation entry := (str * nat * A)%type.

(* ct_get and ct_remove take the type inside their fixpoints: equal to the generic functions by
   induction, not by conversion *)
Lemma ct_get_aget : forall (t : ctable A) n, ct_get t n = aget str_eqb t n.
Proof. induction t as [|[k x] t IH]; intros n; cbn; [reflexivity|]. rewrite IH. reflexivity. Qed.

Lemma ct_remove_aremove : forall n (t : ctable A), ct_remove n t = aremove str_eqb n t.
Proof. intros n. induction t as [|[k x] t IH]; cbn; [reflexivity|]. rewrite IH. reflexivity. Qed.

Lemma ct_get_insert : forall n x (t : ctable A) n',
  ct_get (ct_insert n x t) n' = if str_eqb n n' then Some x else ct_get t n'.
Proof.
  intros n x t n'. unfold ct_insert. rewrite !ct_get_aget, ct_remove_aremove.
  exact (aget_put str_eqb (fun k => k) str_eqb_eq n x t n').
Qed.

Lemma ct_get_remove_same : forall n (t : ctable A), ct_get (ct_remove n t) n = None.
Proof.
  intros n t. rewrite ct_get_aget, ct_remove_aremove, (aget_remove str_eqb (fun k => k) str_eqb_eq), str_eqb_refl.
  reflexivity.
Qed.

Definition count_np (n : str) (p : nat) (l : list entry) : nat :=
  length (filter (fun e : entry => str_eqb (fst (fst e)) n && Nat.eqb (snd (fst e)) p) l).

Lemma count_np_cons : forall n p n0 p0 a0 (l : list entry),
  count_np n p ((n0, p0, a0) :: l) = ((if str_eqb n0 n && Nat.eqb p0 p then 1 else 0) + count_np n p l)%nat.
Proof.
  intros. unfold count_np. cbn [filter fst snd]. destruct (str_eqb n0 n && Nat.eqb p0 p); reflexivity.
Qed.

Lemma count_np_cons_same : forall n p a (l : list entry), count_np n p ((n, p, a) :: l) = S (count_np n p l).
Proof. intros. rewrite count_np_cons, str_eqb_refl, Nat.eqb_refl. reflexivity. Qed.

Lemma count_np_app : forall n p (l1 l2 : list entry),
  count_np n p (l1 ++ l2) = (count_np n p l1 + count_np n p l2)%nat.
Proof. intros. unfold count_np. rewrite filter_app, app_length. reflexivity. Qed.

Lemma count_np_zero : forall n p (l : list entry), (forall a, ~ In (n, p, a) l) -> count_np n p l = 0%nat.
Proof.
  intros n p. induction l as [|[[n0 p0] a0] l IH]; intros H; [reflexivity|].
  rewrite count_np_cons, IH by (intros a Hin; apply (H a); right; exact Hin).
  destruct (str_eqb n0 n && Nat.eqb p0 p) eqn:E; [|reflexivity].
  apply andb_true_iff in E. destruct E as [E1 E2]. apply str_eqb_eq in E1. apply Nat.eqb_eq in E2. subst.
  destruct (H a0). left. reflexivity.
Qed.

Lemma count_np_perm : forall n p (l l' : list entry), Permutation l l' -> count_np n p l = count_np n p l'.
Proof.
  intros n p l l' H. induction H as [|[[n0 p0] a0] l l' H IH|[[n0 p0] a0] [[n1 p1] a1] l|l l' l'' H1 IH1 H2 IH2].
  - reflexivity.
  - rewrite !count_np_cons, IH. reflexivity.
  - rewrite !count_np_cons. lia.
  - congruence.
Qed.

(* what finalize_templates' `component_sources` (tera.rs 585-619) may hold under the component name `n`
   once the definitions `done` have been visited: nothing if none of them is of `n`; else one of them,
   with the priority index of its template, every other visited definition of `n` having a strictly
   larger index (lower index = higher priority; a second definition at the index held is the
   "defined in both" error, not a table) *)
Definition entry_ok (done : list entry) (n : str) (o : option (A * nat)) : Prop :=
  match o with
  | None => forall p a, ~ In (n, p, a) done
  | Some (a, p) =>
      exists rest, Permutation done ((n, p, a) :: rest) /\ forall p' a', In (n, p', a') rest -> (p < p')%nat
  end.

Definition tbl_inv (done : list entry) (t : ctable A) : Prop :=
  forall n, entry_ok done n (ct_get t n).

Lemma entry_ok_perm : forall d d' n o, Permutation d d' -> entry_ok d n o -> entry_ok d' n o.
Proof.
  intros d d' n [[a p]|] P H.
  - destruct H as [rest [H1 H2]]. exists rest. split; [exact (perm_trans (Permutation_sym P) H1)|exact H2].
  - intros p a Hin. exact (H p a (Permutation_in _ (Permutation_sym P) Hin)).
Qed.

Lemma entry_ok_best : forall done n a p, entry_ok done n (Some (a, p)) ->
  In (n, p, a) done /\
  (forall p' a', In (n, p', a') done -> (p', a') = (p, a) \/ (p < p')%nat) /\
  count_np n p done = 1%nat.
Proof.
  intros done n a p [rest [P Hw]]. split; [|split].
  - exact (Permutation_in _ (Permutation_sym P) (or_introl eq_refl)).
  - intros p' a' Hin. destruct (Permutation_in _ P Hin) as [E|Hr]; [left; congruence|right; exact (Hw _ _ Hr)].
  - rewrite (count_np_perm n p _ _ P), count_np_cons_same, count_np_zero; [reflexivity|].
    intros a' Hr. specialize (Hw _ _ Hr). lia.
Qed.

Lemma entry_ok_unique : forall done n o o', entry_ok done n o -> entry_ok done n o' -> o = o'.
Proof.
  intros done n [[a p]|] [[a' p']|] I I'; [| | |reflexivity].
  - destruct (entry_ok_best _ _ _ _ I) as [H1 [H2 _]]. destruct (entry_ok_best _ _ _ _ I') as [H1' [H2' _]].
    destruct (H2 _ _ H1') as [E|L]; [congruence|]. destruct (H2' _ _ H1) as [E|L']; [congruence|lia].
  - destruct (entry_ok_best _ _ _ _ I) as [H1 _]. destruct (I' _ _ H1).
  - destruct (entry_ok_best _ _ _ _ I') as [H1 _]. destruct (I _ _ H1).
Qed.

Lemma entry_ok_keep : forall done n o n0 p0 a0,
  (n0 = n -> match o with Some (_, p) => (p < p0)%nat | None => False end) ->
  entry_ok done n o -> entry_ok ((n0, p0, a0) :: done) n o.
Proof.
  intros done n [[a p]|] n0 p0 a0 Hk H.
  - destruct H as [rest [P Hw]]. exists ((n0, p0, a0) :: rest).
    split; [exact (perm_trans (perm_skip _ P) (perm_swap _ _ _))|].
    intros p' a' [E|H']; [inversion E; subst; exact (Hk eq_refl)|exact (Hw _ _ H')].
  - intros p a [E|H']; [inversion E; subst; exact (Hk eq_refl)|exact (H _ _ H')].
Qed.

Lemma tbl_inv_insert : forall done t n0 p0 a0,
  tbl_inv done t -> (forall p' a', In (n0, p', a') done -> (p0 < p')%nat) ->
  tbl_inv ((n0, p0, a0) :: done) (ct_insert n0 (a0, p0) t).
Proof.
  intros done t n0 p0 a0 Hinv Hb n. rewrite ct_get_insert. destruct (str_eqb n0 n) eqn:En.
  - apply str_eqb_eq in En. subst n. exists done. split; [apply Permutation_refl|exact Hb].
  - apply entry_ok_keep; [intros E; apply str_eqb_neq in En; contradiction|apply Hinv].
Qed.

(* stated of the outcome, so that the induction over select_from also says which error a rejection is *)
Lemma select_step_inv : forall done t e,
  tbl_inv done t ->
  match select_step t e with ROk t' => tbl_inv (e :: done) t' | RErr x => x = ErrMsg end.
Proof.
  intros done t [[n0 p0] a0] Hinv. unfold select_step.
  pose proof (Hinv n0) as I0. destruct (ct_get t n0) as [[a1 p1]|] eqn:G.
  - destruct (entry_ok_best _ _ _ _ I0) as [_ [Hmin _]]. destruct (Nat.ltb_spec p0 p1) as [L1|L1].
    + apply tbl_inv_insert; [exact Hinv|].
      intros p' a' H'. destruct (Hmin _ _ H') as [E|L]; [inversion E|]; lia.
    + destruct (Nat.ltb_spec p1 p0) as [L2|L2]; [|reflexivity].
      intros n. apply entry_ok_keep; [intros E; subst n; rewrite G; exact L2|apply Hinv].
  - apply tbl_inv_insert; [exact Hinv|]. intros p' a' H'. destruct (I0 _ _ H').
Qed.

Lemma select_from_inv : forall l done t,
  tbl_inv done t ->
  match select_from l t with ROk t' => tbl_inv (l ++ done) t' | RErr x => x = ErrMsg end.
Proof.
  induction l as [|e l IH]; intros done t Hinv; cbn [select_from]; [exact Hinv|].
  assert (S := select_step_inv done t e Hinv). destruct (select_step t e) as [t1|]; [|exact S].
  specialize (IH _ _ S). destruct (select_from l t1); [|exact IH].
  intros n. exact (entry_ok_perm _ _ n _ (Permutation_sym (Permutation_middle _ _ _)) (IH n)).
Qed.

Lemma select_components_inv : forall l,
  match select_components l with ROk t => tbl_inv l t | RErr x => x = ErrMsg end.
Proof.
  intros l. assert (I := select_from_inv l [] [] (fun n p a H => H)). rewrite app_nil_r in I. exact I.
Qed.

Lemma priority_selection_ok : forall (l : list entry) (t : ctable A),
  select_components l = ROk t ->
  forall n,
    match ct_get t n with
    | Some (a, p) =>
        In (n, p, a) l /\ (forall p' a', In (n, p', a') l -> (p <= p')%nat) /\
        (forall a', In (n, p, a') l -> a' = a) /\ count_np n p l = 1%nat
    | None => forall p a, ~ In (n, p, a) l
    end.
Proof.
  intros l t H n. assert (I := select_components_inv l). rewrite H in I. specialize (I n).
  destruct (ct_get t n) as [[a p]|]; [|exact I].
  destruct (entry_ok_best _ _ _ _ I) as [H1 [H2 H3]]. split; [exact H1|]. split; [|split; [|exact H3]].
  - intros p' a' H'. destruct (H2 _ _ H') as [E|L]; [inversion E|]; lia.
  - intros a' H'. destruct (H2 _ _ H') as [E|L]; [congruence|lia].
Qed.

Lemma priority_order_independent : forall (l l' : list entry) (t t' : ctable A),
  Permutation l l' -> select_components l = ROk t -> select_components l' = ROk t' ->
  forall n, ct_get t n = ct_get t' n.
Proof.
  intros l l' t t' P H H' n. assert (I := select_components_inv l). assert (I' := select_components_inv l').
  rewrite H in I. rewrite H' in I'.
  exact (entry_ok_unique l n _ _ (I n) (entry_ok_perm _ _ n _ (Permutation_sym P) (I' n))).
Qed.

Lemma priority_duplicate_rejected : forall (l : list entry) n p a a' l1 l2 l3,
  l = l1 ++ (n, p, a) :: l2 ++ (n, p, a') :: l3 ->
  (forall p' x, In (n, p', x) l -> (p <= p')%nat) ->
  @select_components A l = RErr ErrMsg.
Proof.
  intros l n p a a' l1 l2 l3 E Hmin. assert (I := select_components_inv l).
  destruct (select_components l) as [t|e]; [|rewrite I; reflexivity].
  exfalso. specialize (I n). assert (Hin : In (n, p, a) l) by (subst l; apply in_elt).
  destruct (ct_get t n) as [[a0 p0]|]; [|apply (I _ _ Hin)].
  destruct (entry_ok_best _ _ _ _ I) as [H1 [H2 H3]].
  assert (p0 = p) by (specialize (Hmin _ _ H1); destruct (H2 _ _ Hin) as [X|X]; [congruence|lia]). subst p0.
  subst l. rewrite count_np_app, count_np_cons_same, count_np_app, count_np_cons_same in H3. lia.
Qed.

Lemma lookup_component_table : forall (t : ctable A) local n a p,
  ct_get t n = Some (a, p) -> lookup_component t local n = ROk a.
Proof. intros t local n a p H. unfold lookup_component. rewrite H. reflexivity. Qed.

Lemma lookup_component_fallback : forall (t : ctable A) local n,
  ct_get t n = None ->
  lookup_component t local n = match local_get local n with Some a => ROk a | None => RErr ErrPanic end.
Proof. intros t local n H. unfold lookup_component. rewrite H. reflexivity. Qed.

Lemma call_site_runs_best_priority : forall (l : list entry) (t : ctable A) local n p0 a0,
  select_components l = ROk t -> In (n, p0, a0) l ->
  exists a p, lookup_component t local n = ROk a /\ In (n, p, a) l /\
              (forall p' a', In (n, p', a') l -> (p <= p')%nat) /\ (forall a', In (n, p, a') l -> a' = a).
Proof.
  intros l t local n p0 a0 H Hin. assert (I := priority_selection_ok l t H n).
  destruct (ct_get t n) as [[a p]|] eqn:G.
  - destruct I as [H1 [H2 [H3 _]]]. exists a, p. unfold lookup_component. rewrite G. auto.
  - exfalso. apply (I _ _ Hin).
Qed.

End Prio.

(* Whether two equal-priority definitions SHADOWED by a better one are rejected depends on the visiting
   order (finalize_templates visits templates in sorted name order). *)
Lemma priority_rejection_depends_on_order :
  exists l l' : list (str * nat * nat),
    Permutation l l' /\ (exists t, select_components l = ROk t) /\ select_components l' = RErr ErrMsg.
Proof.
  exists [([88]%N, 0, 0); ([88]%N, 1, 1); ([88]%N, 1, 2)]%nat,
         [([88]%N, 1, 1); ([88]%N, 1, 2); ([88]%N, 0, 0)]%nat.
  split; [exact (Permutation_cons_append [_; _] _)|].
  split; [eexists; vm_compute; reflexivity|vm_compute; reflexivity].
Qed.

(* mirrors get_template_priority *)
Lemma priority_from_spec : forall prefixes name i0,
  match priority_from prefixes name i0 with
  | O => forall p, In p prefixes -> starts_with name p = false
  | S k => exists j p, k = (i0 + j)%nat /\ nth_error prefixes j = Some p /\ starts_with name p = true /\
                       forall j' p', (j' < j)%nat -> nth_error prefixes j' = Some p' -> starts_with name p' = false
  end.
Proof.
  induction prefixes as [|q t IH]; intros name i0; cbn [priority_from].
  - intros p [].
  - destruct (starts_with name q) eqn:E.
    + exists 0%nat, q. split; [lia|]. split; [reflexivity|]. split; [exact E|]. intros j' p' Hlt. lia.
    + specialize (IH name (S i0)). destruct (priority_from t name (S i0)) as [|k].
      * intros p [Hp|Hp]; [subst; exact E|apply IH; exact Hp].
      * destruct IH as [j [p [Ek [Hn [Hs Hb]]]]]. exists (S j), p. split; [lia|]. split; [exact Hn|].
        split; [exact Hs|]. intros [|j'] p' Hlt Hn'; cbn in Hn'.
        -- inversion Hn'; subst. exact E.
        -- apply (Hb j' p'); [lia|exact Hn'].
Qed.

Definition depth_of (st : list frame) : nat := match st with (_, d) :: _ => d | [] => 0%nat end.

(* what every frame of a reachable stack satisfies: its counter is the number of called-component
   frames from it downwards, within the limit, and only the API frame is a component beside them *)
Fixpoint wf_stack (api : bool) (st : list frame) : Prop :=
  match st with
  | [] => True
  | (_, d) :: rest =>
      d = live_calls st /\ (d <= max_depth)%nat /\
      live_components st = (d + (if api then 1 else 0))%nat /\ wf_stack api rest
  end.

(* render_component's check `depth > MAX` on the callee's counter, read from the caller's side *)
Lemma enter_component_spec : forall d,
  enter_component d = if (d <? max_depth)%nat then ROk (S d) else RErr ErrMsg.
Proof.
  intros d. unfold enter_component. rewrite Nat.add_1_r.
  destruct (Nat.ltb_spec d max_depth), (Nat.ltb_spec max_depth (S d)); try reflexivity; lia.
Qed.

Lemma step_wf : forall api st e st', wf_stack api st -> step st e = ROk st' -> wf_stack api st'.
Proof.
  intros api st e st' W H. destruct st as [|[k d] rest]; [discriminate|].
  pose proof W as [I1 [I2 [I3 W']]]. destruct e; cbn [step] in H.
  - rewrite enter_component_spec in H. destruct (d <? max_depth)%nat eqn:L; [|discriminate].
    inversion H; subst st'. apply Nat.ltb_lt in L. split; [|split; [|split; [|exact W]]].
    + exact (f_equal S I1).
    + lia.
    + exact (f_equal S I3).
  - inversion H; subst st'. exact (conj I1 (conj I2 (conj I3 W))).
  - inversion H; subst st'. exact W'.
Qed.

Lemma run_wf : forall api evs st st', wf_stack api st -> run st evs = ROk st' -> wf_stack api st'.
Proof.
  induction evs as [|e evs IH]; intros st st' W H; cbn [run] in H.
  - inversion H; subst. exact W.
  - destruct (step st e) as [st1|] eqn:S; [|discriminate]. eapply IH; [|exact H]. eapply step_wf; eassumption.
Qed.

Lemma depth_bounded_run : forall api evs st,
  run (init_stack api) evs = ROk st ->
  (live_calls st <= max_depth)%nat /\
  (live_components st <= max_depth + (if api then 1 else 0))%nat /\
  depth_of st = live_calls st.
Proof.
  intros api evs st H.
  assert (W : wf_stack api st) by (eapply run_wf; [|exact H]; destruct api; cbn; lia).
  destruct st as [|[k d] rest]; [cbn; lia|]. destruct W as [I1 [I2 [I3 _]]]. cbn [depth_of]. lia.
Qed.

Lemma call_at_limit : forall api evs st,
  run (init_stack api) evs = ROk st -> st <> [] ->
  step st ECall = if (live_calls st <? max_depth)%nat then ROk ((FComp, S (live_calls st)) :: st) else RErr ErrMsg.
Proof.
  intros api evs st H Hne. destruct (depth_bounded_run api evs st H) as [_ [_ I3]].
  destruct st as [|[k d] rest]; [contradiction|]. rewrite <- I3.
  cbn [step depth_of]. rewrite enter_component_spec. destruct (d <? max_depth)%nat; reflexivity.
Qed.

Lemma return_restores : forall f st, step (f :: st) EReturn = ROk st.
Proof. intros [k d] st. reflexivity. Qed.

Definition count_calls (evs : list event) : nat :=
  length (filter (fun e => match e with ECall => true | _ => false end) evs).
Definition no_return (evs : list event) : Prop := forall e, In e evs -> e <> EReturn.

Lemma nesting_over_limit_fails : forall evs k d rest,
  no_return evs -> (max_depth < d + count_calls evs)%nat -> (d <= max_depth)%nat ->
  run ((k, d) :: rest) evs = RErr ErrMsg.
Proof.
  induction evs as [|e evs IH]; intros k d rest Hnr Hlt Hd.
  - unfold count_calls in Hlt. cbn [filter length] in Hlt. lia.
  - assert (Hnr' : no_return evs) by (intros x Hx; apply Hnr; right; exact Hx).
    destruct e; cbn [run step].
    + rewrite enter_component_spec. destruct (d <? max_depth)%nat eqn:L; [|reflexivity].
      apply Nat.ltb_lt in L. apply IH; [exact Hnr'| |lia].
      change (count_calls (ECall :: evs)) with (S (count_calls evs)) in Hlt. lia.
    + apply IH; [exact Hnr'|exact Hlt|exact Hd].
    + exfalso. apply (Hnr EReturn); [left; reflexivity|reflexivity].
Qed.

Section Ext.
Variables g1 g2 : str -> option value.
Hypothesis Hg : forall k, g1 k = g2 k.

Lemma collect_unknown_ext : forall d keys rm u,
  collect_unknown d keys g1 rm u = collect_unknown d keys g2 rm u.
Proof.
  intros d. induction keys as [|k t IH]; intros rm u; cbn [collect_unknown]; [reflexivity|].
  destruct (declared d k); [apply IH|].
  destruct (def_rest d); [|apply IH].
  rewrite (Hg k). destruct (g2 k); [apply IH|reflexivity].
Qed.

Lemma bind_params_ext : forall ps c, bind_params ps g1 c = bind_params ps g2 c.
Proof.
  induction ps as [|p t IH]; intros c; cbn [bind_params]; [reflexivity|].
  rewrite (Hg (p_name p)). destruct (g2 (p_name p)) as [v|].
  - destruct (arg_type_matches p v); [apply IH|reflexivity].
  - destruct (p_default p); [apply IH|reflexivity].
Qed.

Lemma build_context_ext : forall d keys body, build_context d keys g1 body = build_context d keys g2 body.
Proof. intros. unfold build_context. rewrite collect_unknown_ext, bind_params_ext. reflexivity. Qed.

End Ext.

(* the kwargs map a call site builds from plain name=value attributes *)
Definition kwargs_of (o : bool) (s : ctx) : kmap := map (fun kv => (KStr (fst kv) o, snd kv)) s.

(* Required here and not at the head: what stands above is about Model/Component.v alone; only the
   call-site lemmas below speak of instructions and of `call_sites_ok` (Corr/CorrC05.v). *)
From TeraV Require Import Model.Instr Corr.CorrC05.

Lemma back_to_endcapture_cons : forall i t,
  back_to_endcapture (i :: t) = true ->
  i = EndCapture \/ (is_output_instr i = false /\ back_to_endcapture t = true).
Proof. intros i t H. destruct i; cbn in H; try discriminate H; auto. Qed.

Lemma body_sites_ok_cons : forall rp i t,
  body_sites_ok rp (i :: t) = true ->
  body_sites_ok (i :: rp) t = true /\ forall n, i = RenderBodyComponent n -> back_to_endcapture rp = true.
Proof.
  intros rp i t H. destruct i; cbn in H; try (split; [exact H|discriminate]).
  apply andb_true_iff in H. split; [apply H|intros _ _; apply H].
Qed.

Lemma captures_balanced_cons : forall i l,
  captures_balanced (i :: l) 0 = true -> i = Capture \/ captures_balanced l 0 = true.
Proof. intros i l H. destruct i; cbn in H; try discriminate H; auto. Qed.

Lemma back_to_endcapture_spec : forall l,
  back_to_endcapture (rev l) = true ->
  exists a b, l = a ++ EndCapture :: b /\ forall i, In i b -> is_output_instr i = false.
Proof.
  induction l as [|i l IH] using rev_ind; intros H; [discriminate|].
  rewrite rev_unit in H. destruct (back_to_endcapture_cons i (rev l) H) as [E|[Ho Hb]].
  - subst i. exists l, []. split; [reflexivity|intros i []].
  - destruct (IH Hb) as [a [b [El Hout]]]. exists a, (b ++ [i]).
    split; [rewrite El, <- app_assoc; reflexivity|].
    intros j Hj. apply in_app_or in Hj. destruct Hj as [Hj|[Hj|[]]]; [exact (Hout j Hj)|subst; exact Ho].
Qed.

Lemma body_sites_ok_spec : forall rest rp,
  body_sites_ok rp rest = true ->
  forall l1 n l2, rest = l1 ++ RenderBodyComponent n :: l2 -> back_to_endcapture (rev l1 ++ rp) = true.
Proof.
  induction rest as [|i rest IH]; intros rp H l1 n l2 E.
  - destruct l1; discriminate.
  - destruct (body_sites_ok_cons rp i rest H) as [Ht Hi]. destruct l1 as [|j l1]; cbn in E; inversion E; subst.
    + exact (Hi n eq_refl).
    + cbn [rev]. rewrite <- app_assoc. cbn [app]. eapply IH; [exact Ht|reflexivity].
Qed.

Lemma capture_before_endcapture : forall a b,
  captures_balanced (a ++ EndCapture :: b) 0 = true -> In Capture a.
Proof.
  induction a as [|i a IH]; intros b H.
  - cbn in H. discriminate.
  - destruct (captures_balanced_cons i _ H) as [E|H']; [left; exact E|right; exact (IH b H')].
Qed.

(* a call's body is compiled inline in the caller's chunk, between a Capture and its EndCapture;
   only expression instructions (the attribute map) stand between that and the call *)
Lemma call_sites_ok_spec : forall c,
  call_sites_ok c = true ->
  forall l1 n l2, map fst c = l1 ++ RenderBodyComponent n :: l2 ->
  exists a b, l1 = a ++ EndCapture :: b /\ (forall i, In i b -> is_output_instr i = false) /\ In Capture a.
Proof.
  intros c H l1 n l2 E. unfold call_sites_ok in H. apply andb_true_iff in H. destruct H as [Hb Hs].
  assert (B := body_sites_ok_spec _ _ Hs l1 n l2 E). rewrite app_nil_r in B.
  destruct (back_to_endcapture_spec l1 B) as [a [b [El Hout]]].
  exists a, b. split; [exact El|]. split; [exact Hout|].
  rewrite E, El, <- app_assoc in Hb. exact (capture_before_endcapture _ _ Hb).
Qed.

Fixpoint str_entries (m : kmap) : ctx :=
  match m with
  | [] => []
  | (KStr s _, v) :: t => (s, v) :: str_entries t
  | _ :: t => str_entries t
  end.

Lemma str_keys_entries : forall m, str_keys m = ctx_keys (str_entries m).
Proof.
  induction m as [|[k v] m IH]; [reflexivity|]. destruct k; cbn; [exact IH|exact IH|f_equal; exact IH].
Qed.

Lemma kw_get_entries : forall m k, kw_get m k = ctx_get (str_entries m) k.
Proof.
  unfold kw_get. induction m as [|[k0 v] m IH]; intros k; [reflexivity|].
  destruct k0 as [b|r z|s o]; cbn; [apply IH|apply IH|].
  destruct (str_eqb s k); [reflexivity|apply IH].
Qed.

Lemma vm_call_is_build_context_of : forall d m body,
  build_context d (str_keys m) (kw_get m) body = build_context_of d (str_entries m) body.
Proof.
  intros d m body. unfold build_context_of. rewrite str_keys_entries.
  apply build_context_ext, kw_get_entries.
Qed.

Lemma str_entries_kwargs_of : forall o s, str_entries (kwargs_of o s) = s.
Proof. intros o. induction s as [|[k v] s IH]; cbn; [reflexivity|]. f_equal. exact IH. Qed.

Lemma api_equals_call : forall (A : Type) d (ch : A) supplied body depth ovr ae o,
  match api_component_call d ch supplied body ae,
        vm_component_call d ch (VMap (kwargs_of o supplied)) (option_map (fun s => VStr s false) body) depth ovr with
  | ROk fa, ROk fv =>
      fr_ctx fa = fr_ctx fv /\ fr_chunk fa = fr_chunk fv /\
      fr_depth fa = 0%nat /\ fr_depth fv = S depth /\ fr_override fa = Some ae /\ fr_override fv = ovr
  | ROk _, RErr e => e = ErrMsg /\ (max_depth < S depth)%nat     (* only the depth check separates them *)
  | RErr ea, RErr ev => ea = ErrMsg /\ ev = ErrRender            (* the arguments were rejected *)
  | RErr _, ROk _ => False
  end.
Proof.
  intros A d ch supplied body depth ovr ae o. unfold api_component_call, vm_component_call.
  rewrite vm_call_is_build_context_of, str_entries_kwargs_of.
  set (b := option_map (fun s => VStr s true) body).
  replace (option_map mark_safe (option_map (fun s => VStr s false) body)) with b by (destruct body; reflexivity).
  fold (build_context_of d supplied b). destruct (build_context_of d supplied b) as [c|e] eqn:B.
  - cbn [wrap_err]. rewrite enter_component_spec. destruct (depth <? max_depth)%nat eqn:L.
    + cbn. repeat split; reflexivity.
    + split; [reflexivity|]. apply Nat.ltb_ge in L. lia.
  - apply build_context_of_err in B. subst e. cbn. split; reflexivity.
Qed.
