(* The token byte ranges of Model/Lexer.v and the slicing offsets of
   Model/LexerSlices.v describe the same run: every token of an accepted run starts at 0, at the
   end of the previous cut or at the end of the whitespace advance!, and ends where an advance!
   ended.  With Proofs/LexerBoundary.v: every token range lies on character boundaries. *)
From Coq Require Import Arith Lia List.
From TeraV Require Import Model.Value Model.Utf8Lex Model.Lexer Model.LexerSlices Spec.Doc
  Proofs.Utf8Proofs Proofs.WsFilterProofs Proofs.LexerProofs Proofs.LexerSpans Proofs.LexerBoundary.
From TeraV Require Spec.Utf8Chars Model.Report.
Local Open Scope nat_scope.

(* where the advance! calls of a token list end, from position o: after the blanks (if any) and
   after the token; written like inside_slices writes its own blank cut *)
Fixpoint tok_cuts (o : nat) (ts : list ptok) : list nat :=
  match ts with
  | [] => []
  | (_, pre, len) :: r =>
    (if Nat.eqb pre 0 then [] else [o + pre]) ++ (o + pre + len) :: tok_cuts (o + pre + len) r
  end.

Lemma tok_cuts_app : forall a b o, tok_cuts o (a ++ b) = tok_cuts o a ++ tok_cuts (o + consumed a) b.
Proof.
  induction a as [|[[t p] l] a IH]; intros b o; cbn [tok_cuts consumed app].
  - rewrite Nat.add_0_r. reflexivity.
  - rewrite IH, <- app_assoc. cbn [app]. do 4 f_equal. lia.
Qed.

Lemma offsets_tok_cuts : forall ts o s e, In (s, e) (offsets o ts) ->
  (s = o \/ In s (tok_cuts o ts)) /\ In e (tok_cuts o ts).
Proof.
  induction ts as [|[[t pre] len] r IH]; intros o s e H; [contradiction|].
  cbn [offsets tok_cuts] in *. rewrite !in_app_iff. cbn [In]. destruct H as [H|H].
  - injection H as <- <-. split; [|tauto].
    destruct (Nat.eqb_spec pre 0) as [->|]; [left; lia|right; left; left; reflexivity].
  - destruct (IH _ _ _ H) as [[->|H1] H2]; tauto.
Qed.

Lemma scan_inside_cuts : forall fuel e s o te,
  match scan_inside fuel e s with
  | IEnd toks w pre rest => incl (tok_cuts o (toks ++ [(te, pre, mlen w)])) (inside_slices fuel e s o)
  | IEof toks => incl (tok_cuts o toks) (inside_slices fuel e s o)
  | IErr => True
  end.
Proof.
  induction fuel as [|f IH]; intros e s o te; [exact I|]. cbn [scan_inside inside_slices].
  set (pre := length s - length (skip_ascii_ws s)).
  destruct (skip_ascii_ws s) as [|b0 t0] eqn:E1; [apply incl_nil_l|]. rewrite <- E1 in *.
  (* either end marker: one token, cut where the marker ends *)
  destruct ((b0 =? dash)%N && starts2 e t0); [|destruct (starts2 e (skip_ascii_ws s))].
  1, 2: cbn [app mlen tok_cuts]; apply incl_refl.
  destruct (inner_token (skip_ascii_ws s)) as [[t len]|] eqn:T; [|exact I].
  apply inner_token_spec in T as (_ & _ & T).
  specialize (IH e (skipn len (skip_ascii_ws s)) (o + pre + len) te).
  destruct (scan_inside f e (skipn len (skip_ascii_ws s))) as [toks w pre' rest|toks|];
    cbn [ires_cons app tok_cuts]; [| |exact I].
  (* the blank cut is the same list; the token's end is one of its own cuts; then the tail *)
  all: apply incl_app_app; [apply incl_refl|]; apply incl_cons; [|apply incl_appr, IH].
  all: apply in_or_app; left; apply in_map_iff; exists len; split; [reflexivity|exact T].
Qed.

Lemma raw_loop_adv_in : forall fuel dl rest bstart off w body we adv o,
  raw_loop fuel dl rest bstart off w = Some (body, we, adv) ->
  In (o + adv) (raw_slices fuel dl rest bstart off o).
Proof.
  induction fuel as [|f IH]; intros dl rest bstart off w body we adv o H; [discriminate|].
  cbn [raw_loop] in H. cbn [raw_slices].
  destruct (memstr (skipn off rest) (d_bs dl)) as [block|]; [|discriminate].
  destruct (skip_tag (skipn (off + block + 2) rest) name_endraw (d_be dl)) as [[en we']|].
  - inversion H; subst. right. right. right. right. left. reflexivity.
  - right. right. eapply IH. exact H.
Qed.

(* `k` / `ks` are the rest of the run and its cuts *)
Lemma inside_arm_cuts : forall o ts te ws e rest1 k ks pt,
  (forall r pt' o', k r = ROk pt' -> incl (tok_cuts o' pt') (ks r o')) ->
  inside_arm ts te ws e rest1 k = ROk pt ->
  incl (tok_cuts o pt)
    ((o + mlen ws) :: inside_slices (S (length rest1)) e rest1 (o + mlen ws) ++
     match scan_inside (S (length rest1)) e rest1 with
     | IEnd _ _ _ rest2 => ks rest2 (o + mlen ws + (length rest1 - length rest2))
     | _ => []
     end).
Proof.
  intros o ts te ws e rest1 k ks pt K H. unfold inside_arm in H.
  pose proof (scan_inside_spec (S (length rest1)) e rest1) as SC.
  pose proof (scan_inside_cuts (S (length rest1)) e rest1 (o + mlen ws)) as C.
  destruct (scan_inside (S (length rest1)) e rest1) as [toks w pre rest2|toks|]; [| |discriminate].
  - destruct SC as (_ & SC & SR).
    destruct (k rest2) as [pt2|] eqn:L2; [|discriminate]. injection H as <-.
    cbn [tok_cuts app Nat.eqb]. rewrite Nat.add_0_r, tok_cuts_app.
    apply incl_cons; [left; reflexivity|]. apply incl_tl, incl_app_app; [exact (C (te w))|].
    replace (length rest1 - length rest2) with (consumed (toks ++ [(te w, pre, mlen w)]))
      by (rewrite SR, skipn_length, consumed_app; cbn [consumed]; lia).
    apply K. exact L2.
  - injection H as <-. cbn [tok_cuts app Nat.eqb]. rewrite Nat.add_0_r, app_nil_r.
    apply incl_cons; [left; reflexivity|]. apply incl_tl. exact (C ts).
Qed.

Lemma lex_loop_cuts : forall fuel dl rest o pt,
  lex_loop fuel dl rest = ROk pt -> incl (tok_cuts o pt) (loop_slices fuel dl rest o).
Proof.
  induction fuel as [|f IH]; intros dl rest o pt H; [discriminate|].
  destruct rest as [|b0 rest0]; [inversion H; apply incl_nil_l|].
  set (rest := b0 :: rest0) in *.
  rewrite (lex_loop_S dl f rest _ _ ltac:(discriminate) (check_ws_start_eq rest)) in H.
  cbn [loop_slices]. fold rest. rewrite check_ws_start_eq.
  set (ws := byte_at_is rest 2 dash) in *. set (rest1 := skipn (mlen ws) rest) in *.
  assert (K : forall r pt' o', lex_loop f dl r = ROk pt' -> incl (tok_cuts o' pt') (loop_slices f dl r o'))
    by (intros; now apply IH).
  destruct (starts2 (d_vs dl) rest); [exact (inside_arm_cuts o _ _ ws _ rest1 _ _ pt K H)|].
  destruct (starts2 (d_bs dl) rest).
  { destruct (skip_tag rest1 name_raw (d_be dl)) as [[off w]|];
      [|exact (inside_arm_cuts o _ _ ws _ rest1 _ _ pt K H)].
    destruct (raw_loop (S (length rest1)) dl rest1 off off w) as [[[body we] adv]|] eqn:RL; [|discriminate].
    destruct (lex_loop f dl (skipn adv rest1)) as [pt2|] eqn:L2; [|discriminate]. injection H as <-.
    cbn [tok_cuts app Nat.eqb]. rewrite Nat.add_0_r, Nat.add_assoc. apply incl_cons.
    - right. apply in_or_app. left. eapply raw_loop_adv_in. exact RL.
    - apply incl_tl, incl_appr, K, L2. }
  destruct (starts2 (d_cs dl) rest).
  { destruct (memstr rest1 (d_ce dl)) as [ep|]; [|discriminate].
    destruct (lex_loop f dl (skipn (ep + 2) rest1)) as [pt2|] eqn:L2; [|discriminate]. injection H as <-.
    cbn [tok_cuts app Nat.eqb]. rewrite Nat.add_0_r, <- !Nat.add_assoc.
    apply incl_tl, incl_cons; [left; reflexivity|apply incl_tl, K, L2]. }
  destruct (find_start_marker dl rest) as [st|].
  - destruct (lex_loop f dl (skipn st rest)) as [pt2|] eqn:L2; [|discriminate]. injection H as <-.
    cbn [tok_cuts app Nat.eqb]. rewrite Nat.add_0_r.
    apply incl_cons; [left; reflexivity|apply incl_tl, K, L2].
  - injection H as <-. cbn [tok_cuts app Nat.eqb]. rewrite Nat.add_0_r. apply incl_refl.
Qed.

Theorem token_ranges_are_cuts : forall dl src pt s e,
  lex_ptoks dl src = ROk pt -> In (s, e) (offsets 0 pt) ->
  (s = 0 \/ In s (slice_offsets dl src)) /\ In e (slice_offsets dl src).
Proof.
  intros dl src pt s e L H. apply lex_loop_cuts with (o := 0) in L.
  destruct (offsets_tok_cuts _ _ _ _ H) as [[->|H1] H2].
  - split; [left; reflexivity|apply L, H2].
  - split; [right; apply L, H1|apply L, H2].
Qed.

Theorem token_ranges_on_boundaries : forall dl src pt s e,
  validate dl = ROk tt -> delims_utf8 dl -> Utf8Chars.valid_utf8 src ->
  lex_ptoks dl src = ROk pt -> In (s, e) (offsets 0 pt) ->
  Report.is_char_boundary src s = true /\ Report.is_char_boundary src e = true.
Proof.
  intros dl src pt s e V U Vs L H.
  destruct (token_ranges_are_cuts dl src pt s e L H) as [[->|H1] H2].
  - split; [reflexivity|]. eapply slice_offsets_on_boundaries; eauto.
  - split; eapply slice_offsets_on_boundaries; eauto.
Qed.
