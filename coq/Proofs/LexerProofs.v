(* Byte-level scanning lemmas for Model/Lexer.v and the read-back theorem: the lexer model cuts
   `print d doc` exactly at the item boundaries of a well-formed document, for every accepted
   delimiter set.
   Each scanner is restated as one equation over a small helper that names its case split
   (strip_dash, end_marker, inside_arm); the two searches for a 2-byte window, memstr and
   find_start_marker, are characterised as `least`: the first position with a property. Proofs
   rewrite with these rather than unfold the scanners.  lex_string_spec and inner_token_spec also
   say which offsets of Model/LexerSlices.v a token cuts; that clause is for LexerBoundary (C06). *)
From Coq Require Import Arith.
From TeraV Require Import Model.Value Model.Utf8Lex Model.Lexer Model.LexerSlices Spec.Doc Model.LexerDoc
  Proofs.ListFacts Proofs.Utf8Proofs Proofs.WsFilterProofs.
From TeraV Require Proofs.ReportProofs.
Local Open Scope nat_scope.

Lemma skipn_app_r : forall (A : Type) (a b : list A) n, skipn (length a + n) (a ++ b) = skipn n b.
Proof.
  intros A a b n. rewrite skipn_app, skipn_all2 by lia. cbn [app]. f_equal. lia.
Qed.

Lemma firstn_app_l : forall (A : Type) (a b : list A), firstn (length a) (a ++ b) = a.
Proof. exact ReportProofs.firstn_app_exact. Qed.

Lemma app_len2_nonnil : forall (x y : bytes), length x = 2 -> x ++ y <> [].
Proof. intros [|a x] y H; discriminate. Qed.

Lemma window_app_l : forall a b p, p + 2 <= length a -> window (a ++ b) p = window a p.
Proof.
  intros a b p H. unfold window. rewrite skipn_app.
  replace (p - length a) with 0 by lia. cbn [skipn].
  rewrite firstn_app. rewrite skipn_length.
  replace (2 - (length a - p)) with 0 by lia. cbn [firstn]. now rewrite app_nil_r.
Qed.

Lemma window_app_r0 : forall a b, window (a ++ b) (length a) = window b 0.
Proof. intros a b. unfold window. now rewrite ReportProofs.skipn_app_exact. Qed.

Lemma window_skipn : forall s o p, window (skipn o s) p = window s (p + o).
Proof. intros. unfold window. now rewrite skipn_skipn. Qed.

Lemma window_len2 : forall x y, length x = 2 -> window (x ++ y) 0 = x.
Proof. intros [|a [|b [|c x]]] y H; try discriminate. reflexivity. Qed.

Lemma window_length : forall s p, length (window s p) <= 2.
Proof. intros. unfold window. rewrite firstn_length. lia. Qed.

Lemma window_full : forall s p x, length x = 2 -> window s p = x -> p + 2 <= length s.
Proof.
  intros s p x Hx W. apply (f_equal (@length _)) in W. unfold window in W.
  rewrite firstn_length, skipn_length in W. lia.
Qed.

Lemma window_nth : forall s m a1 a2, window s m = [a1; a2] ->
  nth_error s m = Some a1 /\ nth_error s (m + 1) = Some a2.
Proof.
  intros s m a1 a2 W. unfold window in W.
  rewrite <- (Nat.add_0_r m) at 1. rewrite <- !nth_error_skipn.
  destruct (skipn m s) as [|x [|y r]]; try discriminate. inversion W; subst. split; reflexivity.
Qed.

Lemma starts2_window : forall x s, length x = 2 -> (starts2 x s = true <-> window s 0 = x).
Proof.
  intros x s Hx. destruct s as [|b1 [|b2 t]]; cbn.
  1,2: split; [discriminate|]; intro E; subst; discriminate.
  unfold window. cbn. apply (bytes_eqb_eq [b1; b2] x).
Qed.

Lemma starts2_false : forall x s, length x = 2 -> window s 0 <> x -> starts2 x s = false.
Proof.
  intros x s Hx H. destruct (starts2 x s) eqn:E; [|reflexivity].
  apply starts2_window in E; [contradiction|exact Hx].
Qed.

Lemma starts2_app_same : forall x y, length x = 2 -> starts2 x (x ++ y) = true.
Proof. intros x y H. apply starts2_window; [exact H|]. now apply window_len2. Qed.

Lemma starts2_app_diff : forall a x y, length a = 2 -> length x = 2 -> a <> x -> starts2 x (a ++ y) = false.
Proof. intros a x y Ha Hx N. apply starts2_false; [exact Hx|]. rewrite window_len2; assumption. Qed.


Definition least (Q : nat -> Prop) (r : option nat) : Prop :=
  match r with
  | Some n => Q n /\ forall p, p < n -> ~ Q p
  | None => forall p, ~ Q p
  end.

Lemma least_step : forall (Q : nat -> Prop) r, ~ Q 0 -> least (fun p => Q (S p)) r -> least Q (option_map S r).
Proof.
  intros Q [n|] H0 H; cbn in *.
  - split; [apply H|]. intros [|p] Hp; [exact H0|apply H; lia].
  - intros [|p]; [exact H0|apply H].
Qed.

Lemma least_first : forall Q r n, least Q r -> Q n -> (forall p, p < n -> ~ Q p) -> r = Some n.
Proof.
  intros Q [m|] n H Qn N; cbn in H; [|destruct (H n Qn)]. f_equal.
  destruct (Nat.lt_trichotomy m n) as [L|[E|L]]; [destruct (N m L); apply H|exact E|destruct (proj2 H n L Qn)].
Qed.

Lemma least_le : forall Q r n, least Q r -> Q n -> exists m, m <= n /\ r = Some m.
Proof.
  intros Q [m|] n H Qn; cbn in H; [|destruct (H n Qn)]. exists m. split; [|reflexivity].
  destruct (Nat.le_gt_cases m n) as [L|L]; [exact L|destruct (proj2 H n L Qn)].
Qed.

Lemma memstr_least : forall x s, length x = 2 -> least (fun p => window s p = x) (memstr s x).
Proof.
  intros x s Hx. induction s as [|b t IH]; cbn [memstr].
  - intros p W. unfold window in W. rewrite skipn_nil in W. subst x. discriminate.
  - unfold starts_with. rewrite Hx. destruct (bytes_eqb_spec (firstn 2 (b :: t)) x) as [E|E].
    + split; [exact E|]. intros p Hp. lia.
    + apply least_step; [exact E|exact IH].
Qed.

Lemma memstr_sound : forall x s m, length x = 2 -> memstr s x = Some m -> window s m = x.
Proof. intros x s m Hx M. pose proof (memstr_least x s Hx) as L. rewrite M in L. apply L. Qed.

Lemma memstr_bound : forall x s m, length x = 2 -> memstr s x = Some m -> m + 2 <= length s.
Proof. intros x s m Hx M. exact (window_full s m x Hx (memstr_sound x s m Hx M)). Qed.


Lemma skip_ascii_ws_split : forall s, exists w, s = w ++ skip_ascii_ws s /\ all_ascii_ws w.
Proof.
  induction s as [|b t IH]; [exists []; split; [reflexivity|constructor]|].
  cbn [skip_ascii_ws]. destruct (is_ascii_ws b) eqn:E.
  - destruct IH as [w [H1 H2]]. exists (b :: w). split; [cbn; now f_equal|constructor; assumption].
  - exists []. split; [reflexivity|constructor].
Qed.

Lemma strip_prefix_sound : forall p s r, strip_prefix p s = Some r -> s = p ++ r.
Proof.
  intros p s r H. unfold strip_prefix, starts_with in H.
  destruct (bytes_eqb (firstn (length p) s) p) eqn:E; [|discriminate]. inversion H; subst.
  apply bytes_eqb_eq in E. rewrite <- E at 1. symmetry. apply firstn_skipn.
Qed.

Lemma strip_prefix_app : forall p r, strip_prefix p (p ++ r) = Some r.
Proof.
  intros p r. unfold strip_prefix, starts_with. now rewrite firstn_app_l, bytes_eqb_refl, ReportProofs.skipn_app_exact.
Qed.

Definition strip_dash (s : bytes) : bool * bytes :=
  match s with
  | b :: t => if (b =? dash)%N then (true, t) else (false, s)
  | [] => (false, s)
  end.

Lemma skip_tag_eq : forall s name e, skip_tag s name e =
  match strip_prefix name (skip_ascii_ws (snd (strip_dash s))) with
  | None => None
  | Some p2 =>
    let '(ow, p4) := strip_dash (skip_ascii_ws p2) in
    match strip_prefix e p4 with
    | None => None
    | Some p5 => Some (length s - length p5, ow)
    end
  end.
Proof.
  intros [|b t] name e; [reflexivity|]. unfold skip_tag, strip_dash. destruct (b =? dash)%N; reflexivity.
Qed.

Lemma strip_dash_sound : forall s, s = mk (fst (strip_dash s)) ++ snd (strip_dash s).
Proof.
  intros [|b t]; [reflexivity|]. unfold strip_dash.
  destruct (b =? dash)%N eqn:E; [apply N.eqb_eq in E; subst b|]; reflexivity.
Qed.

Lemma strip_dash_mk : forall m (y : bytes), (m = false -> no_dash_first y) -> strip_dash (mk m ++ y) = (m, y).
Proof.
  intros [|] y H; [reflexivity|]. destruct y as [|b y]; [reflexivity|].
  cbn in *. apply N.eqb_neq in H; [|reflexivity]. now rewrite H.
Qed.

Lemma skip_tag_inv : forall s name e n o, skip_tag s name e = Some (n, o) ->
  exists m1 w1 w2 rest, s = mk m1 ++ w1 ++ name ++ w2 ++ mk o ++ e ++ rest
    /\ all_ascii_ws w1 /\ all_ascii_ws w2 /\ n + length rest = length s.
Proof.
  intros s name e n o H. rewrite skip_tag_eq in H.
  pose proof (strip_dash_sound s) as H0. destruct (strip_dash s) as [m1 p0]. cbn [fst snd] in *.
  destruct (skip_ascii_ws_split p0) as [w1 [H1 A1]].
  destruct (strip_prefix name (skip_ascii_ws p0)) as [p2|] eqn:S1; [|discriminate].
  apply strip_prefix_sound in S1.
  destruct (skip_ascii_ws_split p2) as [w2 [H2 A2]].
  pose proof (strip_dash_sound (skip_ascii_ws p2)) as H3.
  destruct (strip_dash (skip_ascii_ws p2)) as [ow p4]. cbn [fst snd] in H3.
  destruct (strip_prefix e p4) as [p5|] eqn:S2; [|discriminate].
  apply strip_prefix_sound in S2. injection H as <- <-.
  assert (E : s = mk m1 ++ w1 ++ name ++ w2 ++ mk ow ++ e ++ p5)
    by (rewrite H0, H1, S1, H2, H3, S2; reflexivity).
  exists m1, w1, w2, p5. split; [exact E|]. split; [exact A1|]. split; [exact A2|].
  rewrite E, !app_length. lia.
Qed.

Lemma skip_tag_sound : forall s name e n o, skip_tag s name e = Some (n, o) -> tag_named name e s.
Proof.
  intros s name e n o H. destruct (skip_tag_inv _ _ _ _ _ H) as (m1 & w1 & w2 & rest & E & A1 & A2 & _).
  now exists m1, w1, w2, o, rest.
Qed.

Lemma no_dash_first_app : forall a b, a <> [] -> no_dash_first a -> no_dash_first (a ++ b).
Proof. intros [|x a] b N H; [contradiction|exact H]. Qed.

Definition head_not_ws (s : bytes) : Prop :=
  match s with b :: _ => is_ascii_ws b = false | [] => True end.

Lemma skip_ascii_ws_app : forall w s, all_ascii_ws w -> head_not_ws s -> skip_ascii_ws (w ++ s) = s.
Proof.
  induction w as [|b w IH]; intros s A Hs.
  - destruct s as [|c s]; [reflexivity|]. cbn in *. now rewrite Hs.
  - inversion A; subst. cbn. rewrite H1. now apply IH.
Qed.

Lemma skip_tag_complete : forall m1 w1 name w2 m2 e rest,
  all_ascii_ws w1 -> all_ascii_ws w2 ->
  (m1 = false -> no_dash_first (w1 ++ name)) -> head_not_ws name -> name <> [] ->
  (m2 = false -> plain_first e) -> e <> [] ->
  skip_tag (mk m1 ++ w1 ++ name ++ w2 ++ mk m2 ++ e ++ rest) name e
  = Some (length (mk m1 ++ w1 ++ name ++ w2 ++ mk m2 ++ e), m2).
Proof.
  intros m1 w1 name w2 m2 e rest A1 A2 D1 Hn Nn P2 Ne. rewrite skip_tag_eq.
  rewrite strip_dash_mk. cbn [snd].
  2:{ intro E. specialize (D1 E). rewrite app_assoc. apply no_dash_first_app; [|exact D1].
      destruct w1; [cbn; exact Nn|discriminate]. }
  rewrite skip_ascii_ws_app; [|exact A1|destruct name; [contradiction|exact Hn]].
  rewrite strip_prefix_app.
  rewrite skip_ascii_ws_app; [|exact A2|].
  2:{ destruct m2; [reflexivity|]. cbn [mk app]. destruct e as [|c e]; [contradiction|].
      exact (proj2 (P2 eq_refl)). }
  rewrite strip_dash_mk.
  2:{ intro E. destruct e as [|c e]; [contradiction|]. exact (proj1 (P2 E)). }
  rewrite strip_prefix_app. f_equal. f_equal. rewrite !app_length. lia.
Qed.

Lemma all_ws_sp : all_ascii_ws sp.
Proof. repeat constructor. Qed.

Lemma skip_tag_close : forall e ir r X, length e = 2 -> (r = false -> plain_first e) ->
  skip_tag (mk ir ++ sp ++ kw_endraw ++ sp ++ mk r ++ e ++ X) name_endraw e
  = Some (length (mk ir ++ sp ++ kw_endraw ++ sp ++ mk r ++ e), r).
Proof.
  intros e ir r X Le P. change name_endraw with kw_endraw.
  apply skip_tag_complete; try exact all_ws_sp; try assumption.
  - intros _. cbn. discriminate.
  - reflexivity.
  - discriminate.
  - intros ->. discriminate.
Qed.

Lemma skip_tag_open : forall e il X, length e = 2 -> (il = false -> plain_first e) ->
  skip_tag (sp ++ kw_raw ++ sp ++ mk il ++ e ++ X) name_raw e
  = Some (length (sp ++ kw_raw ++ sp ++ mk il ++ e), il).
Proof.
  intros e il X Le P. change name_raw with kw_raw.
  apply (skip_tag_complete false sp kw_raw sp il e X); try exact all_ws_sp; try assumption.
  - intros _. cbn. discriminate.
  - reflexivity.
  - discriminate.
  - intros ->. discriminate.
Qed.


Lemma check_ws_start_eq : forall rest,
  check_ws_start rest = (byte_at_is rest 2 dash, skipn (mlen (byte_at_is rest 2 dash)) rest).
Proof.
  intro rest. unfold check_ws_start, byte_at_is.
  destruct (nth_error rest 2) as [b|]; [destruct (b =? dash)%N|]; reflexivity.
Qed.

Lemma check_ws_start_mk : forall X l y, length X = 2 -> (l = false -> no_dash_first y) ->
  check_ws_start (X ++ mk l ++ y) = (l, y).
Proof.
  intros [|x1 [|x2 [|x3 X]]] l y HX H; try discriminate.
  destruct l; unfold check_ws_start; cbn.
  - reflexivity.
  - destruct y as [|b y]; [reflexivity|]. cbn in H. specialize (H eq_refl).
    apply N.eqb_neq in H. now rewrite H.
Qed.

Lemma byte_at_is_lt : forall s i b, byte_at_is s i b = true -> i < length s.
Proof.
  intros s i b H. unfold byte_at_is in H. destruct (nth_error s i) eqn:E; [|discriminate].
  apply nth_error_Some. congruence.
Qed.

Lemma starts2_len : forall d s, starts2 d s = true -> 2 <= length s.
Proof. intros d [|a [|b s]] H; try discriminate. cbn. lia. Qed.

Lemma ws_start_len : forall d rest, starts2 d rest = true -> mlen (byte_at_is rest 2 dash) <= length rest.
Proof.
  intros d rest H. apply starts2_len in H. destruct (byte_at_is rest 2 dash) eqn:B; [|exact H].
  apply byte_at_is_lt in B. exact B.
Qed.


Lemma skip_ascii_ws_len : forall s, length (skip_ascii_ws s) <= length s.
Proof. intro s. destruct (skip_ascii_ws_split s) as (w & E & _). rewrite E at 2. rewrite app_length. lia. Qed.

Lemma skip_ascii_ws_skipn : forall s,
  skip_ascii_ws s = skipn (length s - length (skip_ascii_ws s)) s.
Proof.
  intro s. destruct (skip_ascii_ws_split s) as (w & E & _).
  remember (skip_ascii_ws s) as r eqn:Hr. clear Hr. subst s. rewrite app_length.
  replace (length w + length r - length r) with (length w) by lia.
  rewrite ReportProofs.skipn_app_exact. reflexivity.
Qed.

Lemma num_scan_len : forall s f, fst (num_scan s f) <= length s.
Proof.
  induction s as [|c t IH]; intro f; [apply Nat.le_refl|]. cbn [num_scan].
  destruct (negb f && (c =? 46)%N).
  - specialize (IH true). destruct (num_scan t true). cbn in *. lia.
  - destruct (is_ascii_digit c); [|cbn; lia].
    specialize (IH f). destruct (num_scan t f). cbn in *. lia.
Qed.

Lemma ident_scan_len : forall s f, ident_scan s f <= length s.
Proof.
  induction s as [|c t IH]; intro f; [apply Nat.le_refl|]. cbn [ident_scan].
  destruct ((c =? 95)%N || (if f then is_ascii_alpha c else is_ascii_alnum c)); cbn; [|lia].
  specialize (IH false). lia.
Qed.

Lemma lex_string_spec : forall s q t n, lex_string s q = Some (t, n) ->
  is_template_tok t = false /\ 1 <= n <= length s /\
  In n (let '(k, _) := str_scan (tl s) q false in
        if negb (byte_at_is s (k + 1) q) then [] else [k + 2; 1; k + 1]).
Proof.
  intros s q t n H. unfold lex_string in H.
  destruct (str_scan (tl s) q false) as [k h].
  destruct (byte_at_is s (k + 1) q) eqn:B; [|discriminate]. apply byte_at_is_lt in B. cbn [negb] in *.
  destruct h; [destruct (unescape _); [|discriminate]|]; injection H as <- <-;
    (split; [reflexivity|split; [lia|left; reflexivity]]).
Qed.

Lemma lex_number_spec : forall b s t n, is_ascii_digit b = true -> lex_number (b :: s) = Some (t, n) ->
  is_template_tok t = false /\ 1 <= n <= length (b :: s) /\ n = fst (num_scan (b :: s) false).
Proof.
  intros b s t n D H. unfold lex_number in H. pose proof (num_scan_len (b :: s) false) as L.
  assert (P : 1 <= fst (num_scan (b :: s) false)).
  { cbn [num_scan negb andb].
    destruct (b =? 46)%N; [destruct (num_scan s true); cbn; lia|].
    rewrite D. destruct (num_scan s false); cbn; lia. }
  destruct (num_scan (b :: s) false) as [k f]. cbn [fst] in *.
  destruct f; [|destruct (_ <=? _)%Z; [|discriminate]]; injection H as <- <-;
    (split; [reflexivity|split; [split; [exact P|exact L]|reflexivity]]).
Qed.

Lemma inner_token_spec : forall s t n, inner_token s = Some (t, n) ->
  is_template_tok t = false /\ 1 <= n <= length s /\ In n (inner_slices s).
Proof.
  intros s t n H. unfold inner_token in H. unfold inner_slices.
  destruct s as [|b1 t1]; [discriminate|].
  destruct (starts_with _ _) eqn:SW.
  { injection H as <- <-. split; [reflexivity|]. split; [|left; reflexivity].
    unfold starts_with in SW. apply bytes_eqb_eq in SW.
    apply (f_equal (@length _)) in SW. rewrite firstn_length in SW. cbn [length] in *. lia. }
  destruct (match t1 with b2 :: _ => op2_of b1 b2 | [] => None end) eqn:O2.
  { injection H as <- <-. destruct t1; [discriminate|]. cbn. split; [reflexivity|split; [lia|left; reflexivity]]. }
  destruct (op1_of b1); [injection H as <- <-; cbn; split; [reflexivity|split; [lia|left; reflexivity]]|].
  destruct (is_quote b1); [exact (lex_string_spec _ _ _ _ H)|].
  destruct (is_ascii_digit b1) eqn:D.
  { destruct (lex_number_spec _ _ _ _ D H) as (T & L & ->). split; [exact T|split; [exact L|left; reflexivity]]. }
  pose proof (ident_scan_len (b1 :: t1) true) as L.
  destruct (ident_scan (b1 :: t1) true) as [|k]; [discriminate|].
  destruct (_ || _); [|destruct (_ || _)]; injection H as <- <-;
    (split; [reflexivity|split; [lia|left; reflexivity]]).
Qed.


(* the two end-delimiter tests of State::Variable | State::Tag: `-` + end delimiter first *)
Definition end_marker (e r : bytes) : option bool :=
  match r with
  | b0 :: t0 => if (b0 =? dash)%N && starts2 e t0 then Some true
                else if starts2 e r then Some false else None
  | [] => None
  end.

Lemma scan_inside_eof : forall f e s, skip_ascii_ws s = [] -> scan_inside (S f) e s = IEof [].
Proof. intros f e s E. cbn [scan_inside]. now rewrite E. Qed.

Lemma scan_inside_S : forall f e s r, skip_ascii_ws s = r -> r <> [] ->
  scan_inside (S f) e s =
    match end_marker e r with
    | Some w => IEnd [] w (length s - length r) (skipn (mlen w) r)
    | None => match inner_token r with
              | None => IErr
              | Some (t, len) => ires_cons (t, length s - length r, len) (scan_inside f e (skipn len r))
              end
    end.
Proof.
  intros f e s r <- N. cbn [scan_inside]. destruct (skip_ascii_ws s) as [|b0 t0]; [contradiction|].
  unfold end_marker. destruct (_ && _); [reflexivity|]. destruct (starts2 _ _); reflexivity.
Qed.

Lemma end_marker_len : forall e r w, end_marker e r = Some w -> mlen w <= length r.
Proof.
  intros e [|b0 t0] w H; [discriminate|]. cbn [end_marker] in H.
  destruct (_ && _) eqn:D.
  - injection H as <-. apply andb_true_iff in D as [_ D]. apply starts2_len in D. cbn [mlen length]. lia.
  - destruct (starts2 e (b0 :: t0)) eqn:D2; [|discriminate]. injection H as <-. exact (starts2_len _ _ D2).
Qed.

Fixpoint consumed (ts : list ptok) : nat :=
  match ts with [] => 0 | (_, pre, len) :: r => pre + len + consumed r end.

Lemma consumed_app : forall a b, consumed (a ++ b) = consumed a + consumed b.
Proof. induction a as [|[[t p] l] a IH]; intro b; cbn; [reflexivity|]. rewrite IH. lia. Qed.

Definition all_inner (toks : list ptok) : Prop := filter is_template_tok (map tok_of toks) = [].

Lemma scan_inside_spec : forall fuel e s,
  match scan_inside fuel e s with
  | IEnd toks w pre rest =>
      all_inner toks /\ consumed toks + pre + mlen w <= length s
      /\ rest = skipn (consumed toks + pre + mlen w) s
  | IEof toks => consumed toks <= length s
  | IErr => True
  end.
Proof.
  induction fuel as [|f IH]; intros e s; [exact I|].
  pose proof (skip_ascii_ws_skipn s) as SK. pose proof (skip_ascii_ws_len s) as SL.
  destruct (skip_ascii_ws s) as [|b0 t0] eqn:E; [rewrite (scan_inside_eof f e s E); cbn; lia|].
  rewrite (scan_inside_S f e s _ E) by discriminate.
  set (r := b0 :: t0) in *. set (pre := length s - length r) in *.
  destruct (end_marker e r) as [w|] eqn:M.
  { apply end_marker_len in M. cbn [consumed]. split; [reflexivity|]. split; [lia|].
    rewrite SK, skipn_skipn. f_equal. lia. }
  destruct (inner_token r) as [[t len]|] eqn:T; [|exact I].
  apply inner_token_spec in T. destruct T as [T0 T1].
  specialize (IH e (skipn len r)). rewrite skipn_length in IH.
  destruct (scan_inside f e (skipn len r)) as [toks w pre' rest|toks|]; cbn [ires_cons consumed];
    [| lia | exact I].
  destruct IH as (A & L & R). split; [|split; [lia|]].
  - unfold all_inner. cbn [map filter tok_of fst]. now rewrite T0.
  - rewrite R, SK, !skipn_skipn. f_equal. lia.
Qed.

Lemma wrap_ok : forall t1 toks t2 pt',
  all_inner toks -> is_open (tok_of t1) = true -> is_template_tok (tok_of t1) = true ->
  is_template_tok (tok_of t2) = true -> is_open (tok_of t2) = false ->
  inner_placed false (map tok_of pt') = true ->
  filter is_template_tok (map tok_of ((t1 :: toks ++ [t2]) ++ pt'))
    = tok_of t1 :: tok_of t2 :: filter is_template_tok (map tok_of pt')
  /\ inner_placed false (map tok_of ((t1 :: toks ++ [t2]) ++ pt')) = true.
Proof.
  intros t1 toks t2 pt' A O1 T1 T2 O2 P. unfold all_inner in A.
  rewrite <- app_comm_cons, map_cons. cbn [filter inner_placed]. rewrite T1, O1. split.
  - f_equal. rewrite !map_app, !filter_app, A. cbn [app map filter]. now rewrite T2.
  - rewrite <- app_assoc. induction toks as [|t toks IH].
    + cbn [app map inner_placed]. now rewrite T2, O2.
    + cbn [map filter] in A. destruct (is_template_tok (tok_of t)) eqn:E; [discriminate|].
      cbn [app map inner_placed]. rewrite E. apply IH. exact A.
Qed.


(* what `{{` and a non-raw `{%` do alike: the interior up to the end delimiter, then on with `k` *)
Definition inside_arm (ts : tok) (te : bool -> tok) (ws : bool) (e rest1 : bytes)
    (k : bytes -> res (list ptok)) : res (list ptok) :=
  match scan_inside (S (length rest1)) e rest1 with
  | IEnd toks w pre rest2 => res_cons ((ts, 0, mlen ws) :: toks ++ [(te w, pre, mlen w)]) (k rest2)
  | IEof toks => ROk ((ts, 0, mlen ws) :: toks)
  | IErr => RErr ErrOther
  end.

Section LoopSteps.
  Variable dl : delims.

  Lemma lex_loop_nil : forall f, lex_loop (S f) dl [] = ROk [].
  Proof. reflexivity. Qed.

  Lemma lex_loop_S : forall f rest ws rest1, rest <> [] -> check_ws_start rest = (ws, rest1) ->
    lex_loop (S f) dl rest =
      if starts2 (d_vs dl) rest then inside_arm (TVarStart ws) TVarEnd ws (d_ve dl) rest1 (lex_loop f dl)
      else if starts2 (d_bs dl) rest then
        match skip_tag rest1 name_raw (d_be dl) with
        | Some (offset, il) =>
          match raw_loop (S (length rest1)) dl rest1 offset offset il with
          | Some (result, ws_end, adv) =>
            res_cons [(TRaw ws result ws_end, 0, mlen ws + adv)] (lex_loop f dl (skipn adv rest1))
          | None => RErr ErrOther
          end
        | None => inside_arm (TTagStart ws) TTagEnd ws (d_be dl) rest1 (lex_loop f dl)
        end
      else if starts2 (d_cs dl) rest then
        match memstr rest1 (d_ce dl) with
        | Some end_pos =>
          res_cons [(TComment ws (match end_pos with O => false | S p => byte_at_is rest1 p dash end),
                     0, mlen ws + end_pos + 2)]
                   (lex_loop f dl (skipn (end_pos + 2) rest1))
        | None => RErr ErrOther
        end
      else
        match find_start_marker dl rest with
        | Some start => res_cons [(TContent (firstn start rest), 0, start)] (lex_loop f dl (skipn start rest))
        | None => ROk [(TContent rest, 0, length rest)]
        end.
  Proof.
    intros f [|b rest] ws rest1 N CW; [contradiction|]. cbn [lex_loop]. rewrite CW. reflexivity.
  Qed.
End LoopSteps.

Lemma scan_inside_inner : forall fuel e s toks w pre rest,
  scan_inside fuel e s = IEnd toks w pre rest -> all_inner toks.
Proof.
  intros fuel e s toks w pre rest H. pose proof (scan_inside_spec fuel e s) as S. rewrite H in S.
  exact (proj1 S).
Qed.


Lemma last_not_dash : forall body x, length body = S x -> no_dash_last body ->
  forall y, byte_at_is (body ++ y) x dash = false.
Proof.
  intros body x L N y. destruct (exists_last (l := body)) as [b' [c E]]; [destruct body; discriminate|].
  subst body. rewrite app_length in L. cbn in L.
  unfold no_dash_last in N. rewrite rev_unit in N. cbn in N.
  unfold byte_at_is. rewrite <- app_assoc. rewrite nth_error_app2 by lia.
  replace (x - length b') with 0 by lia. cbn. now apply N.eqb_neq.
Qed.

Lemma skipn_len2 : forall (x y : bytes), length x = 2 -> skipn 2 (x ++ y) = y.
Proof. intros x y H. rewrite <- H. apply ReportProofs.skipn_app_exact. Qed.

Lemma check_ws_start_item : forall X l body r E tail, length X = 2 -> length E = 2 ->
  (l = false -> no_dash_first (body ++ mk r ++ E)) ->
  check_ws_start (X ++ mk l ++ body ++ mk r ++ E ++ tail) = (l, body ++ mk r ++ E ++ tail).
Proof.
  intros X l body r E tail LX LE H. apply check_ws_start_mk; [exact LX|]. intro Q.
  rewrite !app_assoc. apply no_dash_first_app.
  - intro Z. apply app_eq_nil in Z as [_ Z]. subst E. discriminate.
  - rewrite <- app_assoc. exact (H Q).
Qed.

Lemma memstr_app_first : forall a x t, length x = 2 ->
  (forall p, p < length a -> window (a ++ x) p <> x) -> memstr (a ++ x ++ t) x = Some (length a).
Proof.
  intros a x t Hx N. apply (least_first _ _ _ (memstr_least x _ Hx)).
  - rewrite window_app_r0. now apply window_len2.
  - intros p Hp. rewrite app_assoc, window_app_l by (rewrite app_length; lia). exact (N p Hp).
Qed.

Section ReadBack.
  Variable dl : delims.
  Let d := spelling_of dl.
  Hypothesis Hok : spelling_ok d.

  Let Lbs : length (d_bs dl) = 2. Proof. apply Hok. Qed.
  Let Lbe : length (d_be dl) = 2. Proof. apply Hok. Qed.
  Let Lvs : length (d_vs dl) = 2. Proof. apply Hok. Qed.
  Let Lve : length (d_ve dl) = 2. Proof. apply Hok. Qed.
  Let Lcs : length (d_cs dl) = 2. Proof. apply Hok. Qed.
  Let Lce : length (d_ce dl) = 2. Proof. apply Hok. Qed.
  Let Nbv : d_bs dl <> d_vs dl. Proof. apply Hok. Qed.
  Let Nbc : d_bs dl <> d_cs dl. Proof. apply Hok. Qed.
  Let Nvc : d_vs dl <> d_cs dl. Proof. apply Hok. Qed.

  Lemma is_start_window_iff : forall b1 b2 t,
    is_start_window dl b1 b2 = true <-> start_at d (b1 :: b2 :: t) 0.
  Proof.
    intros b1 b2 t. unfold is_start_window, start_at, occurs.
    change (window (b1 :: b2 :: t) 0) with [b1; b2]. subst d. cbn [vs bs cs spelling_of].
    rewrite !orb_true_iff, !bytes_eqb_eq. tauto.
  Qed.

  Lemma start_at_long : forall s p, start_at d s p -> p + 2 <= length s.
  Proof. intros s p [H|[H|H]]; eapply window_full; try exact H; assumption. Qed.

  Lemma fsm_start : forall s, least (start_at d s) (find_start_marker dl s).
  Proof.
    induction s as [|b1 [|b2 t] IH].
    1, 2: intros p Q; apply start_at_long in Q; cbn in Q; lia.
    change (find_start_marker dl (b1 :: b2 :: t))
      with (if is_start_window dl b1 b2 then Some 0 else option_map S (find_start_marker dl (b2 :: t))).
    destruct (is_start_window dl b1 b2) eqn:E.
    - split; [apply is_start_window_iff, E|]. intros p Hp. lia.
    - apply least_step; [|exact IH]. intro Q. apply is_start_window_iff in Q. congruence.
  Qed.

  Lemma find_start_marker_sound : forall s n, find_start_marker dl s = Some n -> start_at d s n.
  Proof. intros s n F. pose proof (fsm_start s) as L. rewrite F in L. apply L. Qed.

  Lemma nontext_starts : forall it y, is_text it = false -> start_at d (print_item d it ++ y) 0.
  Proof.
    intros it y H. unfold start_at, occurs.
    destruct it as [s|l b r|l il b ir r|l s r|l s r]; [discriminate| | | |];
      cbn [print_item]; unfold raw_open; repeat rewrite <- app_assoc.
    - right; right. now apply window_len2.
    - right; left. now apply window_len2.
    - left. now apply window_len2.
    - right; left. now apply window_len2.
  Qed.


  (* the raw-body scan reads the body back.  `hd` is the part of the opening tag that
     check_ws_start leaves (` raw -%}`), so the body starts at |hd|; the loop stands at offset o
     of the body.  Every round jumps to the next block start: by the last hypothesis (from
     wf_item) one inside the body is not an endraw tag, and the one at |body| is the closing tag.
     A round moves o by at least 2, hence the fuel bound. *)
  Lemma raw_loop_ok : forall hd body close tail il ir r,
    close = raw_close d ir r ->
    (r = false -> plain_first (d_be dl)) ->
    (forall p, p < length body -> occurs (d_bs dl) (body ++ d_bs dl) p ->
        p + 2 <= length body /\ ~ tag_named kw_endraw (d_be dl) (skipn (p + 2) (body ++ close ++ tail))) ->
    forall fuel o, o <= length body -> length body - o < fuel ->
      raw_loop fuel dl (hd ++ body ++ close ++ tail) (length hd) (length hd + o) il
      = Some (trim_end_if ir (trim_start_if il body), r, length hd + length body + length close).
  Proof.
    intros hd body close tail il ir r Eclose Hr WF.
    change (close = d_bs dl ++ mk ir ++ sp ++ kw_endraw ++ sp ++ mk r ++ d_be dl) in Eclose.
    assert (Wreal : window (body ++ close ++ tail) (length body) = d_bs dl).
    { rewrite window_app_r0. rewrite Eclose. rewrite <- app_assoc. now apply window_len2. }
    induction fuel as [|f IH]; intros o Ho Hf; [lia|]. cbn [raw_loop].
    rewrite skipn_app_r.
    set (T := body ++ close ++ tail) in *.
    assert (W0 : window (skipn o T) (length body - o) = d_bs dl).
    { rewrite window_skipn. replace (length body - o + o) with (length body) by lia. exact Wreal. }
    destruct (least_le _ _ _ (memstr_least (d_bs dl) _ Lbs) W0) as [m [Hm M]]. rewrite M.
    pose proof (memstr_sound _ _ _ Lbs M) as Wm'. rewrite window_skipn, Nat.add_comm in Wm'.
    replace (length hd + o + m + 2) with (length hd + (o + m + 2)) by lia.
    rewrite skipn_app_r.
    destruct (Nat.eq_dec (o + m) (length body)) as [Eq|Ne].
    - (* the real closing tag *)
      assert (ST : skipn (o + m + 2) T = mk ir ++ sp ++ kw_endraw ++ sp ++ mk r ++ d_be dl ++ tail).
      { subst T. rewrite Eq, skipn_app_r, Eclose. repeat rewrite <- app_assoc. now apply skipn_len2. }
      rewrite ST, (skip_tag_close _ ir r tail Lbe Hr).
      assert (SW : byte_at_is (hd ++ T) (length hd + (o + m + 2)) dash = ir).
      { unfold byte_at_is. rewrite <- (Nat.add_0_r (length hd + _)), <- nth_error_skipn, skipn_app_r, ST.
        destruct ir; reflexivity. }
      rewrite SW.
      assert (SB : firstn (length hd + o + m - length hd) (skipn (length hd) (hd ++ T)) = body).
      { rewrite ReportProofs.skipn_app_exact. replace (length hd + o + m - length hd) with (length body) by lia.
        apply firstn_app_l. }
      rewrite SB. unfold trim_end_if, trim_start_if. f_equal. f_equal.
      rewrite Eclose, !app_length, Lbs, Lbe. cbn [length]. lia.
    - (* a block start inside the body that is not an endraw tag *)
      assert (Lt : o + m < length body) by lia.
      assert (Occ : occurs (d_bs dl) (body ++ d_bs dl) (o + m)).
      { unfold occurs. etransitivity; [|exact Wm']. subst T. rewrite Eclose, <- app_assoc, (app_assoc body).
        symmetry. apply window_app_l. rewrite app_length, Lbs. lia. }
      destruct (WF (o + m) Lt Occ) as [In NT].
      destruct (skip_tag (skipn (o + m + 2) T) name_endraw (d_be dl)) as [[en we]|] eqn:SK.
      { exfalso. apply NT. eapply skip_tag_sound. exact SK. }
      apply IH; lia.
  Qed.


  Let ins := inside_ends_model.

  Theorem lex_print_gen : forall dc, wf_doc d ins dc -> forall fuel, length dc < fuel ->
    exists pt, lex_loop fuel dl (print d dc) = ROk pt
               /\ filter is_template_tok (map tok_of pt) = items_of dc
               /\ inner_placed false (map tok_of pt) = true.
  Proof.
    induction dc as [|it rest IH]; intros WF fuel Hf.
    { destruct fuel; [lia|]. exists []. split; [|split]; reflexivity. }
    destruct WF as [WI [ADJ WR]]. destruct fuel as [|f]; [lia|]. cbn [length] in Hf.
    destruct (IH WR f ltac:(lia)) as [pt' [LP [IT IP]]].
    cbn [print]. set (tail := print d rest) in *.
    change (items_of (it :: rest)) with (item_toks it ++ items_of rest).
    (* an item is one round of lex_loop_S, every test of which wf_item decides *)
    enough (exists toks, lex_loop (S f) dl (print_item d it ++ tail) = res_cons toks (lex_loop f dl tail)
              /\ filter is_template_tok (map tok_of (toks ++ pt')) = item_toks it ++ items_of rest
              /\ inner_placed false (map tok_of (toks ++ pt')) = true) as (toks & E & F & P).
    { exists (toks ++ pt'). rewrite E, LP. split; [reflexivity|]. split; assumption. }
    destruct it as [s|l body r|l il body ir r|l src r|l src r]; cbn [print_item item_toks].
    - (* Text *)
      destruct WI as [Ns NS].
      assert (NE : s ++ tail <> []) by (destruct s; [contradiction|discriminate]).
      assert (S0 : forall x, length x = 2 -> (x = d_vs dl \/ x = d_bs dl \/ x = d_cs dl) ->
                   starts2 x (s ++ tail) = false).
      { intros x Lx Hx. apply starts2_false; [exact Lx|]. intro W.
        apply (NS 0); [destruct s; [contradiction|cbn; lia]|].
        unfold start_at, occurs. rewrite W. unfold d in *. cbn [vs bs cs spelling_of]. tauto. }
      rewrite (lex_loop_S dl f _ _ _ NE (check_ws_start_eq _)), (S0 _ Lvs), (S0 _ Lbs), (S0 _ Lcs) by auto.
      exists [(TContent s, 0, length s)]. split; [|split; [|exact IP]].
      2:{ cbn [app map filter tok_of fst is_template_tok]. now rewrite IT. }
      (* the text runs to the end of input, or up to the delimiter that opens the next item,
         which ADJ says is not a text *)
      destruct rest as [|n rest'].
      + subst tail. cbn [print]. rewrite app_nil_r. pose proof (fsm_start s) as FS.
        destruct (find_start_marker dl s) as [p|]; [exfalso|destruct f; [cbn in Hf; lia|reflexivity]].
        destruct FS as [Q _]. destruct (Nat.lt_ge_cases p (length s)) as [Lt|Ge].
        * apply (NS p Lt). cbn [print]. now rewrite app_nil_r.
        * apply start_at_long in Q. lia.
      + rewrite (least_first _ _ (length s) (fsm_start _)), firstn_app_l, ReportProofs.skipn_app_exact;
          [reflexivity| |exact NS].
        unfold start_at, occurs. rewrite !window_app_r0. subst tail. cbn [print].
        apply (nontext_starts n _ (ADJ eq_refl)).
    - (* Comment *)
      destruct WI as [Wl [Wr Wc]]. unfold d in *. cbn [cs ce spelling_of] in *.
      repeat rewrite <- app_assoc.
      rewrite (lex_loop_S dl f _ _ _ (app_len2_nonnil _ _ Lcs)
                 (check_ws_start_item _ l body r _ tail Lcs Lce Wl)).
      rewrite (starts2_app_diff _ _ _ Lcs Lvs (not_eq_sym Nvc)),
              (starts2_app_diff _ _ _ Lcs Lbs (not_eq_sym Nbc)), (starts2_app_same _ _ Lcs).
      rewrite (app_assoc body), memstr_app_first;
        [|exact Lce|intros p Hp; rewrite <- app_assoc; exact (Wc p Hp)].
      rewrite skipn_app_r, skipn_len2 by exact Lce.
      eexists. split; [reflexivity|]. split; [|exact IP].
      cbn [app map filter tok_of fst is_template_tok]. rewrite IT. f_equal. f_equal.
      (* ws_end, the byte before the end delimiter being `-`, is r: that byte is the printed
         dash, or the last byte of a body that does not end in one *)
      destruct r; cbn [mk].
      + rewrite app_length. cbn [length]. rewrite Nat.add_1_r.
        unfold byte_at_is. rewrite <- app_assoc, nth_error_app2 by lia. rewrite Nat.sub_diag. reflexivity.
      + rewrite app_nil_r. cbn [app]. destruct (length body) as [|x] eqn:LB; [reflexivity|].
        apply last_not_dash; [exact LB|exact (Wr eq_refl)].
    - (* Raw *)
      destruct WI as [Wil [Wr Wb]]. unfold d in *. cbn [bs be spelling_of] in *.
      unfold raw_open. cbn [bs be spelling_of]. repeat rewrite <- app_assoc.
      set (close := raw_close (spelling_of dl) ir r) in *.
      set (hd := sp ++ kw_raw ++ sp ++ mk il ++ d_be dl).
      set (rest1 := sp ++ kw_raw ++ sp ++ mk il ++ d_be dl ++ body ++ close ++ tail).
      assert (R1 : rest1 = hd ++ body ++ close ++ tail)
        by (subst rest1 hd; repeat rewrite <- app_assoc; reflexivity).
      assert (CW : check_ws_start (d_bs dl ++ mk l ++ rest1) = (l, rest1))
        by (apply check_ws_start_mk; [exact Lbs|intros _; cbn; discriminate]).
      rewrite (lex_loop_S dl f _ l _ (app_len2_nonnil _ _ Lbs) CW).
      rewrite (starts2_app_diff _ _ _ Lbs Lvs Nbv), (starts2_app_same _ _ Lbs).
      unfold rest1 at 1. rewrite (skip_tag_open _ il _ Lbe Wil). fold hd. rewrite R1.
      pose proof (raw_loop_ok hd body close tail il ir r eq_refl Wr Wb
                    (S (length (hd ++ body ++ close ++ tail))) 0) as RL.
      rewrite Nat.add_0_r in RL. rewrite RL by (rewrite ?app_length; lia).
      rewrite (app_assoc hd), (app_assoc (hd ++ body)), <- !app_length, ReportProofs.skipn_app_exact.
      eexists. split; [reflexivity|]. split; [|exact IP].
      cbn [app map filter tok_of fst is_template_tok]. now rewrite IT.
    - (* Expr *)
      destruct WI as [Wl [toks [pre SI]]]. unfold d in *. cbn [vs ve spelling_of] in *.
      repeat rewrite <- app_assoc.
      rewrite (lex_loop_S dl f _ _ _ (app_len2_nonnil _ _ Lvs)
                 (check_ws_start_item _ l src r _ tail Lvs Lve Wl)).
      rewrite (starts2_app_same _ _ Lvs). unfold inside_arm. rewrite SI.
      apply scan_inside_inner in SI. eexists. split; [reflexivity|]. rewrite <- IT.
      apply wrap_ok; (reflexivity || assumption).
    - (* Tag *)
      destruct WI as [Wl [Wn [toks [pre SI]]]]. unfold d in *. cbn [bs be spelling_of] in *.
      repeat rewrite <- app_assoc.
      rewrite (lex_loop_S dl f _ _ _ (app_len2_nonnil _ _ Lbs)
                 (check_ws_start_item _ l src r _ tail Lbs Lbe Wl)).
      rewrite (starts2_app_diff _ _ _ Lbs Lvs Nbv), (starts2_app_same _ _ Lbs).
      destruct (skip_tag _ name_raw (d_be dl)) as [[n o]|] eqn:SK;
        [destruct Wn; exact (skip_tag_sound _ _ _ _ _ SK)|].
      unfold inside_arm. rewrite SI.
      apply scan_inside_inner in SI. eexists. split; [reflexivity|]. rewrite <- IT.
      apply wrap_ok; (reflexivity || assumption).
  Qed.

  Lemma print_len : forall dc, wf_doc d ins dc -> length dc <= length (print d dc).
  Proof.
    induction dc as [|it rest IH]; intro WF; [apply Nat.le_refl|].
    destruct WF as [WI [_ WR]]. specialize (IH WR). cbn [print length]. rewrite app_length.
    enough (1 <= length (print_item d it)) by lia.
    destruct it as [s|l b r|l il b ir r|l s r|l s r]; cbn [print_item]; unfold raw_open;
      unfold d; cbn [bs be vs ve cs ce spelling_of]; rewrite ?app_length, ?Lbs, ?Lvs, ?Lcs; try lia.
    destruct WI as [Ns _]. destruct s; [contradiction|cbn; lia].
  Qed.

  Theorem lex_print_ok : forall dc, wf_doc d ins dc ->
    exists pt, lex_ptoks dl (print d dc) = ROk pt
               /\ filter is_template_tok (map tok_of pt) = items_of dc
               /\ inner_placed false (map tok_of pt) = true.
  Proof.
    intros dc WF. apply lex_print_gen; [exact WF|]. pose proof (print_len dc WF). lia.
  Qed.

  Theorem lex_print_items : forall dc, wf_doc d ins dc ->
    template_items dl (print d dc) = ROk (items_of dc).
  Proof.
    intros dc WF. destruct (lex_print_ok dc WF) as [pt [L [I _]]].
    unfold template_items, lex_tokens. rewrite L. cbn [res_map]. now rewrite I.
  Qed.

  Theorem parser_view_spec : forall dc, wf_doc d ins dc ->
    parser_view dl (print d dc) = ROk (spec_toks dc).
  Proof.
    intros dc WF. destruct (lex_print_ok dc WF) as [pt [L [I P]]].
    unfold parser_view, lex_filtered, lex_tokens. rewrite L. cbn [res_map].
    change (ws_filter (map tok_of pt)) with (wsf true false (map tok_of pt)).
    rewrite (wsf_proj true _ false false P) by discriminate.
    rewrite I. now rewrite wsf_fixed_spec.
  Qed.

  Theorem render_print_spec : forall out_of dc, wf_doc d ins dc ->
    render_source out_of dl (print d dc) = ROk (spec_render out_of dc).
  Proof.
    intros out_of dc WF. unfold render_source. rewrite (parser_view_spec dc WF). cbn [res_map].
    now rewrite render_spec_toks.
  Qed.

  Theorem no_start_renders_itself : forall out_of src,
    (forall p, ~ start_at d src p) ->
    template_items dl src = ROk (match src with [] => [] | _ => [TContent src] end)
    /\ render_source out_of dl src = ROk src.
  Proof.
    intros out_of src N. destruct src as [|b s].
    - split; reflexivity.
    - assert (WF : wf_doc d ins [Text (b :: s)]).
      { cbn. split; [|split; [trivial|exact I]]. split; [discriminate|].
        intros p _. rewrite app_nil_r. apply N. }
      pose proof (lex_print_items _ WF) as L. pose proof (render_print_spec out_of _ WF) as R.
      cbn [print print_item] in L, R. rewrite app_nil_r in L, R. split; [exact L|].
      rewrite R. unfold spec_render, spec_out. cbn. now rewrite app_nil_r.
  Qed.
End ReadBack.

Lemma respelling_invariant : forall dl1 dl2 out_of dc,
  validate dl1 = ROk tt -> validate dl2 = ROk tt ->
  wf_doc (spelling_of dl1) inside_ends_model dc ->
  wf_doc (spelling_of dl2) inside_ends_model dc ->
  render_source out_of dl1 (print (spelling_of dl1) dc)
  = render_source out_of dl2 (print (spelling_of dl2) dc).
Proof.
  intros dl1 dl2 out_of dc V1 V2 W1 W2.
  rewrite (render_print_spec dl1 (proj1 (validate_spec dl1) V1) out_of dc W1).
  rewrite (render_print_spec dl2 (proj1 (validate_spec dl2) V2) out_of dc W2).
  reflexivity.
Qed.
