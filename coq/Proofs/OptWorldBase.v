(* C09, behavioural clause at WHOLE-WORLD level on the concrete VM (Model/VM.v): rendering with
   every chunk of the world optimised (Model/OptWorld.v `opt_world`) gives the same output, or
   the same error class, as rendering with the unoptimised chunks — including the nested runs
   (include, RenderBlock, super(), components), whose callee chunks are optimised too.

   As in Proofs/OptimizeSim.v, but on `VM.run`: states are related by SR (equal except the stored
   `lf_end_ip`s, the block lineages mapped through `opt_chunk`, the includer's scope up to
   end_ips). The end_ip relation is per chunk, so a callee must not touch the loop frames of its
   CALLER (super() and block chunks run on the caller's State): this loop discipline is the fourth
   side condition, the loop-stack part of C07's validator (`loop_disc`). One induction on the
   optimised side's fuel serves both directions (same fuel; fuel times a bound on chunk lengths).

   This file holds the side conditions and the relations; the steps (`plain_step`, `fused_step`)
   and the induction are in Proofs/OptWorldProofs.v. *)
From TeraV Require Import Model.Value Model.Instr Model.Slice Model.Optimize Model.VM Model.StackCheck
  Model.OptWorld Gen.Tables Proofs.OptimizeProofs Proofs.OptimizeSim Proofs.VMFrames.
Local Open Scope nat_scope.

Definition chunk_ok (c : list instr) : bool :=
  unfusedb (with_spans c) && targets_in_rangeb (with_spans c) && iterate_forwardb c && check_chunk c.
Definition tpl_ok (t : template) : bool := forallb chunk_ok (chunks_of_tpl t).
Definition world_ok (wd : world) : bool := forallb chunk_ok (world_chunks wd).

Lemma map_fst_with_spans c : map fst (with_spans c) = c.
Proof. unfold with_spans. rewrite map_map. cbn. apply map_id. Qed.

(* The loop-stack part of the validator's abstract state (StackCheck.a_loops: one entry per frame the
   chunk pushed, innermost first; Some t where its end_ip is known to be t, after `Iterate t`), apart from
   its value-stack and capture parts, which the simulation has no use for. lsucc: a_loops of astep's
   edges; lneed: what astep demands of the shape before it answers at all (astep_lsucc). *)
Definition lsucc (i : instr) (ip : nat) (lo : list (option nat)) : list (nat * list (option nat)) :=
  match i with
  | Jump t => [(t, lo)]
  | PopJumpIfFalse t | JumpIfFalseOrPop t | JumpIfTrueOrPop t => [(S ip, lo); (t, lo)]
  | StartIterate _ | StartIterateComprehension _ => [(S ip, None :: lo)]
  | Iterate t => [(S ip, Some t :: tl lo); (t, lo)]
  | Break => match lo with Some t :: _ => [(t, lo)] | _ => [] end
  | PopLoop => [(S ip, tl lo)]
  | _ => [(S ip, lo)]
  end.

Definition lneed (i : instr) (lo : list (option nat)) : Prop :=
  match i with
  | Iterate _ | PopLoop | StoreLocal _ | StoreDidNotIterate => lo <> []
  | Break => exists t r, lo = Some t :: r
  | _ => True
  end.

Definition ltable := nat -> option (list (option nat)).

(* a table of loop-stack shapes (relative to the chunk's entry) consistent with every edge; the
   loop instructions only ever touch frames the chunk itself pushed; balanced at the exit *)
Definition ltable_ok (c : list instr) (lt : ltable) : Prop :=
  (forall ip i lo, nth_error c ip = Some i -> lt ip = Some lo ->
     lneed i lo /\
     forall t lo', In (t, lo') (lsucc i ip lo) ->
       exists lo'', lt t = Some lo'' /\ all2 lp_sub lo' lo'' = true) /\
  (forall lo, lt (length c) = Some lo -> lo = []).

Definition loop_disc (c : list instr) : Prop := exists lt, ltable_ok c lt /\ lt 0 = Some [].

Lemma astep_lsucc i ip a edges : astep i ip a = Some edges ->
  lneed i (a_loops a) /\ map (fun e => (fst e, a_loops (snd e))) edges = lsucc i ip (a_loops a).
Proof.
  intros A. destruct a as [st lo ca]. cbn [a_loops].
  destruct i; cbn in A; crack A; injection A as <-; (split; [cbn [lneed]; try exact I; try discriminate; eauto|reflexivity]).
Qed.

Lemma all2_lp_sub_nil_l l : all2 lp_sub [] l = true -> l = [].
Proof. destruct l; [reflexivity|discriminate]. Qed.
Lemma all2_lp_sub_nil_r l : all2 lp_sub l [] = true -> l = [].
Proof. destruct l; [reflexivity|discriminate]. Qed.

Lemma astate_sub_loops a b : astate_sub a b = true -> all2 lp_sub (a_loops a) (a_loops b) = true.
Proof. intros H. exact (proj1 (proj2 (astate_sub_spec _ _ H))). Qed.

Lemma check_chunk_loop_disc c : check_chunk c = true -> loop_disc c.
Proof.
  unfold check_chunk, check_chunk_from. set (tbl := infer c a_empty). clearbody tbl. intros H.
  destruct (check_table_spec _ _ _ H) as (_ & (a0 & E0 & H2) & H3 & H4).
  exists (fun ip => match nth_error tbl ip with Some (Some a) => Some (a_loops a) | _ => None end).
  split; [split|].
  - intros ip i lo N E. destruct (nth_error tbl ip) as [[a|]|] eqn:Et; try discriminate.
    injection E as <-.
    pose proof (H3 ip i N) as HI. unfold instr_ok in HI. rewrite Et in HI.
    destruct (astep i ip a) as [edges|] eqn:A; [|discriminate].
    destruct (astep_lsucc _ _ _ _ A) as (Hn & Hs). split; [exact Hn|].
    intros t lo' Hin. rewrite <- Hs in Hin. apply in_map_iff in Hin. destruct Hin as ([t0 a'] & E & Ha').
    injection E as -> <-.
    rewrite forallb_forall in HI. specialize (HI _ Ha'). unfold edge_ok in HI. cbn [fst snd] in HI.
    destruct (nth_error tbl t) as [[b|]|]; try discriminate.
    exists (a_loops b). split; [reflexivity|exact (astate_sub_loops _ _ HI)].
  - intros lo E. destruct (nth_error tbl (length c)) as [[a|]|] eqn:Ea; try discriminate.
    injection E as <-. exact (all2_lp_sub_nil_r _ (astate_sub_loops _ _ (H4 a eq_refl))).
  - rewrite E0. apply astate_sub_loops in H2. cbn in H2. rewrite (all2_lp_sub_nil_l _ H2). reflexivity.
Qed.

(* what chunk_ok gives the proofs *)
Record cgood (c : list instr) : Prop := {
  cg_unfused : forall i, In i c -> is_fused i = false;
  cg_opt : opt_chunk_opt c = Some (opt_chunk c);
  cg_rel : Forall2 (rel (opt_chunk c)) (expand (opt_chunk c)) c;
  cg_shape : forall g, In g (opt_chunk c) -> is_fused g = true -> fused_shape g;
  cg_len : length (expand (opt_chunk c)) = length c;
  cg_iter : iterate_forward c;
  cg_loops : loop_disc c }.

Lemma chunk_ok_cgood c : chunk_ok c = true -> cgood c.
Proof.
  unfold chunk_ok. rewrite !Bool.andb_true_iff. intros [[[H1 H2] H3] H4].
  apply unfusedb_ok in H1. apply targets_in_rangeb_ok in H2. apply iterate_forwardb_ok in H3.
  destruct (optimize_structure _ H1 H2) as (o & Ho & Hrel & _ & Hlen & Hshape).
  assert (Eo : opt_chunk_opt c = Some (map fst o)) by (unfold opt_chunk_opt; rewrite Ho; reflexivity).
  assert (Ec : opt_chunk c = map fst o) by (unfold opt_chunk; rewrite Eo; reflexivity).
  rewrite map_fst_with_spans in Hrel. unfold with_spans in Hlen. rewrite map_length in Hlen.
  constructor.
  - intros i Hi. apply (H1 (i, [])). unfold with_spans. apply in_map_iff. exists i. auto.
  - rewrite Ec. exact Eo.
  - rewrite Ec. exact Hrel.
  - rewrite Ec. exact Hshape.
  - rewrite Ec. exact Hlen.
  - exact H3.
  - exact (check_chunk_loop_disc _ H4).
Qed.

Lemma opt_chunk_defined c : chunk_ok c = true -> opt_chunk_opt c = Some (opt_chunk c).
Proof. intros H. exact (cg_opt _ (chunk_ok_cgood _ H)). Qed.

Definition lf_set_end (f : loop_frame) (e : nat) : loop_frame :=
  {| lf_rest := lf_rest f; lf_index0 := lf_index0 f; lf_first := lf_first f; lf_last := lf_last f;
     lf_length := lf_length f; lf_end_ip := e; lf_context := lf_context f;
     lf_value_name := lf_value_name f; lf_key_name := lf_key_name f; lf_current := lf_current f;
     lf_iterated := lf_iterated f; lf_is_comp := lf_is_comp f |}.
Definition lf_erase (f : loop_frame) : loop_frame := lf_set_end f 0.

Fixpoint scope_erase (sc : scope) : scope :=
  match sc with
  | Scope ls sv par c g =>
      Scope (map lf_erase ls) sv (match par with Some p => Some (scope_erase p) | None => None end) c g
  end.

(* filters and functions receive the State; nothing in it lets them observe a loop's end_ip
   (a private field of ForLoop). In the model the `scope` argument carries the frames, so this
   is a hypothesis on the world: *)
Definition scope_blind (wd : world) : Prop :=
  (forall n v k sc, w_filter wd n v k sc = w_filter wd n v k (scope_erase sc)) /\
  (forall n k sc, w_function wd n k sc = w_function wd n k (scope_erase sc)).

Lemma lf_get_erase f n : lf_get (lf_erase f) n = lf_get f n.
Proof. reflexivity. Qed.

Lemma loops_get_erase ls n : loops_get (map lf_erase ls) n = loops_get ls n.
Proof. induction ls as [|f t IH]; [reflexivity|]. cbn [map loops_get]. rewrite lf_get_erase, IH. reflexivity. Qed.

Lemma scope_get_erase : forall sc n, scope_get (scope_erase sc) n = scope_get sc n.
Proof.
  fix IH 1. intros [ls sv par c g] n. cbn [scope_erase scope_get]. rewrite loops_get_erase.
  destruct (loops_get ls n); [reflexivity|]. destruct (ctx_get sv n); [reflexivity|].
  destruct par as [p|]; [rewrite IH|]; reflexivity.
Qed.

Lemma erase_inv f f' : lf_erase f' = lf_erase f -> f' = lf_set_end f (lf_end_ip f').
Proof. destruct f, f'. unfold lf_erase, lf_set_end. cbn. intros H. injection H as -> -> -> -> -> -> -> -> -> -> ->. reflexivity. Qed.

Lemma erase_set_end f e : lf_erase (lf_set_end f e) = lf_erase f.
Proof. reflexivity. Qed.

Lemma erase_advance f f' e e' :
  lf_erase f' = lf_erase f -> Nat.eqb (lf_end_ip f) 0 = Nat.eqb (lf_end_ip f') 0 ->
  lf_erase (lf_advance f' e') = lf_erase (lf_advance f e).
Proof.
  intros H Hz. rewrite (erase_inv _ _ H). unfold lf_advance, lf_erase, lf_set_end. cbn.
  destruct (lf_rest f); cbn; [reflexivity|]. rewrite Hz. reflexivity.
Qed.

Lemma erase_store_local f f' n : lf_erase f' = lf_erase f ->
  lf_erase (lf_store_local f' n) = lf_erase (lf_store_local f n).
Proof.
  intros H. rewrite (erase_inv _ _ H). unfold lf_store_local, lf_erase, lf_set_end. cbn.
  destruct (lf_key_name f), (lf_value_name f); reflexivity.
Qed.

Lemma erase_rest f f' : lf_erase f' = lf_erase f -> lf_rest f' = lf_rest f.
Proof. intros H. rewrite (erase_inv _ _ H). reflexivity. Qed.

Definition lok (e : nat) (a : option nat) : Prop := match a with None => True | Some t => e = t end.

(* es / es' : the end_ips of all frames (innermost first), original / optimised side.
   The frames pushed by the current chunk (shape lo) are related through the chunk's group
   starts; below them the caller's frames, whose end_ips are exactly bl / bl'. *)
Definition LR (oc : list instr) (bl bl' : list nat) (lo : list (option nat)) (es es' : list nat) : Prop :=
  exists fs fs', es = fs ++ bl /\ es' = fs' ++ bl' /\ Forall2 lok fs lo /\ Forall2 (end_rel oc) fs fs'.

Lemma lp_sub_lok e a b : lp_sub a b = true -> lok e a -> lok e b.
Proof. intros H. destruct (lp_sub_spec _ _ H) as [-> | ->]; [exact (fun _ => I)|exact id]. Qed.

Lemma LR_sub oc bl bl' lo lo2 es es' : all2 lp_sub lo lo2 = true -> LR oc bl bl' lo es es' -> LR oc bl bl' lo2 es es'.
Proof.
  intros Hs (fs & fs' & E1 & E2 & F1 & F2). exists fs, fs'. repeat split; auto.
  exact (all2_Forall2 _ _ lp_sub_lok _ _ _ F1 Hs).
Qed.

Lemma LR_base oc bl bl' : LR oc bl bl' [] bl bl'.
Proof. exists [], []. repeat split; constructor. Qed.

Lemma LR_nil_inv oc bl bl' es es' : LR oc bl bl' [] es es' -> es = bl /\ es' = bl'.
Proof.
  intros (fs & fs' & E1 & E2 & F1 & F2). inversion F1; subst. inversion F2; subst. auto.
Qed.

Lemma LR_cons oc bl bl' a lo e e' es es' :
  lok e a -> end_rel oc e e' -> LR oc bl bl' lo es es' -> LR oc bl bl' (a :: lo) (e :: es) (e' :: es').
Proof.
  intros H1 H2 (fs & fs' & E1 & E2 & F1 & F2). exists (e :: fs), (e' :: fs'). subst.
  repeat split; constructor; auto.
Qed.

Lemma LR_pop oc bl bl' a lo es es' : LR oc bl bl' (a :: lo) es es' ->
  exists e e' t t', es = e :: t /\ es' = e' :: t' /\ lok e a /\ end_rel oc e e' /\ LR oc bl bl' lo t t'.
Proof.
  intros (fs & fs' & E1 & E2 & F1 & F2). inversion F1 as [|e a' fs1 lo1 He F1' Ef El]. subst.
  inversion F2 as [|e0 e' fs1' fs2' Hr F2' Ef Ef']. subst.
  exists e, e', (fs1 ++ bl), (fs2' ++ bl'). repeat split; auto. exists fs1, fs2'. auto.
Qed.

Lemma end_rel_00 oc : end_rel oc 0 0.
Proof. left. split; reflexivity. Qed.

Definition blk := (str * list (list instr) * nat)%type.
Definition blk_opt (e : blk) : blk := (fst (fst e), map opt_chunk (snd (fst e)), snd e).
Definition blocks_opt (b : list blk) : list blk := map blk_opt b.

Definition ends (s : state) : list nat := map lf_end_ip (loops s).

Section Rel.
  Variable good : list instr -> Prop.

  Definition blocks_good (b : list blk) : Prop := Forall (fun e => Forall good (snd (fst e))) b.

  (* s' is s in the optimised world: the fields agree, `blocks` through opt_chunk, the loop frames and
     the includer's scope up to the stored end_ips (LR relates those). The last conjunct is no
     relation: super() takes the chunk it starts out of `blocks s`, not out of the world, and the
     induction needs it good, so that fact travels with the state *)
  Definition SB (s s' : state) : Prop :=
    stack s' = stack s /\ setvars s' = setvars s /\ caps s' = caps s /\
    blocks s' = blocks_opt (blocks s) /\ cur_block s' = cur_block s /\
    option_map scope_erase (parent s') = option_map scope_erase (parent s) /\
    context s' = context s /\ global s' = global s /\ capture_block s' = capture_block s /\
    block_buffer s' = block_buffer s /\
    map lf_erase (loops s') = map lf_erase (loops s) /\
    blocks_good (blocks s).

  Definition SR (oc : list instr) (bl bl' : list nat) (lo : list (option nat)) (s s' : state) : Prop :=
    SB s s' /\ LR oc bl bl' lo (ends s) (ends s').
End Rel.
