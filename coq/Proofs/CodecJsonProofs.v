(* Proofs for the JSON part of C20: the reference reader (Spec/Codec.v) reads back what the model
   writer (Model/Codec.v json_write, compact and pretty) produces. *)
From TeraV Require Import Model.Value Gen.CodecTables Model.Codec Spec.Codec Proofs.CodecProofs
  Proofs.ValueFacts Proofs.Numeral.
From Coq Require Import Lia ZArith NArith List Bool.
Import ListNotations.
Open Scope N_scope.

Definition stops (p : N -> bool) (rest : list N) : Prop :=
  match rest with [] => True | c :: _ => p c = false end.

Lemma span_all p l rest :
  Forall (fun c => p c = true) l -> stops p rest -> span p (l ++ rest) = (l, rest).
Proof.
  intros Hl Hr. induction Hl as [|c l Hc Hl IH].
  - cbn [app]. destruct rest as [|c r]; [reflexivity|]. cbn in Hr |- *. now rewrite Hr.
  - cbn [app span]. rewrite Hc, IH. reflexivity.
Qed.

Lemma skip_ws_app ws l : Forall (fun c => is_ws c = true) ws -> skip_ws (ws ++ l) = skip_ws l.
Proof. intros H. induction H as [|c ws Hc Hws IH]; [reflexivity|]. cbn [app skip_ws]. now rewrite Hc. Qed.

Lemma skip_ws_nonws c l : is_ws c = false -> skip_ws (c :: l) = c :: l.
Proof. intros H. cbn [skip_ws]. now rewrite H. Qed.

Lemma indent_ws pretty lvl : Forall (fun c => is_ws c = true) (indent pretty lvl).
Proof.
  unfold indent. destruct pretty; [|constructor]. constructor; [reflexivity|].
  induction (2 * lvl)%nat; cbn [repeat]; constructor; auto.
Qed.

Lemma is_digit_iff c : is_digit c = true <-> 48 <= c <= 57.
Proof. apply in_range_iff. Qed.

Lemma dec_rev_digits fuel : forall n, N.log2 n < N.of_nat fuel -> rev (dec_rev fuel n) = digits n.
Proof.
  induction fuel as [|f IH]; intros n Hf; [lia|]. cbn [dec_rev]. rewrite digits_eq.
  destruct (N.ltb_spec n 10) as [H|H]; [now rewrite N.mod_small|].
  cbn [rev]. rewrite IH; [reflexivity|]. pose proof (log2_div10 n H). lia.
Qed.

Lemma dec_digits_spec n :
  Forall (fun c => is_digit c = true) (dec_digits n) /\ digits_val (dec_digits n) = n /\
  dec_digits n <> [] /\ (forall t, dec_digits n = 48 :: t -> t = []).
Proof.
  unfold dec_digits. rewrite dec_rev_digits by lia. destruct (digits_spec n) as (F & V & E & Z).
  repeat split; [|exact V|exact E|].
  - eapply Forall_impl; [|exact F]. intros c. apply is_digit_iff.
  - intros t Et. destruct n as [|p]; [now injection Et|]. rewrite Et in Z. now destruct Z.
Qed.

(* the two tests of parse_number_tok that digits alone decide: no sign, no leading zero *)
Lemma no_sign D :
  Forall (fun c => is_digit c = true) D ->
  match D with c :: r => if c =? 45 then (true, r) else (false, D) | [] => (false, D) end = (false, D).
Proof.
  intros [|d D' Hd _]; [reflexivity|]. apply is_digit_iff in Hd.
  destruct (N.eqb_spec d 45); [lia | reflexivity].
Qed.

Lemma no_leading_zero D :
  (forall t, D = 48 :: t -> t = []) -> match D with c :: _ :: _ => c =? 48 | _ => false end = false.
Proof.
  destruct D as [|c [|e D]]; try reflexivity. intros H. apply N.eqb_neq. intros ->.
  discriminate (H _ eq_refl).
Qed.

Lemma parse_digits_tok tok neg D n :
  match tok with c :: r => if c =? 45 then (true, r) else (false, tok) | [] => (false, tok) end = (neg, D) ->
  Forall (fun c => is_digit c = true) D -> digits_val D = n -> D <> [] -> (forall t, D = 48 :: t -> t = []) ->
  parse_number_tok tok = Some (JN neg n 0 true).
Proof.
  intros E HD <- Hne Hz. unfold parse_number_tok. rewrite E.
  rewrite <- (app_nil_r D), (span_all is_digit D []) by (auto; exact I).
  rewrite no_leading_zero by exact Hz. destruct D as [|d D']; [contradiction|].
  cbn. now rewrite app_nil_r.
Qed.

Lemma parse_int_tok z : parse_number_tok (json_int z) = Some (JN (z <? 0)%Z (Z.abs_N z) 0 true).
Proof.
  unfold json_int. destruct (Z.ltb_spec z 0) as [Hneg|Hpos].
  - eapply parse_digits_tok; [reflexivity | apply dec_digits_spec ..].
  - replace (Z.abs_N z) with (Z.to_N z) by lia.
    eapply parse_digits_tok; [apply no_sign | apply dec_digits_spec ..]. apply dec_digits_spec.
Qed.

Lemma digit_numchar c : is_digit c = true -> is_numchar c = true.
Proof. unfold is_numchar. now intros ->. Qed.

Lemma json_int_numchars z : Forall (fun c => is_numchar c = true) (json_int z).
Proof.
  unfold json_int. destruct (z <? 0)%Z; [constructor; [reflexivity|]|];
    (eapply Forall_impl; [exact digit_numchar | apply dec_digits_spec]).
Qed.

Lemma numchar_neq c d : is_numchar c = true -> is_numchar d = false -> (c =? d) = false.
Proof. intros Hc Hd. apply N.eqb_neq. intros ->. congruence. Qed.

Lemma parse_string_escape b l :
  parse_string_body (json_escape_byte b ++ l) =
  match parse_string_body l with Some (s, r) => Some (b :: s, r) | None => None end.
Proof.
  destruct (N.ltb_spec b 32) as [Hlt|Hge].
  - revert b Hlt. apply (below_forall _ 32). repeat (constructor; [reflexivity|]). constructor.
  - (* the reader asks the writer's three questions again *)
    apply N.ltb_ge in Hge. unfold json_escape_byte.
    destruct (b =? 34) eqn:E34; [apply N.eqb_eq in E34 as ->; reflexivity|].
    destruct (b =? 92) eqn:E92; [apply N.eqb_eq in E92 as ->; reflexivity|].
    rewrite Hge. cbn [app parse_string_body]. now rewrite E34, E92, Hge.
Qed.

Lemma parse_string_ok bs rest :
  parse_string_body (flat_map json_escape_byte bs ++ 34 :: rest) = Some (bs, rest).
Proof.
  induction bs as [|b bs IH]; [reflexivity|].
  cbn [flat_map]. rewrite <- app_assoc, parse_string_escape, IH. reflexivity.
Qed.

Lemma parse_value_string fuel bs rest :
  parse_value (S fuel) (json_string bs ++ rest) = Some (JStr bs, rest).
Proof.
  unfold json_string. cbn [parse_value app]. rewrite skip_ws_nonws by reflexivity.
  cbn [N.eqb Pos.eqb]. rewrite <- app_assoc. cbn [app]. now rewrite parse_string_ok.
Qed.

Lemma parse_value_lit fuel rest :
  parse_value (S fuel) (lit_null ++ rest) = Some (JNull, rest) /\
  parse_value (S fuel) (lit_true ++ rest) = Some (JBool true, rest) /\
  parse_value (S fuel) (lit_false ++ rest) = Some (JBool false, rest).
Proof. repeat split; reflexivity. Qed.

(* after "[" or "{" the reader then takes the non-empty branch (open_array, open_object) *)
Definition vstart (w : list N) : Prop :=
  exists c t, w = c :: t /\ is_ws c = false /\ (c =? 93) = false /\ (c =? 125) = false.

(* a text w that parse_value reads back as j, whatever delimiter follows, with two units of fuel for
   each of its characters (what json_read gives) *)
Definition item_ok (w : list N) (j : json) : Prop :=
  vstart w /\
  forall fuel rest, (2 * length w < fuel)%nat -> stops is_numchar rest -> parse_value fuel (w ++ rest) = Some (j, rest).

Lemma leaf_item w j :
  vstart w -> (forall fuel rest, parse_value (S fuel) (w ++ rest) = Some (j, rest)) -> item_ok w j.
Proof. intros Hv Hp. split; [exact Hv|]. intros [|fuel] rest Hf _; [lia | apply Hp]. Qed.

Lemma lit_items :
  item_ok lit_null JNull /\ item_ok lit_true (JBool true) /\ item_ok lit_false (JBool false).
Proof. split; [|split]; (apply leaf_item; [repeat econstructor | intros; apply parse_value_lit]). Qed.

Lemma string_item bs : item_ok (json_string bs) (JStr bs).
Proof. apply leaf_item; [repeat econstructor | intros; apply parse_value_string]. Qed.

(* a number token is read up to the first character that cannot continue one: hence [stops] *)
Lemma number_item tok n :
  Forall (fun c => is_numchar c = true) tok -> parse_number_tok tok = Some n -> item_ok tok (JNum n).
Proof.
  intros Ht Hp. destruct tok as [|c t]; [discriminate|].
  pose proof (fun d => numchar_neq c d (Forall_inv Ht)) as Hc.
  assert (W : is_ws c = false) by (unfold is_ws; now rewrite !Hc).
  split; [exists c, t; repeat split; [exact W | now apply Hc ..]|].
  intros [|fuel] rest Hf Hr; [lia|].
  cbn [parse_value app]. rewrite skip_ws_nonws by exact W. rewrite !Hc by reflexivity.
  change (c :: t ++ rest) with ((c :: t) ++ rest). rewrite (span_all is_numchar (c :: t) rest) by assumption.
  now rewrite Hp.
Qed.

Lemma int_item z : item_ok (json_int z) (JNum (JN (z <? 0)%Z (Z.abs_N z) 0 true)).
Proof. apply number_item; [apply json_int_numchars | apply parse_int_tok]. Qed.

Lemma byte_item x : item_ok (json_int (Z.of_N x)) (JNum (JN false x 0 true)).
Proof.
  pose proof (int_item (Z.of_N x)) as H.
  now rewrite Zabs2N.id, (proj2 (Z.ltb_ge _ _) (N2Z.is_nonneg x)) in H.
Qed.

Lemma parse_value_skip fuel ws l :
  Forall (fun c => is_ws c = true) ws -> parse_value fuel (ws ++ l) = parse_value fuel l.
Proof. intros H. destruct fuel; [reflexivity|]. cbn [parse_value]. now rewrite skip_ws_app. Qed.

Lemma stops_tail pretty lvl lvl0 items c rest :
  is_numchar c = false ->
  stops is_numchar (join_items pretty lvl false items ++ indent pretty lvl0 ++ c :: rest).
Proof. intros H. destruct items; [|reflexivity]. unfold indent. destruct pretty; cbn; [reflexivity | exact H]. Qed.

Lemma elems_step f pretty lvl w j tail :
  item_ok w j -> (2 * length w < f)%nat -> stops is_numchar tail ->
  parse_elems (S f) (indent pretty lvl ++ w ++ tail) =
  match skip_ws tail with
  | [] => None
  | d :: r =>
      if d =? 44 then match parse_elems f r with Some (xs, r') => Some (j :: xs, r') | None => None end
      else if d =? 93 then Some ([j], r) else None
  end.
Proof.
  intros [_ Hw] Hf Ht. cbn [parse_elems]. rewrite parse_value_skip by apply indent_ws. now rewrite Hw.
Qed.

Lemma members_step f pretty lvl k w j tail :
  item_ok w j -> (2 * length (json_string k ++ colon pretty ++ w) < f)%nat -> stops is_numchar tail ->
  parse_members (S f) (indent pretty lvl ++ (json_string k ++ colon pretty ++ w) ++ tail) =
  match skip_ws tail with
  | [] => None
  | d :: r =>
      if d =? 44 then match parse_members f r with Some (ms, r') => Some ((k, j) :: ms, r') | None => None end
      else if d =? 125 then Some ([(k, j)], r) else None
  end.
Proof.
  intros [_ Hw] Hf Ht. rewrite !app_length in Hf. cbn [parse_members]. rewrite skip_ws_app by apply indent_ws.
  unfold json_string. rewrite <- !app_assoc. cbn [app]. rewrite skip_ws_nonws by reflexivity.
  change (negb (34 =? 34)) with false. cbv iota. rewrite <- app_assoc. cbn [app].
  rewrite parse_string_ok.
  replace (skip_ws (colon pretty ++ w ++ tail)) with (58 :: (if pretty then [32] else []) ++ w ++ tail)
    by (destruct pretty; reflexivity).
  change (negb (58 =? 58)) with false. cbv iota.
  rewrite parse_value_skip by (destruct pretty; repeat constructor). now rewrite Hw by (lia || exact Ht).
Qed.

(* A loop that proceeds by rounds like elems_step reads back a whole comma-separated sequence.  The
   items are the images of a list l: T x is the text of x, R x what it reads back as.  Each round spends
   one unit of fuel and reads its item with what is left: two units for each character still to be read
   are enough, since every item is followed by a comma or the closing bracket. *)
Lemma loop_ok {A B} (step : nat -> list N -> option (list B * list N)) (close : N) pretty lvl
      (ok : A -> Prop) (T : A -> list N) (R : A -> B) :
  is_numchar close = false -> is_ws close = false -> (close =? 44) = false ->
  (forall f x tail, ok x -> (2 * length (T x) < f)%nat -> stops is_numchar tail ->
     step (S f) (indent pretty lvl ++ T x ++ tail) =
     match skip_ws tail with
     | [] => None
     | d :: r =>
         if d =? 44 then match step f r with Some (xs, r') => Some (R x :: xs, r') | None => None end
         else if d =? close then Some ([R x], r) else None
     end) ->
  forall lvl0 rest l, Forall ok l ->
  forall x fuel, ok x -> (S (2 * length (T x ++ join_items pretty lvl false (map T l))) < fuel)%nat ->
  step fuel (indent pretty lvl ++ T x ++ join_items pretty lvl false (map T l)
             ++ indent pretty lvl0 ++ close :: rest)
  = Some (map R (x :: l), rest).
Proof.
  intros Hc1 Hc2 Hc3 Hstep lvl0 rest l Hl.
  induction Hl as [|y l Hy _ IH]; intros x [|f] Hx Hf; cbn [map join_items] in Hf; rewrite !app_length in Hf;
    cbn [length] in Hf; try lia; rewrite Hstep by (assumption || lia || now apply stops_tail); cbn [map join_items app].
  - rewrite skip_ws_app, skip_ws_nonws by (assumption || apply indent_ws).
    now rewrite Hc3, N.eqb_refl.
  - rewrite skip_ws_nonws by reflexivity. change (44 =? 44) with true. cbv iota.
    rewrite <- !app_assoc, IH by (assumption || (rewrite app_length; lia)). reflexivity.
Qed.

Lemma open_array f r c t' :
  skip_ws r = c :: t' -> (c =? 93) = false ->
  parse_value (S f) (91 :: r) =
  match parse_elems f r with Some (xs, r'') => Some (JArr xs, r'') | None => None end.
Proof. intros H1 H2. cbn. now rewrite H1, H2. Qed.

Lemma open_object f r c t' :
  skip_ws r = c :: t' -> (c =? 125) = false ->
  parse_value (S f) (123 :: r) =
  match parse_members f r with Some (ms, r'') => Some (JObj ms, r'') | None => None end.
Proof. intros H1 H2. cbn. now rewrite H1, H2. Qed.

Lemma array_item {A} (w : A -> list N) (j : A -> json) pretty lvl l :
  Forall (fun x => item_ok (w x) (j x)) l ->
  item_ok (wrap pretty 91 93 lvl (map w l)) (JArr (map j l)).
Proof.
  intros Hl. split; [destruct l; repeat econstructor|].
  intros fuel rest Hf _. destruct fuel as [|f]; [lia|].
  destruct Hl as [|x l Hx Hl]; [reflexivity|].
  pose proof Hx as [(c & t & Ew & Hc1 & Hc2 & _) _].
  cbn [map wrap join_items app length] in Hf |- *. rewrite !app_length in Hf.
  rewrite <- !app_assoc. cbn [app].
  erewrite open_array; [| rewrite skip_ws_app, Ew by apply indent_ws; apply skip_ws_nonws, Hc1 | exact Hc2].
  rewrite (loop_ok parse_elems 93 pretty (S lvl) _ w j eq_refl eq_refl eq_refl
             (fun f x => elems_step f pretty (S lvl) (w x) (j x)) lvl rest l Hl x f Hx) by (rewrite app_length; lia).
  reflexivity.
Qed.

Lemma object_item {A} (k w : A -> list N) (j : A -> json) pretty lvl l :
  Forall (fun x => item_ok (w x) (j x)) l ->
  item_ok (wrap pretty 123 125 lvl (map (fun x => json_string (k x) ++ colon pretty ++ w x) l))
          (JObj (map (fun x => (k x, j x)) l)).
Proof.
  intros Hl. split; [destruct l; repeat econstructor|].
  intros fuel rest Hf _. destruct fuel as [|f]; [lia|].
  destruct Hl as [|x l Hx Hl]; [reflexivity|].
  cbn [map wrap join_items app length] in Hf |- *. rewrite !app_length in Hf.
  rewrite <- !app_assoc. cbn [app].
  erewrite open_object; [| rewrite skip_ws_app by apply indent_ws; reflexivity | reflexivity].
  pose proof (loop_ok parse_members 125 pretty (S lvl) _ _ (fun x => (k x, j x)) eq_refl eq_refl eq_refl
                (fun f x => members_step f pretty (S lvl) (k x) (w x) (j x))
                lvl rest l Hl x f Hx) as HM.
  cbv beta in HM. rewrite <- !app_assoc in HM. rewrite HM by (rewrite !app_length; lia). reflexivity.
Qed.

Fixpoint floats_of (v : value) : list spec_float :=
  match v with
  | VFloat f => [f]
  | VArr l => flat_map floats_of l
  | VMap m => flat_map (fun kv : key * value => floats_of (snd kv)) m
  | _ => []
  end.

(* the hypothesis on the float-text oracle: only for the finite floats that occur in v *)
Definition floats_ok (ft : spec_float -> list N) (v : value) : Prop :=
  Forall (fun f => sf_finite f = true -> float_text_ok (ft f) f = true) (floats_of v).

Lemma write_item ft pretty v :
  floats_ok ft v -> forall lvl, item_ok (json_write ft pretty lvl v) (canon ft v).
Proof.
  induction v as [ | | b | r z | f | s b | l IH | m IH | b] using value_ind'; intros Hfl lvl;
    cbn [json_write canon].
  - (* undefined *) apply lit_items.
  - (* none *) apply lit_items.
  - (* bool *) destruct b; apply lit_items.
  - (* integer *) apply int_item.
  - (* float: a non-finite one is written null *) destruct (sf_finite f) eqn:Ef; [|apply lit_items].
    inversion_clear Hfl as [|? ? Hok _]. specialize (Hok Ef).
    apply andb_true_iff in Hok as [Hn Hp].
    destruct (parse_number_tok (ft f)) as [d|] eqn:Ed; [|discriminate].
    apply number_item; [|exact Ed]. apply Forall_forall, forallb_forall, Hn.
  - (* string *) apply string_item.
  - (* array *) apply (array_item (json_write ft pretty (S lvl)) (canon ft)).
    apply Forall_flat_map in Hfl. rewrite Forall_forall in IH, Hfl |- *.
    intros x Hx. apply IH, Hfl; exact Hx.
  - (* map *)
    apply (object_item (fun kv => key_text (fst kv))
                       (fun kv => json_write ft pretty (S lvl) (snd kv)) (fun kv => canon ft (snd kv))).
    apply Forall_flat_map in Hfl. rewrite Forall_forall in IH, Hfl |- *.
    intros x Hx. apply IH, Hfl; exact Hx.
  - (* bytes *)
    apply (array_item (fun x => json_int (Z.of_N x)) (fun x => JNum (JN false x 0 true))).
    apply Forall_forall. intros x _. apply byte_item.
Qed.

Lemma json_roundtrip_gen ft pretty v :
  floats_ok ft v -> json_read (json_write ft pretty 0 v) = Some (canon ft v).
Proof.
  intros Hf. unfold json_read.
  destruct (write_item ft pretty v Hf 0) as [_ Hw].
  specialize (Hw (S (2 * length (json_write ft pretty 0 v))) []).
  rewrite app_nil_r in Hw. rewrite Hw; [reflexivity | lia | exact I].
Qed.

Lemma json_filter_roundtrip ft p v :
  floats_ok ft v ->
  exists text, json_encode_filter ft p v = ROk text /\ json_read text = Some (canon ft v).
Proof.
  intros Hf. unfold json_encode_filter.
  destruct p; cbn [lookup_bool json_pretty_table Bool.eqb]; eexists; (split; [reflexivity|]);
    now apply json_roundtrip_gen.
Qed.

(* objects as data: member lookup by name is faithful exactly when the stringified keys are
   pairwise distinct *)
Definition member_names (m : list (key * value)) : list (list N) := map (fun kv => key_text (fst kv)) m.

Lemma assoc_unique {A B} (l : list (A * B)) a b b' :
  NoDup (map fst l) -> In (a, b) l -> In (a, b') l -> b = b'.
Proof.
  induction l as [|[a0 b0] l IH]; [contradiction|]. cbn [map fst]. intros Hnd H H'.
  inversion_clear Hnd as [|? ? Hn Hnd'].
  destruct H as [E|H], H' as [E'|H'].
  - congruence.
  - injection E as -> ->. exfalso. apply Hn. exact (in_map fst _ _ H').
  - injection E' as -> ->. exfalso. apply Hn. exact (in_map fst _ _ H).
  - now apply IH.
Qed.

Lemma json_object_faithful ft m :
  NoDup (member_names m) ->
  forall k x, In (k, x) m ->
  exists ms, canon ft (VMap m) = JObj ms /\ In (key_text k, canon ft x) ms /\
             forall j, In (key_text k, j) ms -> j = canon ft x.
Proof.
  intros Hnd k x Hin. cbn [canon]. eexists. split; [reflexivity|].
  assert (H : In (key_text k, canon ft x) (map (fun kv => (key_text (fst kv), canon ft (snd kv))) m))
    by exact (in_map _ _ _ Hin).
  split; [exact H|]. intros j Hj. refine (assoc_unique _ _ _ _ _ Hj H).
  rewrite map_map. exact Hnd.
Qed.

Lemma json_key_collision_refuted :
  exists m : list (key * value), NoDup (map fst m) /\ ~ NoDup (member_names m).
Proof.
  exists [(KInt U64 1, VNone); (KStr [49] false, VNone)]. split.
  - repeat constructor; cbn; intuition discriminate.
  - intros H. inversion_clear H as [|? ? Hn _]. apply Hn. now left.
Qed.
