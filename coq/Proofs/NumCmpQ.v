(* On finite values the exact order of Spec/Arith.v is the order of the rationals (Coq's QArith): the dyadic
   comparison `dy_cmp m1 e1 m2 e2` is Qcompare of m1 * 2^e1 and m2 * 2^e2. *)
From Coq Require Import ZArith QArith Qpower Lia.
From TeraV Require Import Spec.Arith.
Open Scope Q_scope.

Definition dyQ (m e : Z) : Q := inject_Z m * (2 # 1) ^ e.

Lemma dyQ_scale : forall m e k, (k <= e)%Z ->
  dyQ m e == inject_Z (m * 2 ^ (e - k)) * (2 # 1) ^ k.
Proof.
  intros m e k H. unfold dyQ.
  replace e with ((e - k) + k)%Z at 1 by lia.
  rewrite Qpower_plus by discriminate.
  rewrite inject_Z_mult, (Zpower_Qpower 2 (e - k)) by lia.
  change (inject_Z 2) with (2 # 1). ring.
Qed.

Lemma dy_cmp_is_Qcompare : forall m1 e1 m2 e2,
  dy_cmp m1 e1 m2 e2 = (dyQ m1 e1 ?= dyQ m2 e2).
Proof.
  intros m1 e1 m2 e2. unfold dy_cmp.
  set (k := Z.min e1 e2).
  pose proof (dyQ_scale m1 e1 k ltac:(unfold k; lia)) as E1.
  pose proof (dyQ_scale m2 e2 k ltac:(unfold k; lia)) as E2.
  assert (Hc : 0 < (2 # 1) ^ k) by (apply Qpower_0_lt; reflexivity).
  set (A := (m1 * 2 ^ (e1 - k))%Z) in *. set (B := (m2 * 2 ^ (e2 - k))%Z) in *.
  rewrite E1, E2.
  destruct (Z.compare_spec A B) as [H|H|H]; symmetry.
  - apply Qeq_alt. rewrite H. reflexivity.
  - apply Qlt_alt. apply Qmult_lt_compat_r; [exact Hc|]. rewrite <- Zlt_Qlt. exact H.
  - apply Qgt_alt. apply Qmult_lt_compat_r; [exact Hc|]. rewrite <- Zlt_Qlt. exact H.
Qed.

Lemma dyQ_int : forall z, dyQ z 0 == inject_Z z.
Proof. intro z. unfold dyQ. change ((2 # 1) ^ 0) with 1. ring. Qed.
