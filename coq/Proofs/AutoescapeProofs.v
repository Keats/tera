(* C01 — proofs. Cleanliness of strings and values under the helper operations of the VM; what the
   abstract states of Model/CapCheck.v say about concrete states; the invariant through `run`, a step
   being RunStep.run_step: what the effect of an instruction has to satisfy is said without run, fuel or
   sink (eff_inv) and shown instruction by instruction (instr_effect_inv, over pure_effect_inv); that
   `perform` of such an effect keeps the invariant is perform_inv, nested runs by induction on fuel.
   Then the default escaper, Value::format and the world of the correspondence; index and slice; the
   autoescape flag by name suffix; the escaper as a parameter. *)
From TeraV Require Import Model.Value Model.Instr Model.Slice Model.VFormat Model.VM Model.StackCheck Model.CapCheck
     Model.Taint Gen.Tables Gen.SafeTables Model.World0 Model.WorldC01 Proofs.ListFacts Proofs.VMFrames Proofs.RunStep
     Proofs.StackBuild.
From TeraV Require Proofs.FormatUtf8.
Local Open Scope nat_scope.

Section Basics.
  Variable ok : N -> bool.
  Notation clean := (clean ok).
  Notation vok := (vok ok).
  Notation ctx_ok := (ctx_ok ok).
  Notation kw_ok := (kw_ok ok).
  Notation pair_ok := (pair_ok ok).
  Notation lf_ok := (lf_ok ok).
  Notation scope_ok := (scope_ok ok).

  Lemma clean_app_intro a b : clean a = true -> clean b = true -> clean (a ++ b) = true.
  Proof. intros Ha Hb. unfold Taint.clean in *. rewrite forallb_app, Ha, Hb. reflexivity. Qed.

  Lemma clean_flat_map (f : N -> str) : (forall c, clean (f c) = true) -> forall s, clean (flat_map f s) = true.
  Proof. intros H. induction s as [|c t IH]; [reflexivity|]. apply clean_app_intro; [apply H|exact IH]. Qed.

  Lemma kw_of_ctx c : kw_ok (map (fun kv : str * value => (KStr (fst kv) true, snd kv)) c) = ctx_ok c.
  Proof. induction c as [|[k x] t IH]; [reflexivity|]. cbn. unfold Taint.kw_ok in IH. rewrite IH. reflexivity. Qed.

  Lemma vok_str_unflagged s : vok (VStr s false) = true.
  Proof. reflexivity. Qed.

  Lemma forallb_in {A} (f : A -> bool) l x : forallb f l = true -> In x l -> f x = true.
  Proof. intros H Hx. rewrite forallb_forall in H. apply H, Hx. Qed.

  Lemma ctx_get_ok c n v : ctx_ok c = true -> ctx_get c n = Some v -> vok v = true.
  Proof.
    induction c as [|[k x] t IH]; cbn; [discriminate|].
    intros H. apply andb_prop in H. destruct H as [Hx Ht].
    destruct (str_eqb k n); [intros E; inversion E; subst; exact Hx|apply IH, Ht].
  Qed.

  Lemma ctx_set_ok c n v : ctx_ok c = true -> vok v = true -> ctx_ok (ctx_set c n v) = true.
  Proof.
    intros Hc Hv. unfold ctx_set. cbn. rewrite Hv. cbn.
    apply forallb_incl with (s := c); [|exact Hc]. intros x Hx. apply filter_In in Hx. tauto.
  Qed.

  Lemma forallb_rev {A} (f : A -> bool) l : forallb f l = true -> forallb f (rev l) = true.
  Proof. apply forallb_incl. intros x. apply in_rev. Qed.

  Lemma forallb_skipn {A} (f : A -> bool) n l : forallb f l = true -> forallb f (skipn n l) = true.
  Proof. intros H. rewrite <- (firstn_skipn n l), forallb_app in H. apply andb_prop in H. apply H. Qed.

  Lemma ctx_add_ok acc c : ctx_ok acc = true -> ctx_ok c = true ->
    ctx_ok (fold_left (fun a kv => ctx_set a (fst kv) (snd kv)) (rev c) acc) = true.
  Proof.
    intros Ha Hc. apply (fold_left_inv (fun a => ctx_ok a = true) (fun kv => vok (snd kv)));
      [intros; apply ctx_set_ok; assumption| |exact Ha].
    apply forallb_rev, Hc.
  Qed.

  Lemma lf_ok_parts f :
    lf_ok f = true <->
    forallb pair_ok (lf_rest f) = true /\ ctx_ok (lf_context f) = true /\ pair_ok (lf_current f) = true.
  Proof.
    unfold lf_ok. rewrite !andb_true_iff. tauto.
  Qed.

  Lemma lf_get_ok f n v : lf_ok f = true -> lf_get f n = Some v -> vok v = true.
  Proof.
    intros Hf. apply lf_ok_parts in Hf. destruct Hf as (Hr & Hc & Hcur).
    unfold pair_ok in Hcur. apply andb_prop in Hcur. destruct Hcur as [Hk Hv].
    unfold lf_get.
    (* the loop.* counters are numbers and booleans; after them both kinds of frame look up the same places *)
    destruct (lf_is_comp f);
      repeat match goal with
             | |- match (if ?c then _ else _) with _ => _ end = _ -> _ =>
                 destruct c; [intros X; injection X as <-; reflexivity|]
             end;
      (destruct (ctx_get (lf_context f) n) eqn:E; [intros X; injection X as <-; eapply ctx_get_ok; eassumption|]);
      (destruct (str_eqb (lf_value_name f) n); [intros X; injection X as <-; exact Hv|]);
      (destruct (lf_key_name f) as [k|]; [|discriminate]);
      (destruct (str_eqb k n); [|discriminate]); intros X; injection X as <-;
      destruct (fst (lf_current f)); [exact Hk|reflexivity|exact Hk|reflexivity].
  Qed.

  Lemma loops_get_ok ls n v : forallb lf_ok ls = true -> loops_get ls n = Some v -> vok v = true.
  Proof.
    induction ls as [|f t IH]; cbn; [discriminate|].
    intros H. apply andb_prop in H. destruct H as [Hf Ht].
    destruct (lf_get f n) eqn:E; [intros X; inversion X; subst; eapply lf_get_ok; eassumption|apply IH, Ht].
  Qed.

  Lemma lf_store_local_ok f n : lf_ok f = true -> lf_ok (lf_store_local f n) = true.
  Proof.
    intros H. unfold lf_store_local.
    destruct (lf_key_name f); [exact H|]. destruct (lf_value_name f); exact H.
  Qed.

  Lemma lf_advance_ok f e : lf_ok f = true -> lf_ok (lf_advance f e) = true.
  Proof.
    intros H. apply lf_ok_parts in H. destruct H as (Hr & Hc & Hcur).
    unfold lf_advance. destruct (lf_rest f) as [|kv rest] eqn:E.
    - apply lf_ok_parts. cbn. auto.
    - cbn in Hr. apply andb_prop in Hr. destruct Hr as [Hkv Hrest].
      apply lf_ok_parts. cbn. repeat split; try assumption.
      destruct (negb (Nat.eqb (lf_end_ip f) 0)); [reflexivity|exact Hc].
  Qed.

  Lemma lf_store_ok f n v : lf_ok f = true -> vok v = true -> lf_ok (lf_store f n v) = true.
  Proof.
    intros H Hv. apply lf_ok_parts in H. destruct H as (Hr & Hc & Hcur).
    apply lf_ok_parts. cbn. repeat split; try assumption. apply ctx_set_ok; assumption.
  Qed.

  Lemma new_loop_ok items comp : forallb pair_ok items = true -> lf_ok (new_loop items comp) = true.
  Proof. intros H. apply lf_ok_parts. cbn. auto. Qed.

  Lemma forallb_map_in {A B} (g : B -> bool) (f : A -> B) l :
    (forall x, In x l -> g (f x) = true) -> forallb g (map f l) = true.
  Proof. intros H. apply forallb_forall. intros y Hy. apply in_map_iff in Hy. destruct Hy as (x & <- & Hx). apply H, Hx. Qed.

  Lemma iter_items_ok v items : vok v = true -> iter_items v = Some items -> forallb pair_ok items = true.
  Proof.
    intros Hv. destruct v; cbn; try discriminate; intros X; injection X as <-; apply forallb_map_in; intros x Hx.
    - reflexivity.
    - rewrite vok_arr in Hv. unfold pair_ok. cbn. eapply forallb_in; eassumption.
    - rewrite vok_map in Hv. unfold pair_ok, kw_ok in *. rewrite forallb_forall in Hv. cbn. rewrite (Hv _ Hx).
      destruct (fst x); reflexivity.
    - reflexivity.
  Qed.

  Lemma scope_get_ok : forall sc n, scope_ok sc = true -> vok (scope_get sc n) = true.
  Proof.
    fix IH 1. intros [loops setvars parent context global] n H.
    cbn [scope_ok] in H. rewrite !andb_true_iff in H. destruct H as ((((Hl & Hs) & Hp) & Hc) & Hg).
    cbn [scope_get].
    destruct (loops_get loops n) eqn:E1; [eapply loops_get_ok; eassumption|].
    destruct (ctx_get setvars n) eqn:E2; [eapply ctx_get_ok; [exact Hs|exact E2]|].
    assert (Hfp : vok (match parent with Some p => scope_get p n | None => VUndef end) = true).
    { destruct parent as [p|]; [apply IH, Hp|reflexivity]. }
    destruct (negb (is_undefined (match parent with Some p => scope_get p n | None => VUndef end))); [exact Hfp|].
    destruct (ctx_get context n) eqn:E3; [eapply ctx_get_ok; [exact Hc|exact E3]|].
    destruct global as [g|]; [|reflexivity].
    destruct (ctx_get g n) eqn:E4; [eapply ctx_get_ok; [exact Hg|exact E4]|reflexivity].
  Qed.

  Lemma get_item_seq_ok v item r : vok v = true -> get_item_seq v item = ROk r -> vok r = true.
  Proof.
    intros Hv. unfold get_item_seq. destruct v; try (intros X; inversion X; reflexivity); try discriminate;
      try (destruct item; intros X; inversion X; reflexivity).
    - destruct (resolve_index item _) as [[i|]|]; cbn [res_bind]; try discriminate; [|intros X; inversion X; reflexivity].
      destruct (index_usize s i) eqn:E; [|discriminate]. intros X; inversion X; subst.
      destruct safe; [|reflexivity]. cbn in *. apply index_usize_in in E.
      unfold Taint.clean in *. rewrite forallb_forall in Hv. cbn. rewrite (Hv _ E). reflexivity.
    - destruct (resolve_index item _) as [[i|]|]; cbn [res_bind]; try discriminate; [|intros X; inversion X; reflexivity].
      destruct (index_usize l i) eqn:E; [|discriminate]. intros X; inversion X; subst.
      rewrite vok_arr in Hv. eapply forallb_in; [exact Hv|eapply index_usize_in, E].
  Qed.

  Lemma mark_safe_ok_flagged v : vok v = true -> value_is_safe v = true -> vok (mark_safe v) = true.
  Proof. destruct v; cbn; try reflexivity; try discriminate. intros H ->. exact H. Qed.
End Basics.

(* what an abstract state of Model/CapCheck.v claims about a concrete state *)
Definition kst (a : list bool) (st : list value) : Prop :=
  forall i, nth i a false = true -> exists x, nth_error st i = Some (VStr x true).
Definition lk_rel (k : lk) (o : option loop_frame) : Prop :=
  match k with
  | LUnk => True
  | LEx => exists fr, o = Some fr
  | LEnd t => exists fr, o = Some fr /\ lf_end_ip fr = t
  end.
Definition klo (l : list lk) (ls : list loop_frame) : Prop := forall i, lk_rel (nth i l LUnk) (nth_error ls i).
Definition crel (a : cstate) (s : state) : Prop := kst (c_stack a) (stack s) /\ klo (c_loops a) (loops s).

Definition cmatch (tbl : ctable) (ip : nat) (s : state) : Prop :=
  match nth_error tbl ip with
  | Some (Some a) => crel a s
  | Some None => False
  | None => True
  end.

Lemma kst_nil st : kst [] st.
Proof. intros i H. destruct i; discriminate. Qed.

Lemma kst_cons (b : bool) a v st : (b = true -> exists x, v = VStr x true) -> kst a st -> kst (b :: a) (v :: st).
Proof. intros Hb H [|i] Hi; [destruct (Hb Hi) as (x & ->); exists x; reflexivity|exact (H i Hi)]. Qed.

Lemma cflag_true v : cflag v = true -> exists x, v = VStr x true.
Proof. destruct v; try discriminate. cbn. intros ->. eexists. reflexivity. Qed.

Lemma kst_drop n a st : kst a st -> kst (skipn n a) (skipn n st).
Proof. intros H i Hi. rewrite nth_skipn in Hi. rewrite nth_error_skipn. exact (H _ Hi). Qed.

Lemma stack_sub_ok a b st : stack_sub a b = true -> kst a st -> kst b st.
Proof.
  intros Hs H i Hi. apply H. unfold stack_sub in Hs. rewrite forallb_forall in Hs.
  assert (Hlt : i < length b).
  { destruct (Nat.lt_ge_cases i (length b)) as [L|G]; [exact L|]. rewrite nth_overflow in Hi by exact G. discriminate. }
  specialize (Hs i). rewrite Hi in Hs. cbn in Hs. apply Hs. apply in_seq. lia.
Qed.

Lemma lk_sub_ok a b o : lk_sub a b = true -> lk_rel a o -> lk_rel b o.
Proof.
  destruct b as [| |t]; cbn; [auto| |].
  - destruct a as [| |t']; [discriminate|auto|]. intros _ (fr & -> & _). eauto.
  - destruct a as [| |t']; try discriminate. intros E. apply Nat.eqb_eq in E. subst. auto.
Qed.

Lemma loops_sub_ok a b ls : loops_sub a b = true -> klo a ls -> klo b ls.
Proof.
  intros Hs H i. unfold loops_sub in Hs. rewrite forallb_forall in Hs.
  destruct (Nat.lt_ge_cases i (length b)) as [L|G].
  - eapply lk_sub_ok; [apply Hs, in_seq; lia|apply H].
  - rewrite nth_overflow by exact G. exact I.
Qed.

Lemma cstate_sub_ok a b s : cstate_sub a b = true -> crel a s -> crel b s.
Proof.
  unfold cstate_sub. intros H [Hk Hl]. apply andb_prop in H. destruct H as [H1 H2].
  split; [eapply stack_sub_ok; eassumption|eapply loops_sub_ok; eassumption].
Qed.

Lemma klo_nil ls : klo [] ls.
Proof. intros i. destruct i; exact I. Qed.

Lemma klo_push k l fr ls : lk_rel k (Some fr) -> klo l ls -> klo (k :: l) (fr :: ls).
Proof. intros Hk H [|i]; [exact Hk|apply H]. Qed.

Lemma klo_drop n l ls : klo l ls -> klo (skipn n l) (skipn n ls).
Proof. intros H i. rewrite nth_skipn, nth_error_skipn. apply H. Qed.

Lemma crel_top s : crel c_top s.
Proof. split; [apply kst_nil|apply klo_nil]. Qed.

Lemma crel_same a s s' : stack s' = stack s -> loops s' = loops s -> crel a s -> crel a s'.
Proof. intros E1 E2 [H1 H2]. split; [rewrite E1; exact H1|rewrite E2; exact H2]. Qed.

Lemma crel_push (b : bool) A L s v :
  (b = true -> exists x, v = VStr x true) -> crel (mkC A L) s -> crel (mkC (b :: A) L) (push s v).
Proof. intros Hb [H1 H2]. split; [apply kst_cons; assumption|exact H2]. Qed.

Lemma crel_push_false A L s v : crel (mkC A L) s -> crel (mkC (false :: A) L) (push s v).
Proof. apply crel_push. discriminate. Qed.
Lemma crel_push_true A L s x : crel (mkC A L) s -> crel (mkC (true :: A) L) (push s (VStr x true)).
Proof. apply crel_push. eauto. Qed.

Lemma pop1_stack s v s1 : pop1 s = Some (v, s1) -> stack s = v :: stack s1 /\ loops s1 = loops s.
Proof. intros E. destruct (pop1_some _ _ _ E) as (t & Est & ->). auto. Qed.

Lemma crel_drop n A L s s1 :
  skipn n (stack s) = stack s1 -> loops s1 = loops s -> crel (mkC A L) s -> crel (mkC (skipn n A) L) s1.
Proof. intros E1 E2 [H1 H2]. split; [rewrite <- E1; apply kst_drop, H1|rewrite E2; exact H2]. Qed.

Lemma crel_pop1 A L s v s1 : pop1 s = Some (v, s1) -> crel (mkC A L) s -> crel (mkC (skipn 1 A) L) s1.
Proof. intros E. destruct (pop1_some _ _ _ E) as (t & Est & ->). apply crel_drop; [rewrite Est|]; reflexivity. Qed.
Lemma crel_pop2 A L s a b s1 : pop2 s = Some (a, b, s1) -> crel (mkC A L) s -> crel (mkC (skipn 2 A) L) s1.
Proof. intros E. destruct (pop2_some _ _ _ _ E) as (t & Est & ->). apply crel_drop; [rewrite Est|]; reflexivity. Qed.

Lemma crel_store_global a s n v : crel a s -> crel a (store_global s n v).
Proof. apply crel_same; reflexivity. Qed.

(* only the end_ip of a frame is known to the abstract state *)
Lemma crel_head_frame a s fr fr' rest :
  loops s = fr :: rest -> lf_end_ip fr' = lf_end_ip fr -> crel a s -> crel a (upd_loops s (fr' :: rest)).
Proof.
  intros El E [H1 H2]. split; [exact H1|]. rewrite El in H2. intros [|i]; [|exact (H2 (S i))]. specialize (H2 0).
  cbn [loops upd_loops nth_error] in *. destruct (nth 0 (c_loops a) LUnk) as [| |t]; cbn in *.
  - exact I.
  - exists fr'. reflexivity.
  - destruct H2 as (f & Hf & He). injection Hf as <-. exists fr'. split; [reflexivity|congruence].
Qed.

Lemma crel_store_local a s n v : crel a s -> crel a (store_local s n v).
Proof.
  intros H. unfold store_local. destruct (loops s) as [|f t] eqn:E; [apply crel_store_global, H|].
  eapply crel_head_frame; [exact E|reflexivity|exact H].
Qed.

Lemma crel_start_iter A L s items comp :
  crel (mkC A L) s -> crel (mkC A (LEnd 0 :: L)) (upd_loops s (new_loop items comp :: loops s)).
Proof. intros [H1 H2]. split; [exact H1|]. apply klo_push; [|exact H2]. eexists. split; reflexivity. Qed.

(* the loop stack on the fall-through edge of CapCheck.castep's Iterate arm *)
Definition lk_after_iterate (L : list lk) (t : nat) : list lk :=
  match L with (LEx | LEnd _) :: r => LEnd t :: r | _ => L end.

Lemma crel_iterate A L s t :
  crel (mkC A L) s ->
  crel (mkC A (lk_after_iterate L t))
       (match loops s with fr :: rest => upd_loops s (lf_advance fr t :: rest) | [] => s end).
Proof.
  intros [H1 H2]. assert (H0 := H2 0). cbn [c_stack c_loops] in *.
  split; [destruct (loops s); exact H1|]. destruct L as [|k r]; [apply klo_nil|]. cbn [c_loops nth nth_error] in *.
  destruct (loops s) as [|fr rest] eqn:E; cbn [loops upd_loops].
  - rewrite E. destruct k; [exact H2|destruct H0 as (? & X); discriminate|destruct H0 as (? & X & _); discriminate].
  - destruct k; cbn [lk_after_iterate]; intros [|i]; try exact (H2 (S i)); cbn;
      [exact I|eexists; split; [reflexivity|apply end_advance]..].
Qed.

(* `edges` are castep's: a step goes to the target of an edge whose claims the state meets; a Break out
   of a loop frame the table knows nothing about may land outside the chunk *)
Definition cedge (len : nat) (edges : list (nat * cstate)) (t : nat) (s : state) : Prop :=
  (exists a', In (t, a') edges /\ crel a' s) \/ len < t.

Lemma call_from_nth len tbl : forall c ip0 k i,
  call_from len tbl ip0 c = true -> nth_error c k = Some i -> cinstr_ok len tbl (ip0 + k) i = true.
Proof.
  induction c as [|x c IH]; intros ip0 k i H Hk; [destruct k; discriminate|].
  cbn in H. apply andb_prop in H. destruct H as [H1 H2]. destruct k as [|k].
  - inversion Hk; subst. rewrite Nat.add_0_r. exact H1.
  - replace (ip0 + S k) with (S ip0 + k) by lia. eapply IH; eassumption.
Qed.

Lemma cmatch_entry c tbl s : cap_table_ok c tbl = true -> cmatch tbl 0 s.
Proof.
  unfold cap_table_ok. intros H. apply andb_prop in H. destruct H as [H _]. apply andb_prop in H. destruct H as [_ H].
  unfold cmatch. destruct (nth_error tbl 0) as [[a|]|]; try discriminate.
  eapply cstate_sub_ok; [exact H|apply crel_top].
Qed.

Lemma cmatch_step c tbl ip i s :
  cap_table_ok c tbl = true -> nth_error c ip = Some i -> cmatch tbl ip s ->
  exists a edges, crel a s /\ castep (length c) i ip a = Some edges /\ forallb (cedge_ok tbl) edges = true.
Proof.
  unfold cap_table_ok. intros H Hi Hm. apply andb_prop in H. destruct H as [_ H].
  pose proof (call_from_nth _ _ _ 0 _ _ H Hi) as Hk. cbn in Hk. unfold cinstr_ok in Hk. unfold cmatch in Hm.
  destruct (nth_error tbl ip) as [[a|]|]; [|destruct Hm|discriminate].
  destruct (castep (length c) i ip a) as [edges|] eqn:Es; [|discriminate]. exists a, edges.
  split; [exact Hm|split; [exact Es|exact Hk]].
Qed.

Lemma cedge_match c tbl edges t s :
  cap_table_ok c tbl = true -> forallb (cedge_ok tbl) edges = true -> cedge (length c) edges t s -> cmatch tbl t s.
Proof.
  intros H He [(a' & Hin & Hr)|Ht]; unfold cmatch.
  - rewrite forallb_forall in He. specialize (He _ Hin). unfold cedge_ok in He. cbn [fst snd] in He.
    destruct (nth_error tbl t) as [[b|]|]; [|discriminate|exact I]. eapply cstate_sub_ok; eassumption.
  - unfold cap_table_ok in H. apply andb_prop in H. destruct H as [H _]. apply andb_prop in H. destruct H as [H _].
    apply Nat.eqb_eq in H. rewrite (proj2 (nth_error_None tbl t)) by lia. exact I.
Qed.

Lemma castep_unop len i ip a : is_unop i = true ->
  castep len i ip a = Some [(S ip, mkC (false :: skipn 1 (c_stack a)) (c_loops a))].
Proof.
  destruct i; try discriminate; try reflexivity. cbn [is_unop castep]. destruct (str_eqb n s_super); [discriminate|reflexivity].
Qed.

Lemma castep_binop len i ip a : is_binop i = true ->
  castep len i ip a = Some [(S ip, mkC (false :: skipn 2 (c_stack a)) (c_loops a))].
Proof. destruct i; try discriminate; reflexivity. Qed.

Lemma castep_stackop len i ip a : is_stackop i = true ->
  castep len i ip a = Some [(S ip, mkC (false :: skipn (stackop_pops i) (c_stack a)) (c_loops a))].
Proof. destruct i; try discriminate; reflexivity. Qed.

Lemma edge_hd len t a rest s : crel a s -> cedge len ((t, a) :: rest) t s.
Proof. intros H. left. exists a. split; [left; reflexivity|exact H]. Qed.

Lemma edge_snd len t a e rest s : crel a s -> cedge len (e :: (t, a) :: rest) t s.
Proof. intros H. left. exists a. split; [right; left; reflexivity|exact H]. Qed.

(* what the side condition buys at the one instruction that needs it *)
Lemma body_operand_flagged ch ip n s kw b rest :
  bodies_from_capture ch = true -> nth_error ch ip = Some (RenderBodyComponent n) ->
  cmatch (the_table ch) ip s -> stack s = kw :: b :: rest -> exists x, b = VStr x true.
Proof.
  intros Hb Hi Hm Hst. destruct (cmatch_step _ _ _ _ _ Hb Hi Hm) as ([A L] & edges & Hrel & Hstep & _).
  cbn [castep c_stack c_loops] in Hstep. destruct (nth 1 A false) eqn:Hn; [|discriminate].
  destruct (proj1 Hrel 1 Hn) as (x & Hx). rewrite Hst in Hx. cbn in Hx. inversion Hx. eauto.
Qed.

Section Inv.
  Variable W : Type.
  Variable wr : W -> str -> option W.
  Variable wd : world.
  Variable ok : N -> bool.
  Variable Wok : W -> Prop.          (* "what has been written so far is clean", for an abstract writer *)
  Variable ae : option bool.         (* the autoescape override of the render *)
  (* what is known about each piece of text handed to a sink: any predicate that holds of the literal
     text of the chunks, of the formatted safe values and of the escaper applied to the others *)
  Variable T : str -> Prop.
  Notation clean := (clean ok).
  Notation vok := (vok ok).
  Notation ctx_ok := (ctx_ok ok).
  Notation kw_ok := (kw_ok ok).
  Notation lf_ok := (lf_ok ok).
  Notation scope_ok := (scope_ok ok).
  Notation oscope_ok := (oscope_ok ok).
  Notation octx_ok := (octx_ok ok).

  Definition aeon (t : template) : bool := match ae with Some b => b | None => t_autoescape t end.

  (* literal text / constants as in Model/Taint.v, and the decidable side condition of
     Model/CapCheck.v: every RenderBodyComponent pops a body that a mint point pushed *)
  Definition chunk_okP (ch : list instr) : Prop :=
    chunk_ok ok ch = true /\ bodies_from_capture ch = true /\ (forall t, In (WriteText t) ch -> T t).

  Definition tpl_okP (t : template) : Prop :=
    aeon t = true /\ chunk_okP (t_chunk t) /\ chunk_okP (t_root_chunk t) /\
    (forall b lin, assoc_get (t_lineage t) b = Some lin -> Forall chunk_okP lin).

  (* the world's side of the invariant: its operations pass cleanliness on (the nine fields that
     world_passes below explains), and every chunk a nested run can start is ok *)
  Record world_ok : Prop := {
    wo_escape : forall s, clean (w_escape wd s) = true;
    wo_format : forall v, value_is_safe v = true -> vok v = true -> clean (w_format wd v) = true;
    wo_filter : forall n v k sc r sf, w_filter wd n v k sc = Some (ROk r, sf) ->
                  vok v = true -> kw_ok k = true -> scope_ok sc = true ->
                  vok (if sf then mark_safe r else r) = true;
    wo_function : forall n k sc r sf, w_function wd n k sc = Some (ROk r, sf) ->
                  kw_ok k = true -> scope_ok sc = true ->
                  vok (if sf then mark_safe r else r) = true;
    wo_math : forall i a b c, w_math wd i a b = ROk c -> vok a = true -> vok b = true -> vok c = true;
    wo_negate : forall a c, w_negate wd a = ROk c -> vok a = true -> vok c = true;
    wo_map_get : forall m k x, w_map_get wd m k = Some x -> kw_ok m = true -> vok x = true;
    wo_get_attr : forall v a x, w_get_attr wd v a = Some x -> vok v = true -> vok x = true;
    wo_build_ctx : forall n d ch, assoc_get (w_components wd) n = Some (d, ch) ->
                  forall k b c, w_build_ctx wd d k b = ROk c -> kw_ok k = true ->
                  obody_ok ok b = true -> ctx_ok c = true;
    wo_templates : forall n t, assoc_get (w_templates wd) n = Some t -> tpl_okP t;
    wo_components : forall n d c, assoc_get (w_components wd) n = Some (d, c) -> chunk_okP c }.

  Hypothesis Hw : world_ok.
  Hypothesis Hwr : forall w t w', wr w t = Some w' -> Wok w -> clean t = true -> T t -> Wok w'.
  Hypothesis HT_raw : forall v, value_is_safe v = true -> T (w_format wd v).
  Hypothesis HT_esc : forall v, value_is_safe v = false -> T (w_escape wd (w_format wd v)).

  Definition OInv (o : sink W) : Prop :=
    match o with SinkTop w => Wok w | SinkBuf b => clean b = true end.

  Definition blocks_okP (bs : list (str * list (list instr) * nat)) : Prop :=
    Forall (fun e => Forall chunk_okP (snd (fst e))) bs.

  Record SInv (s : state) : Prop := {
    si_stack : forallb vok (stack s) = true;
    si_loops : forallb lf_ok (loops s) = true;
    si_setvars : ctx_ok (setvars s) = true;
    si_caps : forallb clean (caps s) = true;
    si_blocks : blocks_okP (blocks s);
    si_parent : oscope_ok (parent s) = true;
    si_context : ctx_ok (context s) = true;
    si_global : octx_ok (global s) = true;
    si_bb : clean (block_buffer s) = true }.

  Lemma SInv_upd_stack s st : SInv s -> forallb vok st = true -> SInv (upd_stack s st).
  Proof. intros [] H. constructor; cbn; assumption. Qed.
  Lemma SInv_upd_loops s l : SInv s -> forallb lf_ok l = true -> SInv (upd_loops s l).
  Proof. intros [] H. constructor; cbn; assumption. Qed.
  Lemma SInv_upd_setvars s c : SInv s -> ctx_ok c = true -> SInv (upd_setvars s c).
  Proof. intros [] H. constructor; cbn; assumption. Qed.
  Lemma SInv_upd_caps s c : SInv s -> forallb clean c = true -> SInv (upd_caps s c).
  Proof. intros [] H. constructor; cbn; assumption. Qed.
  Lemma SInv_upd_blocks s b cb : SInv s -> blocks_okP b -> SInv (upd_blocks s b cb).
  Proof. intros [] H. constructor; cbn; assumption. Qed.
  Lemma SInv_upd_block_buffer s b : SInv s -> clean b = true -> SInv (upd_block_buffer s b).
  Proof. intros [] H. constructor; cbn; assumption. Qed.

  Lemma forallb_cons_intro {A} (g : A -> bool) x l : g x = true -> forallb g l = true -> forallb g (x :: l) = true.
  Proof. intros Hx Hl. cbn. rewrite Hx, Hl. reflexivity. Qed.

  Lemma SInv_head_frame s fr fr' rest :
    loops s = fr :: rest -> (lf_ok fr = true -> lf_ok fr' = true) -> SInv s -> SInv (upd_loops s (fr' :: rest)).
  Proof.
    intros E Hf Hs. pose proof (si_loops _ Hs) as H. rewrite E in H. apply andb_prop in H.
    apply SInv_upd_loops; [exact Hs|apply forallb_cons_intro; [apply Hf|]; apply H].
  Qed.

  Lemma SInv_caps_cons s c ct : SInv s -> caps s = c :: ct -> clean c = true /\ forallb clean ct = true.
  Proof. intros Hs E. pose proof (si_caps _ Hs) as H. rewrite E in H. apply andb_prop, H. Qed.

  Lemma push_inv s v : SInv s -> vok v = true -> SInv (push s v).
  Proof. intros Hs Hv. apply SInv_upd_stack; [exact Hs|]. cbn. rewrite Hv. apply Hs. Qed.

  Lemma pop1_inv s v s1 : pop1 s = Some (v, s1) -> SInv s -> vok v = true /\ SInv s1.
  Proof.
    intros E Hs. destruct (pop1_some _ _ _ E) as (t & Est & ->).
    pose proof (si_stack _ Hs) as H. rewrite Est in H. cbn in H. apply andb_prop in H.
    split; [apply H|apply SInv_upd_stack; [exact Hs|apply H]].
  Qed.

  Lemma pop2_inv s a b s1 : pop2 s = Some (a, b, s1) -> SInv s -> vok a = true /\ vok b = true /\ SInv s1.
  Proof.
    intros E Hs. destruct (pop2_some _ _ _ _ E) as (t & Est & ->).
    pose proof (si_stack _ Hs) as H. rewrite Est in H. cbn in H. rewrite !andb_true_iff in H.
    destruct H as (Hb & Ha & Ht). split; [exact Ha|]. split; [exact Hb|]. apply SInv_upd_stack; assumption.
  Qed.

  Lemma scope_of_ok s : SInv s -> scope_ok (scope_of s) = true.
  Proof.
    intros []. unfold scope_of. cbn [Taint.scope_ok].
    rewrite si_loops0, si_setvars0, si_context0, si_global0. cbn.
    unfold Taint.oscope_ok in si_parent0. destruct (parent s); [rewrite si_parent0|]; reflexivity.
  Qed.

  Lemma get_value_ok s n : SInv s -> vok (get_value s n) = true.
  Proof. intros Hs. apply scope_get_ok, scope_of_ok, Hs. Qed.

  Lemma dump_context_ok s : SInv s -> vok (dump_context s) = true.
  Proof.
    intros Hs. unfold dump_context. rewrite vok_map, kw_of_ctx. apply (fold_left_inv (fun a => ctx_ok a = true) lf_ok).
    - intros a f Ha Hf. apply ctx_add_ok; [exact Ha|]. apply lf_ok_parts in Hf. apply Hf.
    - apply forallb_rev, Hs.
    - repeat apply ctx_add_ok; try apply Hs. pose proof (si_global _ Hs) as Hg.
      destruct (global s); [apply ctx_add_ok; [reflexivity|exact Hg]|reflexivity].
  Qed.

  Lemma load_name_v_ok s n : SInv s -> vok (load_name_v s n) = true.
  Proof. intros Hs. unfold load_name_v. destruct (str_eqb n magical_dump_var); [apply dump_context_ok|apply get_value_ok]; exact Hs. Qed.

  Lemma store_global_inv s n v : SInv s -> vok v = true -> SInv (store_global s n v).
  Proof. intros Hs Hv. apply SInv_upd_setvars; [exact Hs|]. apply ctx_set_ok; [apply Hs|exact Hv]. Qed.

  Lemma store_local_inv s n v : SInv s -> vok v = true -> SInv (store_local s n v).
  Proof.
    intros Hs Hv. unfold store_local. destruct (loops s) as [|f t] eqn:E; [apply store_global_inv; assumption|].
    eapply SInv_head_frame; [exact E| |exact Hs]. intros Hf. apply lf_store_ok; assumption.
  Qed.

  (* the state changes in its capture stack at most, which crel does not look at *)
  Lemma emit_inv len edges t s o text s1 o1 :
    emit W wr s o text = Some (s1, o1) -> SInv s -> cedge len edges t s -> OInv o -> clean text = true -> T text ->
    SInv s1 /\ cedge len edges t s1 /\ OInv o1.
  Proof.
    intros E Hs Hm Ho Ht HT. destruct (emit_some _ _ _ _ _ _ _ E) as [(_ & -> & Ew)|(c & ct & Ec & -> & ->)].
    - split; [exact Hs|split; [exact Hm|]]. destruct o as [w|b]; cbn in Ew.
      + destruct (wr w text) as [w'|] eqn:Ew'; [|discriminate]. injection Ew as <-. eapply Hwr; eassumption.
      + injection Ew as <-. apply clean_app_intro; assumption.
    - split; [|split; [exact Hm|exact Ho]]. destruct (SInv_caps_cons _ _ _ Hs Ec) as [Hc Htl].
      apply SInv_upd_caps; [exact Hs|apply forallb_cons_intro; [apply clean_app_intro; assumption|exact Htl]].
  Qed.

  (* what WriteTop / WritePath write with autoescape on: safe => clean by the invariant; not safe =>
     escaped => clean *)
  Lemma written_ok v : vok v = true -> clean (written wd true v) = true /\ T (written wd true v).
  Proof.
    intros Hv. unfold written. cbn [negb orb]. destruct (value_is_safe v) eqn:Es;
      [exact (conj (wo_format Hw _ Es Hv) (HT_raw _ Es))|exact (conj (wo_escape Hw _) (HT_esc _ Es))].
  Qed.

  Lemma attr_or_undef_ok v a :
    vok v = true -> vok (match w_get_attr wd v a with Some x => x | None => VUndef end) = true.
  Proof. intros Hv. destruct (w_get_attr wd v a) eqn:E; [eapply (wo_get_attr Hw); eassumption|reflexivity]. Qed.

  Lemma subscript_ok opt val sub r : subscript wd opt val sub = ROk r -> vok val = true -> vok r = true.
  Proof.
    unfold subscript. intros E Hv.
    destruct (opt && _); [inversion E; reflexivity|].
    destruct (is_undefined val); [discriminate|]. destruct (is_undefined sub); [discriminate|].
    destruct (get_item wd val sub) eqn:G; [|destruct e; discriminate]. inversion E; subst.
    unfold get_item in G. destruct val; try (eapply get_item_seq_ok; [|exact G]; assumption).
    destruct (w_as_key wd sub); [|discriminate]. inversion G; subst.
    destruct (w_map_get wd m k) eqn:M; [|reflexivity]. eapply (wo_map_get Hw); [exact M|]. rewrite <- vok_map. exact Hv.
  Qed.

  Lemma path_walk_ok : forall attrs cur r, path_walk_v wd cur attrs = ROk r -> vok cur = true -> vok r = true.
  Proof.
    induction attrs as [|a t IH]; cbn; intros cur r E Hc; [inversion E; subst; exact Hc|].
    destruct (is_undefined cur); [discriminate|].
    destruct (w_get_attr wd cur a) eqn:G.
    - eapply IH; [exact E|]. eapply (wo_get_attr Hw); eassumption.
    - destruct t; [inversion E; reflexivity|discriminate].
  Qed.

  Lemma write_walk_ok : forall attrs cur r, write_walk_v wd cur attrs = ROk r -> vok cur = true -> vok r = true.
  Proof.
    induction attrs as [|a t IH]; cbn; intros cur r E Hc; [inversion E; subst; exact Hc|].
    destruct (w_get_attr wd cur a) eqn:G; [|discriminate].
    eapply IH; [exact E|]. eapply (wo_get_attr Hw); eassumption.
  Qed.

  Lemma load_path_v_ok s path r : load_path_v wd s path = ROk r -> SInv s -> vok r = true.
  Proof.
    unfold load_path_v. destruct path as [|n attrs]; [discriminate|]. intros E Hs.
    destruct attrs as [|a t]; [inversion E; subst; apply load_name_v_ok, Hs|].
    destruct (is_undefined (get_value s n)); [discriminate|].
    eapply path_walk_ok; [exact E|apply get_value_ok, Hs].
  Qed.

  Lemma write_path_v_ok s path r : write_path_v wd s path = ROk r -> SInv s -> vok r = true.
  Proof.
    unfold write_path_v. destruct path as [|n attrs]; [discriminate|]. intros E Hs.
    set (root := match attrs with [] => load_name_v s n | _ => get_value s n end) in *.
    assert (Hr : vok root = true).
    { subst root. destruct attrs; [apply load_name_v_ok|apply get_value_ok]; exact Hs. }
    destruct (is_undefined root); [discriminate|].
    destruct (write_walk_v wd root attrs) eqn:G; [|discriminate].
    destruct (is_undefined a); [discriminate|]. inversion E; subst.
    eapply write_walk_ok; eassumption.
  Qed.

  Lemma kwargs_of_ok kw k : kwargs_of kw = Some k -> vok kw = true -> kw_ok k = true.
  Proof. destruct kw; try discriminate. intros X; inversion X; subst. rewrite vok_map. auto. Qed.

  Definition post (r : rres W) : Prop :=
    match r with RDone s o => SInv s /\ OInv o | _ => True end.

  Definition inv_at_fuel (f : nat) : Prop :=
    forall tpl depth ch ip s o, tpl_okP tpl -> chunk_okP ch -> cmatch (the_table ch) ip s -> SInv s -> OInv o ->
      post (run W wr wd f tpl ae depth ch ip s o).

  Lemma new_state_inv c : ctx_ok c = true -> SInv (new_state c).
  Proof. intros H. constructor; cbn; try reflexivity; [constructor|exact H]. Qed.

  Lemma blocks_tl bs : blocks_okP bs -> blocks_okP (tl bs).
  Proof. intros H. destruct bs; [exact H|]. inversion H; assumption. Qed.

  Lemma unop_ok i sc v r : scope_ok sc = true -> vok v = true -> unop wd i sc v = ROk r -> vok r = true.
  Proof.
    intros Hsc Hv. destruct i; try discriminate; cbn [unop].
    1, 2: destruct (_ && _); [intros E; injection E as <-; reflexivity|]; destruct (is_undefined v); [discriminate|];
          intros E; injection E as <-; apply attr_or_undef_ok, Hv.
    - destruct (kwargs_of v) as [k|] eqn:Ek; [|discriminate].
      destruct (w_function wd n k sc) as [[[x|e] sf]|] eqn:Ef; try discriminate. intros E. injection E as <-.
      eapply (wo_function Hw); [exact Ef|eapply kwargs_of_ok; eassumption|exact Hsc].
    - intros E. injection E as <-. reflexivity.
    - destruct (w_negate wd v) eqn:En; [|discriminate]. intros E. injection E as <-. eapply (wo_negate Hw); eassumption.
  Qed.

  Lemma binop_ok i sc a b r :
    scope_ok sc = true -> vok a = true -> vok b = true -> binop wd i sc a b = ROk r -> vok r = true.
  Proof.
    intros Hsc Ha Hb E.
    assert (Hm : forall j c, w_math wd j a b = ROk c -> vok c = true) by (intros j c Em; eapply (wo_math Hw); eassumption).
    (* comparisons, tests and ~ give a boolean or an unflagged string; arithmetic passes values on *)
    destruct i; try discriminate E; cbn [binop] in E;
      try (injection E as <-; reflexivity); try (eapply subscript_ok; eassumption);
      try solve [repeat match type of E with context [match ?x with _ => _ end] => destruct x eqn:? end;
                 try discriminate E; injection E as <-; first [reflexivity | eapply Hm; eassumption]].
    - (* ApplyFilter *) destruct (kwargs_of b) as [k|] eqn:Ek; [|discriminate].
      destruct (w_filter wd n a k sc) as [[[x|e] sf]|] eqn:Ef; try discriminate. injection E as <-.
      eapply (wo_filter Hw); [exact Ef|exact Ha|eapply kwargs_of_ok; eassumption|exact Hsc].
    - (* AppendToList *) destruct a; try discriminate. injection E as <-.
      rewrite vok_arr in *. rewrite forallb_app, Ha. cbn. rewrite Hb. reflexivity.
  Qed.

  Lemma start_iter_inv s v items comp :
    SInv s -> vok v = true -> iter_items v = Some items -> SInv (upd_loops s (new_loop items comp :: loops s)).
  Proof.
    intros Hs Hv Ei. apply SInv_upd_loops; [exact Hs|].
    apply forallb_cons_intro; [apply new_loop_ok; eapply iter_items_ok; eassumption|apply Hs].
  Qed.

  (* `edges` are castep's at ip. A text written is clean and a piece T. A nested run starts on an ok chunk
     of an ok template, from a state that keeps the invariant, into a clean buffer unless into the caller's
     sink; whatever such state it ends in and whatever clean text it leaves in the buffer, k gives a state
     of the caller that may go on at S ip *)
  Definition eff_inv (len : nat) (edges : list (nat * cstate)) (ip : nat) (e : effect) : Prop :=
    match e with
    | EffPure (PNext s1) => SInv s1 /\ cedge len edges (S ip) s1
    | EffPure (PGoto t s1) => SInv s1 /\ cedge len edges t s1
    | EffPure (PFail _) => True
    | EffEmit s1 t => SInv s1 /\ cedge len edges (S ip) s1 /\ clean t = true /\ T t
    | EffCall t2 _ c2 s0 b k =>
        tpl_okP t2 /\ chunk_okP c2 /\ SInv s0 /\ match b with Some c => clean c = true | None => True end /\
        forall s2 text, SInv s2 -> clean text = true -> SInv (k s2 text) /\ cedge len edges (S ip) (k s2 text)
    end.

  Lemma pure_effect_inv len i ip a edges s r :
    Taint.instr_ok ok i = true -> castep len i ip a = Some edges -> crel a s -> SInv s -> pure_step wd i s = Some r ->
    eff_inv len edges ip (EffPure r).
  Proof.
    destruct a as [A L]. intros Hiok Hstep Hrel Hs Hp. unfold pure_step in Hp.
    destruct (is_unop i) eqn:Hu; [|destruct (is_binop i) eqn:Hb; [|destruct (is_stackop i) eqn:Hk]].
    - rewrite castep_unop in Hstep by exact Hu. injection Hstep as <-. injection Hp as <-.
      destruct (pop1 s) as [[v s1]|] eqn:Epop; [|exact I]. destruct (pop1_inv _ _ _ Epop Hs) as [Hv Hs1].
      destruct (unop wd i (scope_of s1) v) as [x|] eqn:E; [|exact I].
      split; [|eapply edge_hd, crel_push_false, crel_pop1; eassumption].
      apply push_inv; [exact Hs1|]. eapply unop_ok; [apply scope_of_ok, Hs1|exact Hv|exact E].
    - rewrite castep_binop in Hstep by exact Hb. injection Hstep as <-. injection Hp as <-.
      destruct (pop2 s) as [[[x y] s1]|] eqn:Epop; [|exact I]. destruct (pop2_inv _ _ _ _ Epop Hs) as (Hx & Hy & Hs1).
      destruct (binop wd i (scope_of s1) x y) as [z|] eqn:E; [|exact I].
      split; [|eapply edge_hd, crel_push_false, crel_pop2; eassumption].
      apply push_inv; [exact Hs1|]. eapply binop_ok; [apply scope_of_ok, Hs1|exact Hx|exact Hy|exact E].
    - rewrite castep_stackop in Hstep by exact Hk. injection Hstep as <-. injection Hp as <-.
      pose proof (stackop_spec wd i (stack s) Hk) as P. destruct (stackop wd i (stack s)) as [st'|]; [|exact I].
      destruct P as (v & -> & _ & Hv). split.
      + apply SInv_upd_stack; [exact Hs|]. apply forallb_cons_intro; [apply Hv, Hs|apply forallb_skipn, Hs].
      + apply edge_hd. split; [|apply Hrel]. apply kst_cons; [discriminate|apply kst_drop, Hrel].
    - destruct i; try discriminate Hp; injection Hp as <-; cbn [Taint.instr_ok] in Hiok;
        cbn [castep c_stack c_loops] in Hstep; try (injection Hstep as <-);
        (* the instructions that pop one value do that first *)
        try match goal with |- context [pop1 s] =>
              destruct (pop1 s) as [[v s1]|] eqn:Epop; [|exact I];
              destruct (pop1_inv _ _ _ Epop Hs) as [Hv Hs1]; pose proof (crel_pop1 _ _ _ _ _ Epop Hrel) as Hrel1
            end.
      + (* LoadConst *) split; [apply push_inv; assumption|apply edge_hd, crel_push, Hrel; apply cflag_true].
      + (* LoadName *) split; [apply push_inv; [exact Hs|apply load_name_v_ok, Hs]|apply edge_hd, crel_push_false, Hrel].
      + (* SetI *) split; [apply store_local_inv; assumption|apply edge_hd, crel_store_local, Hrel1].
      + (* SetGlobal *) split; [apply store_global_inv; assumption|apply edge_hd, crel_store_global, Hrel1].
      + (* Jump *) split; [exact Hs|apply edge_hd, Hrel].
      + (* PopJumpIfFalse *) destruct (is_truthy v); (split; [exact Hs1|]); [apply edge_hd, Hrel1|apply edge_snd, Hrel1].
      + (* JumpIfFalseOrPop *) destruct (is_truthy v); split; [exact Hs1|apply edge_hd, Hrel1|exact Hs|apply edge_snd, Hrel].
      + (* JumpIfTrueOrPop *) destruct (is_truthy v); split; [exact Hs|apply edge_snd, Hrel|exact Hs1|apply edge_hd, Hrel1].
      + (* Capture *) split; [|apply edge_hd; exact Hrel].
        apply SInv_upd_caps; [exact Hs|apply forallb_cons_intro; [reflexivity|apply Hs]].
      + (* EndCapture: mint point; the buffer is clean by the invariant *)
        destruct (caps s) as [|c ct] eqn:Ec; [exact I|]. destruct (SInv_caps_cons _ _ _ Hs Ec) as [Hcc Hct].
        split; [apply push_inv; [apply SInv_upd_caps; assumption|exact Hcc]|apply edge_hd, crel_push_true; exact Hrel].
      + (* StartIterate *) destruct (iter_items v) as [items|] eqn:Ei; [|exact I]. destruct (kv && _); [exact I|].
        split; [eapply start_iter_inv; eassumption|apply edge_hd, crel_start_iter, Hrel1].
      + (* StartIterateComprehension *)
        destruct (iter_items v) as [items|] eqn:Ei; [|exact I]. destruct (kv && _); [exact I|].
        split; [eapply start_iter_inv; eassumption|apply edge_hd, crel_start_iter, Hrel1].
      + (* Iterate *) pose proof (crel_iterate A L s t Hrel) as Hit.
        destruct (loops s) as [|fr rest] eqn:El; [split; [exact Hs|apply edge_hd, Hit]|].
        destruct (lf_rest fr); split; [exact Hs|apply edge_snd, Hrel| |apply edge_hd, Hit].
        eapply SInv_head_frame; [exact El|apply lf_advance_ok|exact Hs].
      + (* StoreLocal *) destruct (loops s) as [|fr rest] eqn:El; [split; [exact Hs|apply edge_hd; exact Hrel]|].
        split; [eapply SInv_head_frame; [exact El|apply lf_store_local_ok|exact Hs]|].
        apply edge_hd. eapply crel_head_frame; [exact El|apply end_store_local|exact Hrel].
      + (* StoreDidNotIterate: a known frame cannot be missing: the two goals left after `first` are
           loops s = [] against an abstract loop stack whose head is LEx, resp. LEnd _ *)
        destruct (loops s) as [|fr rest] eqn:El; (split; [first [exact Hs|apply push_inv; [exact Hs|reflexivity]]|]);
          destruct L as [|[| |t0] L']; injection Hstep as <-; apply edge_hd;
          first [ apply crel_push_false; exact Hrel | split; [apply kst_nil|apply Hrel] | idtac ].
        * destruct (proj2 Hrel 0) as (fr0 & X). cbn in X. rewrite El in X. discriminate.
        * destruct (proj2 Hrel 0) as (fr0 & X & _). cbn in X. rewrite El in X. discriminate.
      + (* Break *) destruct (loops s) as [|fr rest] eqn:El; (split; [exact Hs|]).
        * destruct L as [|[| |t0] L']; injection Hstep as <-; try (apply edge_hd, Hrel).
          destruct (proj2 Hrel 0) as (fr0 & X & _). cbn in X. rewrite El in X. discriminate.
        * assert (Hany : cedge len ((S ip, mkC A L) :: map (fun t => (t, mkC A L)) (seq 0 (S len))) (lf_end_ip fr) s).
          { destruct (Nat.le_gt_cases (lf_end_ip fr) len) as [Hle|Hgt]; [left|right; exact Hgt].
            eexists. split; [|exact Hrel]. right. apply in_map_iff. exists (lf_end_ip fr).
            split; [reflexivity|apply in_seq; lia]. }
          destruct L as [|[| |t0] L']; injection Hstep as <-; try exact Hany.
          destruct (proj2 Hrel 0) as (fr0 & X & Hend). cbn in X. rewrite El in X. injection X as <-.
          rewrite Hend. apply edge_hd, Hrel.
      + (* PopLoop: tl is skipn 1 *) split; [apply SInv_upd_loops; [exact Hs|apply (forallb_skipn _ 1), Hs]|].
        apply edge_hd. split; [apply Hrel|apply (klo_drop 1), Hrel].
      + (* LoadPath *) destruct (load_path_v wd s p) as [v|] eqn:E; [|exact I].
        split; [apply push_inv; [exact Hs|eapply load_path_v_ok; eassumption]|apply edge_hd, crel_push_false, Hrel].
  Qed.

  Lemma instr_effect_inv tpl depth ch len i ip a edges s :
    tpl_okP tpl -> chunk_okP ch -> In i ch -> castep len i ip a = Some edges -> crel a s -> SInv s ->
    eff_inv len edges ip (instr_effect wd tpl ae depth i s).
  Proof.
    intros Ht Hc Hin Hstep Hrel Hs.
    pose proof (forallb_in _ _ _ (proj1 Hc) Hin) as Hiok.
    unfold instr_effect. destruct (pure_step wd i s) as [r|] eqn:Hp.
    - exact (pure_effect_inv len i ip a edges s r Hiok Hstep Hrel Hs Hp).
    - apply pure_step_none in Hp.
      assert (Hae : match ae with Some b => b | None => t_autoescape tpl end = true) by apply Ht.
      destruct a as [A L].
      destruct i; try discriminate Hp; cbn [Taint.instr_ok] in Hiok; cbn [castep c_stack c_loops is_effect] in Hstep, Hp;
        rewrite ?Hp in Hstep; try (injection Hstep as <-); rewrite ?Hae; unfold EffFail; cbn [eff_inv];
        (* the eight goals left, in constructor order of `instr`: WriteText, WriteTop, Include,
           CallFunction "super", RenderInlineComponent (5), RenderBodyComponent (6), RenderBlock,
           WritePath; Hae: WriteTop and WritePath read the autoescape override *)
        try match goal with |- context [pop1 s] =>
              destruct (pop1 s) as [[v s1]|] eqn:Epop; [destruct (pop1_inv _ _ _ Epop Hs) as [Hv Hs1]|exact I]
            end.
      (* RenderInlineComponent and RenderBodyComponent: the result is a mint point, and so is
         body.mark_safe() for the body that the second pops. Both look up the component (5-6), the body
         form pops and cleans its body (6), both build the context the component chunk starts from (5-6). *)
      5-6: (destruct (kwargs_of v) as [k0|] eqn:Ek; [|exact I];
            destruct (assoc_get (w_components wd) n) as [[def cchunk]|] eqn:Ecp; [|exact I];
            pose proof (crel_pop1 _ _ _ _ _ Epop Hrel) as Hr).
      6: (destruct (nth 1 A false) eqn:Hn1; [|discriminate]; injection Hstep as <-;
          destruct (pop1 s1) as [[b s2]|] eqn:Epop2; cbv beta iota; [|exact I];
          destruct (pop1_inv _ _ _ Epop2 Hs1) as [Hb Hs2];
          apply (crel_pop1 _ _ _ _ _ Epop2) in Hr; rewrite skipn_skipn in Hr;
          (* the slot under the kwargs is known to hold a flagged string, so mark_safe changes
             nothing and the body is clean by the invariant *)
          assert (Hmb : vok (mark_safe b) = true)
            by (destruct (proj1 Hrel 1 Hn1) as (x & Hx);
                rewrite (proj1 (pop1_stack _ _ _ Epop)), (proj1 (pop1_stack _ _ _ Epop2)) in Hx;
                injection Hx as ->; exact Hb)).
      5-6: (destruct (w_build_ctx wd def k0 _) as [cctx|] eqn:Eb; [|exact I];
            destruct (Nat.ltb (w_max_depth wd) (S depth)); [exact I|];
            split; [exact Ht|split; [exact (wo_components Hw _ _ _ Ecp)|split; [|split; [reflexivity|]]]];
            [apply new_state_inv; eapply (wo_build_ctx Hw);
               [exact Ecp|exact Eb|eapply kwargs_of_ok; eassumption|first [reflexivity|exact Hmb]]
            |intros _ text _ Htext; split; [apply push_inv; assumption|apply edge_hd, crel_push_true, Hr]]).
      + (* WriteText *) exact (conj Hs (conj (edge_hd _ _ _ _ _ Hrel) (conj Hiok (proj2 (proj2 Hc) _ Hin)))).
      + (* WriteTop *) destruct (is_undefined v); [exact I|].
        exact (conj Hs1 (conj (edge_hd _ _ _ _ _ (crel_pop1 _ _ _ _ _ Epop Hrel)) (written_ok v Hv))).
      + (* Include *)
        destruct (assoc_get (w_templates wd) n) as [t2|] eqn:Et; [|exact I].
        pose proof (wo_templates Hw _ _ Et) as Ht2.
        assert (Hinc : SInv (include_start s)).
        { constructor; cbn; try reflexivity; [constructor|apply scope_of_ok, Hs|apply Hs]. }
        destruct (caps s) as [|c ct] eqn:Ec; (split; [exact Ht2|split; [apply Ht2|split; [exact Hinc|]]]).
        * split; [exact I|]. intros _ _ _ _. exact (conj Hs (edge_hd _ _ _ _ _ Hrel)).
        * destruct (SInv_caps_cons _ _ _ Hs Ec) as [Hcc Hct]. split; [exact Hcc|].
          (* crel does not look at the capture stack *)
          intros _ c1 _ Hc1. split; [|exact (edge_hd _ _ _ _ _ Hrel)].
          apply SInv_upd_caps; [exact Hs|apply forallb_cons_intro; assumption].
      + (* CallFunction "super": mint point; the nested block renders into a fresh buffer with the
           capture stack detached *)
        destruct (cur_block s1) as [cb|] eqn:Ecb; [|exact I].
        destruct (find_block cb (blocks s1) []) as [[[pre [[bn lin] lvl]] post']|] eqn:Ef; [|exact I].
        destruct (find_block_Forall chunk_okP _ _ _ _ _ _ _ Ef (si_blocks _ Hs1)) as (Hlin & Hbl).
        destruct (nth_error lin (S lvl)) as [bchunk|] eqn:En; [|exact I].
        split; [exact Ht|split; [|split; [|split; [reflexivity|]]]].
        * rewrite Forall_forall in Hlin. apply Hlin. eapply nth_error_In, En.
        * apply SInv_upd_caps; [|reflexivity]. apply SInv_upd_blocks; [exact Hs1|apply Hbl].
        * intros s3 text Hs3 Htext. split; [|apply edge_hd, crel_push_true, crel_top]. apply push_inv; [|exact Htext].
          apply SInv_upd_caps; [|apply Hs1]. apply SInv_upd_blocks; [exact Hs3|apply Hbl].
      + (* RenderBlock: the block chunk runs on the caller's own stack and loop frames and CapCheck
           does not say how it leaves them, so castep claims nothing afterwards (c_top); after
           super() likewise, apart from the flagged result *)
        destruct (assoc_get (t_lineage tpl) n) as [[|bchunk lin_rest]|] eqn:El; try exact I.
        pose proof (proj2 (proj2 (proj2 Ht)) _ _ El) as Hl.
        assert (Hbc : chunk_okP bchunk) by (inversion Hl; assumption).
        assert (Hs1 : SInv (upd_blocks s ((n, bchunk :: lin_rest, 0) :: blocks s) (Some n))).
        { apply SInv_upd_blocks; [exact Hs|constructor; [exact Hl|apply Hs]]. }
        cbv zeta. destruct (match capture_block s with Some _ => _ | None => _ end);
          (split; [exact Ht|split; [exact Hbc|]]).
        * split; [apply SInv_upd_caps; [exact Hs1|reflexivity]|split; [reflexivity|]].
          intros s2 text Hs2 Htext. split; [|apply edge_hd, crel_top]. apply SInv_upd_block_buffer; [|exact Htext].
          apply SInv_upd_caps; [apply SInv_upd_blocks; [exact Hs2|apply blocks_tl, Hs2]|apply Hs].
        * split; [exact Hs1|split; [exact I|]].
          intros s2 _ Hs2 _. split; [apply SInv_upd_blocks; [exact Hs2|apply blocks_tl, Hs2]|apply edge_hd, crel_top].
      + (* WritePath *)
        destruct (write_path_v wd s p) as [v|] eqn:E; [|exact I].
        exact (conj Hs (conj (edge_hd _ _ _ _ _ Hrel) (written_ok v (write_path_v_ok _ _ _ E Hs)))).
  Qed.

  Lemma perform_inv f tpl depth ch ip edges o e :
    inv_at_fuel f -> tpl_okP tpl -> chunk_okP ch -> forallb (cedge_ok (the_table ch)) edges = true -> OInv o ->
    eff_inv (length ch) edges ip e ->
    post (perform W wr (fun t d c => run W wr wd f t ae d c) tpl depth ch ip o e).
  Proof.
    intros IH Ht Hc He Ho.
    (* how every case ends: the run continues where the table allows the state *)
    assert (GO : forall t s1 o1, SInv s1 /\ cedge (length ch) edges t s1 -> OInv o1 ->
                   post (run W wr wd f tpl ae depth ch t s1 o1)).
    { intros t s1 o1 (Hs1 & Hm) Ho1.
      exact (IH tpl depth ch t s1 o1 Ht Hc (cedge_match _ _ _ _ _ (proj1 (proj2 Hc)) He Hm) Hs1 Ho1). }
    destruct e as [[s1|t s1|e]|s1 t|t2 d2 c2 s0 b k]; cbn [perform eff_inv].
    - intros H. exact (GO _ _ _ H Ho).
    - intros H. exact (GO _ _ _ H Ho).
    - exact id.
    - intros (Hs1 & Hm & Hcl & Ht1). destruct (emit W wr s1 o t) as [[s2 o2]|] eqn:E; [|exact I].
      destruct (emit_inv _ _ _ _ _ _ _ _ E Hs1 Hm Ho Hcl Ht1) as (Hs2 & Hm2 & Ho2). exact (GO _ _ _ (conj Hs2 Hm2) Ho2).
    - (* the nested chunk is entered with nothing known, which every state matches *)
      intros (Ht2 & Hc2 & Hs0 & Hb & Hk).
      assert (P : post (run W wr wd f t2 ae d2 c2 0 s0 (call_sink W o b))).
      { apply IH; [exact Ht2|exact Hc2|exact (cmatch_entry _ _ _ (proj1 (proj2 Hc2)))|exact Hs0|].
        destruct b; [exact Hb|exact Ho]. }
      destruct (run W wr wd f t2 ae d2 c2 0 s0 (call_sink W o b)) as [s2 o2| |]; [|exact I|exact I].
      destruct P as [Hs2 Ho2]. destruct b as [c|]; [destruct o2 as [w|text]; [exact I|]|].
      + exact (GO _ _ _ (Hk s2 text Hs2 Ho2) Ho).
      + exact (GO _ _ _ (Hk s2 [] Hs2 eq_refl) Ho2).
  Qed.

  Lemma step_inv f : inv_at_fuel f -> inv_at_fuel (S f).
  Proof.
    intros IH tpl depth ch ip s o Ht Hc Hcm Hs Ho.
    rewrite run_step. destruct (nth_error ch ip) as [i|] eqn:Hi; [|split; assumption].
    destruct (cmatch_step _ _ _ _ _ (proj1 (proj2 Hc)) Hi Hcm) as (a & edges & Hrel & Hstep & Hedges).
    exact (perform_inv f tpl depth ch ip edges o _ IH Ht Hc Hedges Ho
             (instr_effect_inv tpl depth ch (length ch) i ip a edges s Ht Hc (nth_error_In _ _ Hi) Hstep Hrel Hs)).
  Qed.

  Theorem run_inv : forall fuel, inv_at_fuel fuel.
  Proof.
    induction fuel as [|f IH]; [|apply step_inv, IH].
    intros tpl depth ch ip s o _ _ _ _ _. exact I.
  Qed.

End Inv.

(* no information asked about the pieces *)
Definition TT (_ : str) : Prop := True.

Corollary run_inv_entry W wr wd ok (Wok : W -> Prop) ae :
  world_ok wd ok ae TT ->
  (forall w t w', wr w t = Some w' -> Wok w -> clean ok t = true -> Wok w') ->
  forall fuel tpl depth ch s o,
  tpl_okP ok ae TT tpl -> chunk_okP ok TT ch -> SInv ok TT s -> OInv W ok Wok o ->
  post W ok Wok TT (run W wr wd fuel tpl ae depth ch 0 s o).
Proof.
  intros Hw Hwr fuel tpl depth ch s o Ht Hc.
  apply (run_inv W wr wd ok Wok ae TT Hw); try (intros; exact I);
    [intros; eapply Hwr; eassumption|exact Ht|exact Hc|exact (cmatch_entry _ _ _ (proj1 (proj2 Hc)))].
Qed.

(* the entry points: render / render_block (no autoescape override: the name suffix decides) *)
Theorem render_to_inv W wr wd ok (Wok : W -> Prop) :
  world_ok wd ok None TT ->
  (forall w t w', wr w t = Some w' -> Wok w -> clean ok t = true -> Wok w') ->
  forall fuel tpl block c g w,
  tpl_okP ok None TT tpl -> ctx_ok ok c = true -> ctx_ok ok g = true -> Wok w ->
  match render_to W wr wd fuel tpl block c g w with
  | RDone _ (SinkTop w') => Wok w'
  | RDone _ (SinkBuf b) => clean ok b = true
  | _ => True
  end.
Proof.
  intros Hw Hwr fuel tpl block c g w Ht Hc Hg Hw0. unfold render_to.
  match goal with |- context [run W wr wd fuel tpl None 0 (t_root_chunk tpl) 0 ?s0 _] => set (s0' := s0) end.
  assert (P : forall o, OInv W ok Wok o -> post W ok Wok TT (run W wr wd fuel tpl None 0 (t_root_chunk tpl) 0 s0' o)).
  { intros o. apply (run_inv_entry W wr wd ok Wok None Hw Hwr); [exact Ht|apply Ht|].
    constructor; cbn; try reflexivity; [constructor|exact Hc|exact Hg]. }
  destruct block as [b|].
  - specialize (P (SinkBuf []) eq_refl).
    destruct (run W wr wd fuel tpl None 0 (t_root_chunk tpl) 0 s0' (SinkBuf [])) as [s1 o1| |]; try exact I.
    destruct (wr w (block_buffer s1)) as [w1|] eqn:Ew; [|exact I].
    eapply Hwr; [exact Ew|exact Hw0|apply P].
  - specialize (P (SinkTop w) Hw0).
    destruct (run W wr wd fuel tpl None 0 (t_root_chunk tpl) 0 s0' (SinkTop w)) as [s1 [w1|b1]| |]; try exact I; apply P.
Qed.

Lemma value_is_safe_matches_source : forall v, value_is_safe v = is_safe_gen v.
Proof. intros [ | | b | r z | f | s fl | l | m | b ]; try reflexivity. destruct r; reflexivity. Qed.

Lemma is_safe_arms_agree_true : is_safe_arms_agree = true.
Proof. vm_compute. reflexivity. Qed.

Lemma special_cases c : special c = true -> In c [60; 62; 34; 39]%N.
Proof. unfold special. rewrite !orb_true_iff, !N.eqb_eq. cbn. lia. Qed.

Lemma esc_lookup_piece c tbl :
  (exists k, In (k, esc_lookup tbl c) tbl) \/ (esc_lookup tbl c = [c] /\ forall k r, In (k, r) tbl -> k <> c).
Proof.
  rewrite FormatUtf8.esc_lookup_find. destruct (find _ tbl) as [[k r]|] eqn:F.
  - left. exists k. exact (proj1 (find_some _ _ F)).
  - right. split; [reflexivity|]. intros k r Hin ->. pose proof (find_none _ _ F _ Hin) as X. cbn in X.
    rewrite N.eqb_refl in X. discriminate.
Qed.

Lemma escape_table_clean tbl :
  escape_map_ok tbl = true -> forall s, clean ok_html (flat_map (esc_lookup tbl) s) = true.
Proof.
  intros H. unfold escape_map_ok in H. apply andb_prop in H. destruct H as [Hrep Hkeys].
  rewrite forallb_forall in Hrep, Hkeys.
  apply clean_flat_map. intros c.
  destruct (esc_lookup_piece c tbl) as [(k & Hin)|(-> & Hno)]; [exact (Hrep _ Hin)|].
  (* every special is a key *)
  cbn. unfold ok_html. destruct (special c) eqn:Hs; [|reflexivity].
  specialize (Hkeys _ (special_cases _ Hs)). apply existsb_exists in Hkeys. destruct Hkeys as ([k r] & Hkr & Heq).
  apply N.eqb_eq in Heq. destruct (Hno _ _ Hkr Heq).
Qed.

Lemma escape_html_map_ok : escape_map_ok escape_html_map = true.
Proof. vm_compute. reflexivity. Qed.

Theorem escape_html_clean : forall s, clean ok_html (escape_html s) = true.
Proof. intros s. unfold escape_html. apply escape_table_clean, escape_html_map_ok. Qed.

(* the entity rule for the ampersand: the escaper's output is a concatenation of pieces, each either
   one character other than & or a replacement of the table, and every replacement starts with its
   only & *)
Lemma escape_html_map_amp_ok : escape_map_amp_ok escape_html_map = true.
Proof. vm_compute. reflexivity. Qed.

Theorem escape_html_entities : forall s,
  escape_html s = concat (map (esc_lookup escape_html_map) s) /\
  Forall (fun piece => (exists c, piece = [c] /\ c <> amp) \/
                       (exists r, piece = amp :: r /\ ~ In amp r /\ In piece (map snd escape_html_map)))
         (map (esc_lookup escape_html_map) s).
Proof.
  intros s. split; [unfold escape_html; apply flat_map_concat_map|].
  apply Forall_forall. intros piece Hp. apply in_map_iff in Hp. destruct Hp as (c & <- & _).
  pose proof escape_html_map_amp_ok as Hamp. unfold escape_map_amp_ok in Hamp.
  apply andb_prop in Hamp. destruct Hamp as [Hkey Hshape].
  destruct (esc_lookup_piece c escape_html_map) as [(k & Hin)|(Heq & Hno)].
  - right. rewrite forallb_forall in Hshape. specialize (Hshape _ Hin). cbn [snd] in Hshape.
    destruct (esc_lookup escape_html_map c) as [|a r] eqn:E; [discriminate|].
    apply andb_prop in Hshape. destruct Hshape as [Ha Hr]. apply N.eqb_eq in Ha. subst a.
    exists r. split; [reflexivity|]. split.
    + intros Hc. apply negb_true_iff in Hr. assert (existsb (N.eqb amp) r = true); [|congruence].
      apply existsb_exists. exists amp. split; [exact Hc|apply N.eqb_refl].
    + apply in_map_iff. exists (k, amp :: r). split; [reflexivity|exact Hin].
  - left. exists c. split; [exact Heq|]. intros ->.
    apply existsb_exists in Hkey. destruct Hkey as ([k r] & Hin & Hk). cbn in Hk. apply N.eqb_eq in Hk.
    eapply Hno; eassumption.
Qed.

Lemma z_to_str_clean z : clean ok_html (z_to_str z) = true.
Proof.
  apply forallb_forall. intros c Hc.
  pose proof (proj1 (Forall_forall _ _) (FormatUtf8.z_to_str_chars z) c Hc) as H. cbv beta in H.
  unfold ok_html. destruct (special c) eqn:E; [|reflexivity].
  apply special_cases in E. cbn [In] in E. lia.
Qed.

Theorem scalar_format_clean (fp : spec_float -> str) :
  (forall f, clean ok_html (fp f) = true) ->
  forall v, value_is_safe v = true -> vok ok_html v = true -> clean ok_html (format_with fp v) = true.
Proof.
  intros Hfp [ | | b | r z | f | s fl | l | m | b ] Hsafe Hv; cbn in *; try discriminate; try reflexivity.
  - destruct b; reflexivity.
  - apply z_to_str_clean.
  - apply Hfp.
  - subst fl. exact Hv.
Qed.

(* the chunk conditions under the autoescape override `ae` of a run: without one the template's own
   flag must be on (tpl_ok), with Some true the flag does not matter, and with Some false nothing is
   escaped, so no template passes *)
Definition tpl_ok_for (ok : N -> bool) (ae : option bool) (t : template) : bool :=
  match ae with
  | None => tpl_ok ok t
  | Some true => tpl_chunks_ok ok t
  | Some false => false
  end.

Lemma chunk_okP_TT ok ch : chunk_ok ok ch = true -> bodies_from_capture ch = true -> chunk_okP ok TT ch.
Proof. intros H1 H2. split; [exact H1|]. split; [exact H2|]. intros; exact I. Qed.

Lemma tpl_okP_of ok ae t : tpl_ok_for ok ae t = true -> tpl_bodies_ok t = true -> tpl_okP ok ae TT t.
Proof.
  intros H Hb.
  assert (Hc : aeon ae t = true /\ tpl_chunks_ok ok t = true).
  { unfold tpl_ok_for, aeon in *. destruct ae as [[|]|]; try discriminate; [auto|].
    unfold tpl_ok in H. unfold tpl_chunks_ok. rewrite !andb_true_iff in *. tauto. }
  destruct Hc as [Hae Hch]. unfold tpl_chunks_ok in Hch. unfold tpl_bodies_ok in Hb. rewrite !andb_true_iff in Hch, Hb.
  destruct Hch as [[H1 H2] H3], Hb as [[B1 B2] B3].
  split; [exact Hae|]. split; [apply chunk_okP_TT; assumption|]. split; [apply chunk_okP_TT; assumption|].
  intros b lin E. apply assoc_get_in in E. rewrite forallb_forall in H3, B3.
  specialize (H3 _ E). specialize (B3 _ E). cbn [snd] in H3, B3. rewrite forallb_forall in H3, B3.
  apply Forall_forall. intros ch Hch. apply chunk_okP_TT; auto.
Qed.

Lemma wr_str_clean ok : forall (w t w' : str),
  wr_str w t = Some w' -> clean ok w = true -> clean ok t = true -> clean ok w' = true.
Proof. intros w t w' E Hw Ht. inversion E; subst. apply clean_app_intro; assumption. Qed.

(* what the theorems ask of the operations the VM delegates to the world, whatever its templates and
   components: the escaper's output and the text of the values written unescaped are clean; filters
   and functions do not hand out dirty flagged strings ("no use of safe"); arithmetic, map and
   attribute lookup and component argument binding only pass values on *)
Definition world_passes (wd : world) (ok : N -> bool) : Prop :=
  forall ae T,
  (forall n t, assoc_get (w_templates wd) n = Some t -> tpl_okP ok ae T t) ->
  (forall n d c, assoc_get (w_components wd) n = Some (d, c) -> chunk_okP ok T c) ->
  world_ok wd ok ae T.

Lemma plain_world_ok wd ok ae : world_passes wd ok ->
  (forall n t, assoc_get (w_templates wd) n = Some t -> tpl_ok_for ok ae t = true /\ tpl_bodies_ok t = true) ->
  (forall n d c, assoc_get (w_components wd) n = Some (d, c) -> chunk_ok ok c = true /\ bodies_from_capture c = true) ->
  world_ok wd ok ae TT.
Proof.
  intros Hp Htpls Hcomps. apply Hp.
  - intros n t E. destruct (Htpls _ _ E). apply tpl_okP_of; assumption.
  - intros n d c E. destruct (Hcomps _ _ _ E). apply chunk_okP_TT; assumption.
Qed.

(* render / render_block into a String, for any character set and any world that passes values on *)
Theorem no_raw_data_any_escaper wd ok : world_passes wd ok ->
  (forall n d c, assoc_get (w_components wd) n = Some (d, c) -> chunk_ok ok c = true /\ bodies_from_capture c = true) ->
  (forall n t, assoc_get (w_templates wd) n = Some t -> tpl_ok ok t = true /\ tpl_bodies_ok t = true) ->
  forall fuel tpl block c g,
  tpl_ok ok tpl = true -> tpl_bodies_ok tpl = true -> ctx_ok ok c = true -> ctx_ok ok g = true ->
  match render_to str wr_str wd fuel tpl block c g [] with
  | RDone _ (SinkTop out) => clean ok out = true
  | _ => True
  end.
Proof.
  intros Hp Hcomps Htpls fuel tpl block c g Ht Htb Hc Hg.
  pose proof (render_to_inv str wr_str wd ok (fun w => clean ok w = true) (plain_world_ok wd ok None Hp Htpls Hcomps)
                (wr_str_clean ok) fuel tpl block c g [] (tpl_okP_of ok None tpl Ht Htb) Hc Hg eq_refl) as P.
  destruct (render_to str wr_str wd fuel tpl block c g []) as [s1 [out|b]| |]; auto.
Qed.

Section Default.
  Variable wd : world.
  Variable fp : spec_float -> str.
  Hypothesis Hesc : w_escape wd = escape_html.
  Hypothesis Hfmt : w_format wd = format_with fp.
  Hypothesis Hfp : forall f, clean ok_html (fp f) = true.
  Hypothesis Hfilter : forall n v k sc r sf, w_filter wd n v k sc = Some (ROk r, sf) ->
      vok ok_html v = true -> kw_ok ok_html k = true -> scope_ok ok_html sc = true ->
      vok ok_html (if sf then mark_safe r else r) = true.
  Hypothesis Hfunction : forall n k sc r sf, w_function wd n k sc = Some (ROk r, sf) ->
      kw_ok ok_html k = true -> scope_ok ok_html sc = true -> vok ok_html (if sf then mark_safe r else r) = true.
  Hypothesis Hmath : forall i a b c, w_math wd i a b = ROk c -> vok ok_html a = true -> vok ok_html b = true -> vok ok_html c = true.
  Hypothesis Hnegate : forall a c, w_negate wd a = ROk c -> vok ok_html a = true -> vok ok_html c = true.
  Hypothesis Hmapget : forall m k x, w_map_get wd m k = Some x -> kw_ok ok_html m = true -> vok ok_html x = true.
  Hypothesis Hgetattr : forall v a x, w_get_attr wd v a = Some x -> vok ok_html v = true -> vok ok_html x = true.
  Hypothesis Hbuild : forall n d ch, assoc_get (w_components wd) n = Some (d, ch) ->
      forall k b c, w_build_ctx wd d k b = ROk c -> kw_ok ok_html k = true ->
      obody_ok ok_html b = true -> ctx_ok ok_html c = true.
  Hypothesis Hcomps : forall n d c, assoc_get (w_components wd) n = Some (d, c) ->
      chunk_ok ok_html c = true /\ bodies_from_capture c = true.

  Lemma default_passes : world_passes wd ok_html.
  Proof.
    intros ae T Htpls Hcs. constructor; try assumption.
    - intros s. rewrite Hesc. apply escape_html_clean.
    - intros v. rewrite Hfmt. apply scalar_format_clean, Hfp.
  Qed.

  Theorem no_raw_data_when_autoescape_on :
    (forall n t, assoc_get (w_templates wd) n = Some t -> tpl_ok ok_html t = true /\ tpl_bodies_ok t = true) ->
    forall fuel tpl block c g,
    tpl_ok ok_html tpl = true -> tpl_bodies_ok tpl = true -> ctx_ok ok_html c = true -> ctx_ok ok_html g = true ->
    match render_to str wr_str wd fuel tpl block c g [] with
    | RDone _ (SinkTop out) => clean ok_html out = true
    | _ => True
    end.
  Proof.
    intros Htpls. exact (no_raw_data_any_escaper wd ok_html default_passes Hcomps Htpls).
  Qed.

  (* render_component(name, ctx, body, autoescape = true): the component chunk starts the run, the
     override is Some true; templates reached through includes need not be autoescaped by name *)
  Theorem render_component_clean :
    (forall n t, assoc_get (w_templates wd) n = Some t -> tpl_chunks_ok ok_html t = true /\ tpl_bodies_ok t = true) ->
    forall fuel tpl cchunk cctx,
    tpl_chunks_ok ok_html tpl = true -> tpl_bodies_ok tpl = true ->
    chunk_ok ok_html cchunk = true -> bodies_from_capture cchunk = true -> ctx_ok ok_html cctx = true ->
    match run str wr_str wd fuel tpl (Some true) 0 cchunk 0 (new_state cctx) (SinkTop []) with
    | RDone _ (SinkTop out) => clean ok_html out = true
    | _ => True
    end.
  Proof.
    intros Htpls fuel tpl cchunk cctx Ht Htb Hch Hcb Hc.
    pose proof (run_inv_entry str wr_str wd ok_html (fun w => clean ok_html w = true) (Some true)
                  (plain_world_ok wd ok_html (Some true) default_passes Htpls Hcomps) (wr_str_clean ok_html)
                  fuel tpl 0 cchunk (new_state cctx) (SinkTop [])
                  (tpl_okP_of ok_html (Some true) tpl Ht Htb) (chunk_okP_TT _ _ Hch Hcb)
                  (new_state_inv ok_html TT cctx Hc) eq_refl) as P.
    destruct (run str wr_str wd fuel tpl (Some true) 0 cchunk 0 (new_state cctx) (SinkTop []))
      as [s1 [out|b]| |]; try exact I. apply P.
  Qed.
End Default.

Lemma map_get_ok ok m k x : map_get m k = Some x -> kw_ok ok m = true -> vok ok x = true.
Proof.
  induction m as [|[k' v] t IH]; cbn; [discriminate|]. intros E H. apply andb_prop in H. destruct H as [Hv Ht].
  destruct (key_eq k' k); [inversion E; subst; exact Hv|apply IH; assumption].
Qed.

Lemma get_attr_ok ok v a x : get_attr v a = Some x -> vok ok v = true -> vok ok x = true.
Proof. destruct v; cbn [get_attr]; try discriminate. intros E H. rewrite vok_map in H. eapply map_get_ok; eassumption. Qed.

Lemma filter0_ok ok name v k sc r sf :
  str_eqb name n_safe = false ->
  filter0 name v k sc = Some (ROk r, sf) -> vok ok v = true -> kw_ok ok k = true ->
  vok ok (if sf then mark_safe r else r) = true.
Proof.
  intros Hns E Hv Hk. unfold filter0 in E. rewrite Hns in E.
  destruct (str_eqb name n_default); [|destruct (str_eqb name n_upper); [|destruct (str_eqb name n_length); [|discriminate]]];
    injection E as E <-.
  - unfold kw_get in E. destruct (map_get k (KStr n_value false)) as [d|] eqn:Ed; [|discriminate].
    assert (Hd : vok ok d = true) by (eapply map_get_ok; eassumption).
    destruct (map_get k (KStr n_boolean false)) as [[ | | [|] | | | | | | ]|]; try discriminate; injection E as <-;
      match goal with |- vok ok (if ?c then _ else _) = true => destruct c; assumption end.
  - destruct v; try discriminate. injection E as <-. reflexivity.
  - destruct v; try discriminate; injection E as <-; reflexivity.
Qed.

(* `false`: WorldC01's filters without `safe` *)
Lemma filter1_ok ok name v k sc r sf :
  filter1 false name v k sc = Some (ROk r, sf) -> vok ok v = true -> kw_ok ok k = true ->
  vok ok (if sf then mark_safe r else r) = true.
Proof.
  unfold filter1. destruct (str_eqb name n_safe) eqn:Es; [discriminate|].
  destruct (str_eqb name n_escape_html).
  - intros E _ _. inversion E; subst; clear E. destruct v; try discriminate.
    match goal with H : ROk _ = ROk _ |- _ => inversion H; subst; reflexivity end.
  - intros E. eapply filter0_ok; eassumption.
Qed.

(* WorldC01.def_ok_b for any character set (def_ok ok_html is convertible with it) *)
Definition def_ok (ok : N -> bool) (d : comp_def) : bool :=
  forallb (fun p => match snd p with Some v => vok ok v | None => true end) (cd_params d).

Lemma bind_params_ok ok : forall ps k acc c,
  forallb (fun p : str * option str * option value => match snd p with Some v => vok ok v | None => true end) ps = true ->
  kw_ok ok k = true -> ctx_ok ok acc = true -> bind_params ps k acc = ROk c -> ctx_ok ok c = true.
Proof.
  induction ps as [|[[name ty] dflt] t IH]; cbn; intros k acc c Hps Hk Hacc E.
  - inversion E; subst. exact Hacc.
  - apply andb_prop in Hps. destruct Hps as [Hd Ht].
    destruct (map_get k (KStr name false)) as [v|] eqn:Eg.
    + assert (Hv : vok ok v = true) by (eapply map_get_ok; eassumption).
      destruct (match ty with Some ty0 => type_matches ty0 v | None => Some true end) as [[|]|]; try discriminate.
      eapply IH; [exact Ht|exact Hk| |exact E]. cbn. rewrite Hv. exact Hacc.
    + destruct dflt as [d|]; [|discriminate].
      eapply IH; [exact Ht|exact Hk| |exact E]. cbn. cbn in Hd. rewrite Hd. exact Hacc.
Qed.

Lemma build_ctx1_ok ok d k b c :
  def_ok ok d = true -> build_ctx1 d k b = ROk c -> kw_ok ok k = true -> obody_ok ok b = true -> ctx_ok ok c = true.
Proof.
  intros Hd E Hk Hb. unfold build_ctx1 in E. set (unknown := filter _ _) in E.
  assert (Hu : ctx_ok ok unknown = true).
  { apply forallb_forall. intros [s v] Hin. apply filter_In in Hin. destruct Hin as [Hin _].
    apply in_flat_map in Hin. destruct Hin as ([k0 v0] & Hin0 & Hs). cbn in Hs.
    destruct (key_str k0); [|destruct Hs]. destruct Hs as [Hs|[]]. injection Hs as <- <-.
    unfold Taint.kw_ok in Hk. rewrite forallb_forall in Hk. apply (Hk _ Hin0). }
  assert (H1 : forall c1, bind_params (cd_params d) k [] = ROk c1 -> ctx_ok ok c1 = true)
    by (intros c1 E1; eapply bind_params_ok; [exact Hd|exact Hk| |exact E1]; reflexivity).
  (* the two ways not to fail: a rest parameter, or no unknown argument *)
  destruct (cd_rest d) as [rn|]; [|destruct unknown; [|discriminate]];
    (destruct (bind_params (cd_params d) k []) as [c1|]; [|discriminate]);
    injection E as <-; specialize (H1 _ eq_refl); destruct b as [b0|];
    cbn [Taint.ctx_ok forallb snd]; cbn [Taint.obody_ok] in Hb; rewrite ?Hb, ?vok_map, ?kw_of_ctx, ?Hu; exact H1.
Qed.

(* the State render_to starts from (the literal `s0` of VM.render_to, for block = None) *)
Definition new_state_with_global (c g : ctx) : state :=
  {| stack := []; loops := []; setvars := []; caps := []; blocks := []; cur_block := None;
     parent := None; context := c; global := Some g; capture_block := None; block_buffer := [] |}.
Definition s_p : str := [112]%N.
Definition s_c : str := [99]%N.
Definition poison0 : str := [60;98;62;38;34;39]%N.     (* the six characters  < b > & quote apostrophe *)
(* a 4-instruction program no compiler emits: the body operand comes straight from the context *)
Definition bad_chunk : list instr := [LoadName s_p; BuildMap 0; RenderBodyComponent s_c; WriteTop].
Definition bad_tpl : template :=
  {| t_name := s_p; t_chunk := bad_chunk; t_root_chunk := bad_chunk; t_lineage := []; t_autoescape := true |}.
Definition bad_comps : list (str * (comp_def * list instr)) :=
  [(s_c, ({| cd_params := []; cd_rest := None |}, [WritePath [n_body]]))].
(* what the compiler emits for the same call: the body is captured first *)
Definition good_chunk : list instr :=
  [Capture; WritePath [s_p]; EndCapture; BuildMap 0; RenderBodyComponent s_c; WriteTop].

Section Sinks.
  Variable W : Type.
  Variable wr : W -> str -> option W.
  Variable wd : world.

  Lemma write_value_is_event a s o v :
    write_value W wr wd a s o v = emit W wr s o (event_text wd (write_event a v)).
  Proof. unfold write_value, write_event. destruct (negb a || value_is_safe v); reflexivity. Qed.

  Theorem raw_only_if_safe v : write_event true v = ERaw v -> value_is_safe v = true.
  Proof. unfold write_event. cbn. destruct (value_is_safe v); [reflexivity|discriminate]. Qed.

  Theorem escaped_unless_safe v : value_is_safe v = false -> write_event true v = EEsc v.
  Proof. unfold write_event. cbn. intros ->. reflexivity. Qed.

  Theorem autoescape_off_writes_verbatim s o v :
    write_value W wr wd false s o v = emit W wr s o (w_format wd v).
  Proof. reflexivity. Qed.

  Theorem safe_value_bypasses_escaper a s o v :
    value_is_safe v = true -> write_value W wr wd a s o v = emit W wr s o (w_format wd v).
  Proof. intros H. unfold write_value. rewrite H, orb_true_r. reflexivity. Qed.

  Theorem safe_values v :
    value_is_safe v = true <-> (exists s, v = VStr s true) \/
                               (match v with VStr _ _ | VArr _ | VMap _ | VBytes _ => False | _ => True end).
  Proof.
    destruct v as [ | | b | r z | f | s fl | l | m | b ]; cbn; split; intros H;
      try discriminate; try reflexivity; try (right; exact I);
      try (destruct H as [(s0 & X)|[]]; inversion X; reflexivity).
    left. subst fl. exists s. reflexivity.
  Qed.

  (* [EndCapture; WriteTop] on a state whose innermost buffer is c writes exactly w_format (VStr c true) *)
  Theorem no_double_escape fuel tpl ae depth s o c t :
    caps s = c :: t ->
    run W wr wd (S (S (S fuel))) tpl ae depth [EndCapture; WriteTop] 0 s o =
    match emit W wr (upd_stack (upd_caps s t) (stack s)) o (w_format wd (VStr c true)) with
    | Some (s2, o2) => RDone s2 o2
    | None => RFail ErrIo
    end.
  Proof.
    intros Hc. cbn [run nth_error]. rewrite Hc. cbn [run nth_error push pop1 upd_caps stack upd_stack is_undefined].
    rewrite safe_value_bypasses_escaper by reflexivity.
    destruct (emit W wr _ o (w_format wd (VStr c true))) as [[s2 o2]|]; reflexivity.
  Qed.
End Sinks.

(* Taint.origin's OSub *)
Theorem index_slice_keep_flag_sublist :
  (forall s fl item c fl', get_item_seq (VStr s fl) item = ROk (VStr c fl') -> fl' = fl /\ incl c s) /\
  (forall s fl a b st r fl', value_slice (VStr s fl) a b st = ROk (VStr r fl') -> fl' = fl /\ incl r s).
Proof.
  split.
  - intros s fl item c fl' E. cbn in E. destruct (resolve_index item _) as [[i|]|]; cbn in E; try discriminate.
    destruct (index_usize s i) eqn:Ei; [|discriminate]. inversion E; subst. split; [reflexivity|].
    intros x [<-|[]]. eapply index_usize_in, Ei.
  - intros s fl a b st r fl' E. unfold value_slice in E. destruct (_ =? 0)%Z; [discriminate|].
    destruct (slice_items s a b _) eqn:Es; [|discriminate]. inversion E; subst. split; [reflexivity|].
    eapply collect_incl, Es.
Qed.

Theorem ends_with_spec s suf : ends_with s suf = true <-> exists p, s = p ++ suf.
Proof.
  unfold ends_with. rewrite andb_true_iff, Nat.leb_le, str_eqb_eq. split.
  - intros [Hl He]. exists (firstn (length s - length suf) s).
    pose proof (firstn_skipn (length s - length suf) s) as F. rewrite He in F. symmetry. exact F.
  - intros (p & ->). rewrite app_length. split; [lia|].
    replace (length p + length suf - length suf) with (length p) by lia.
    rewrite skipn_app, skipn_all, Nat.sub_diag. reflexivity.
Qed.

Lemma set_templates_auto_escape_spec r :
  r_suffixes (set_templates_auto_escape r) = r_suffixes r /\
  map fst (r_templates (set_templates_auto_escape r)) = map fst (r_templates r) /\
  forall n t, In (n, t) (r_templates (set_templates_auto_escape r)) ->
              t_autoescape t = autoescape_of (r_suffixes r) n.
Proof.
  split; [reflexivity|]. split.
  - cbn. rewrite map_map. reflexivity.
  - intros n t Hin. cbn in Hin. apply in_map_iff in Hin. destruct Hin as ([n0 t0] & Heq & _).
    inversion Heq; subst. reflexivity.
Qed.

Lemma autoescape_of_spec sfx n : autoescape_of sfx n = true <-> exists suf p, In suf sfx /\ n = p ++ suf.
Proof.
  unfold autoescape_of. rewrite existsb_exists. split.
  - intros (suf & Hs & He). apply ends_with_spec in He. destruct He as (p & ->). eauto.
  - intros (suf & p & Hs & ->). exists suf. split; [exact Hs|]. apply ends_with_spec. eauto.
Qed.

(* both operations end with set_templates_auto_escape *)
Lemma apply_op_flags r o n t :
  In (n, t) (r_templates (apply_op r o)) -> t_autoescape t = autoescape_of (r_suffixes (apply_op r o)) n.
Proof. destruct o; exact (proj2 (proj2 (set_templates_auto_escape_spec _)) n t). Qed.

Theorem autoescape_flag_by_suffix : forall ops r, ops <> [] ->
  let r' := fold_left apply_op ops r in
  forall n t, In (n, t) (r_templates r') ->
    t_autoescape t = existsb (ends_with n) (r_suffixes r') /\
    (t_autoescape t = true <-> exists suf p, In suf (r_suffixes r') /\ n = p ++ suf).
Proof.
  intros ops r Hne. destruct (exists_last Hne) as (ops' & o & ->). rewrite fold_left_app. cbn [fold_left].
  intros n t Hin. apply apply_op_flags in Hin. split; [exact Hin|]. rewrite Hin. apply autoescape_of_spec.
Qed.

(* the default suffix list of Tera::default, re-extracted from tera.rs *)
Example default_suffixes_example :
  map (autoescape_of default_autoescape_suffixes)
      [[97;46;104;116;109;108]; [97;46;116;120;116]; [97;46;104;116;109;108;46;116;120;116]; [46;120;109;108]; [104;116;109;108]]%N
  = [true; false; false; true; false].
Proof. vm_compute. reflexivity. Qed.

(* an instance other than HTML: the JS-string escaper of the harness (xNN style) *)
Definition ok_js (c : N) : bool := negb ((c =? 47) || (c =? 34) || (c =? 39) || (c =? 10))%N.

Theorem escape_js_clean : forall s, clean ok_js (escape_js s) = true.
Proof.
  apply clean_flat_map. intros c. unfold escape_js_char.
  destruct (c =? 92)%N eqn:E1; [reflexivity|]. destruct (c =? 47)%N eqn:E2; [reflexivity|].
  destruct (c =? 34)%N eqn:E3; [reflexivity|]. destruct (c =? 39)%N eqn:E4; [reflexivity|].
  destruct (c =? 10)%N eqn:E5; [reflexivity|]. cbn. unfold ok_js. rewrite E2, E3, E4, E5. reflexivity.
Qed.

Definition allok (_ : N) : bool := true.

Lemma clean_all s : clean allok s = true.
Proof. induction s; [reflexivity|exact IHs]. Qed.

Lemma vok_all : forall v, vok allok v = true.
Proof.
  fix IH 1. intros [ | | b | r z | f | s fl | l | m | b ]; try reflexivity.
  - destruct fl; [apply clean_all|reflexivity].
  - cbn. induction l as [|x t IHl]; [reflexivity|]. rewrite (IH x). exact IHl.
  - cbn. induction m as [|[k x] t IHm]; [reflexivity|]. rewrite (IH x). exact IHm.
Qed.

Lemma forallb_all {A} (g : A -> bool) l : (forall x, g x = true) -> forallb g l = true.
Proof. intros H. induction l as [|x t IH]; [reflexivity|]. cbn. rewrite H. exact IH. Qed.

Lemma ctx_ok_all c : ctx_ok allok c = true.
Proof. apply forallb_all. intros. apply vok_all. Qed.

Lemma pair_ok_all p : pair_ok allok p = true.
Proof. unfold Taint.pair_ok. rewrite vok_all. destruct (fst p); [rewrite vok_all|]; reflexivity. Qed.

Lemma lf_ok_all f : lf_ok allok f = true.
Proof. unfold Taint.lf_ok. rewrite (forallb_all _ _ pair_ok_all), ctx_ok_all, pair_ok_all. reflexivity. Qed.

Lemma scope_ok_all : forall sc, scope_ok allok sc = true.
Proof.
  fix IH 1. intros [loops setvars parent context global]. cbn [Taint.scope_ok].
  rewrite (forallb_all _ _ lf_ok_all), !ctx_ok_all. destruct parent as [p|]; [rewrite (IH p)|];
    destruct global; cbn; try rewrite ctx_ok_all; reflexivity.
Qed.

Lemma chunk_ok_all ch : chunk_ok allok ch = true.
Proof. apply forallb_all. intros [ ]; cbn; try reflexivity; [apply vok_all|apply clean_all]. Qed.

Section Pieces.
  Variable wd : world.
  Variable ae : option bool.
  Variable Lit : str -> Prop.       (* the literal text of the templates *)

  Definition piece (t : str) : Prop :=
    Lit t \/ (exists v, value_is_safe v = true /\ t = w_format wd v)
          \/ (exists v, value_is_safe v = false /\ t = w_escape wd (w_format wd v)).

  (* the writer that records its calls: Writer.wr_log, which this file does not import *)
  Definition wr_pieces (w : list str) (t : str) : option (list str) := Some (w ++ [t]).

  (* the hypotheses: only about the chunks (autoescape on, bodies minted, WriteText is literal text);
     NOTHING is assumed about the escape function, the filters or the data *)
  Hypothesis Htpls : forall n t, assoc_get (w_templates wd) n = Some t -> tpl_okP allok ae piece t.
  Hypothesis Hcomps : forall n d c, assoc_get (w_components wd) n = Some (d, c) -> chunk_okP allok piece c.

  Lemma pieces_world_ok : world_ok wd allok ae piece.
  Proof.
    constructor; intros; try apply vok_all; try apply clean_all; try apply ctx_ok_all; eauto.
  Qed.

  Lemma SInv_all s : blocks_okP allok piece (blocks s) -> SInv allok piece s.
  Proof.
    intros Hb. constructor; try exact Hb; try apply ctx_ok_all; try apply clean_all.
    - apply forallb_all, vok_all.
    - apply forallb_all, lf_ok_all.
    - apply forallb_all, clean_all.
    - destruct (parent s); [apply scope_ok_all|reflexivity].
    - destruct (global s); [apply ctx_ok_all|reflexivity].
  Qed.

  Theorem writes_are_pieces : forall fuel tpl depth ch ip s w,
    tpl_okP allok ae piece tpl -> chunk_okP allok piece ch -> cmatch (the_table ch) ip s ->
    blocks_okP allok piece (blocks s) -> Forall piece w ->
    match run (list str) wr_pieces wd fuel tpl ae depth ch ip s (SinkTop w) with
    | RDone _ (SinkTop w') => Forall piece w'
    | _ => True
    end.
  Proof.
    intros fuel tpl depth ch ip s w Ht Hc Hm Hb Hw0.
    assert (R : post (list str) allok (Forall piece) piece (run (list str) wr_pieces wd fuel tpl ae depth ch ip s (SinkTop w))).
    { apply (run_inv (list str) wr_pieces wd allok (Forall piece) ae piece pieces_world_ok); try assumption.
      - intros w1 t w' E H1 _ Hp. injection E as <-. apply Forall_app. split; [exact H1|constructor; [exact Hp|constructor]].
      - intros v Hv. right. left. eauto.
      - intros v Hv. right. right. eauto.
      - apply SInv_all, Hb. }
    destruct (run (list str) wr_pieces wd fuel tpl ae depth ch ip s (SinkTop w)) as [s1 [w1|b1]| |]; try exact I. apply R.
  Qed.
End Pieces.
