(* C07 second tier: general facts about the validator's abstract states (reflexivity and
   transitivity of astate_sub, refinement of a pushed slot to TAny, tables agreeing with a
   segment, all_from from per-instruction facts) used by the assembly calculus of
   Proofs/CompileFrag.v; reflexivity and transitivity also by Proofs/OptWorldProofs.v (C09). *)
From TeraV Require Import Model.Value Model.Instr Model.VM Model.StackCheck.
Local Open Scope nat_scope.

Lemma all2_refl {X} (f : X -> X -> bool) : (forall x, f x x = true) -> forall l, all2 f l l = true.
Proof. intros H. induction l as [|x l IH]; [reflexivity|]. cbn. rewrite H, IH. reflexivity. Qed.

Lemma ty_sub_refl t : ty_sub t t = true.
Proof. destruct t; reflexivity. Qed.

Lemma lp_sub_refl x : lp_sub x x = true.
Proof. destruct x; cbn; [apply Nat.eqb_refl|reflexivity]. Qed.

Lemma astate_sub_refl a : astate_sub a a = true.
Proof.
  unfold astate_sub. rewrite (all2_refl ty_sub ty_sub_refl), (all2_refl lp_sub lp_sub_refl), Nat.eqb_refl.
  reflexivity.
Qed.

Lemma sub_top_any lo ca t st : astate_sub (mkA (t :: st) lo ca) (mkA (TAny :: st) lo ca) = true.
Proof.
  unfold astate_sub. cbn [a_stack a_loops a_caps all2].
  rewrite (all2_refl ty_sub ty_sub_refl), (all2_refl lp_sub lp_sub_refl), Nat.eqb_refl. destruct t; reflexivity.
Qed.

Lemma ty_sub_trans a b c : ty_sub a b = true -> ty_sub b c = true -> ty_sub a c = true.
Proof. destruct a, b, c; cbn; auto. Qed.

Lemma lp_sub_trans a b c : lp_sub a b = true -> lp_sub b c = true -> lp_sub a c = true.
Proof.
  destruct c as [z|]; [|reflexivity]. destruct b as [y|]; [|discriminate]. destruct a as [x|]; [|discriminate].
  cbn. intros H1 H2. apply Nat.eqb_eq in H1, H2. subst. apply Nat.eqb_refl.
Qed.

Lemma all2_trans {X} (f : X -> X -> bool) : (forall a b c, f a b = true -> f b c = true -> f a c = true) ->
  forall l1 l2 l3, all2 f l1 l2 = true -> all2 f l2 l3 = true -> all2 f l1 l3 = true.
Proof.
  intros H. induction l1 as [|x l1 IH]; intros [|y l2] [|z l3]; cbn; try discriminate; auto.
  intros H1 H2. apply andb_prop in H1, H2. destruct H1 as [A1 B1]. destruct H2 as [A2 B2].
  rewrite (H _ _ _ A1 A2), (IH _ _ B1 B2). reflexivity.
Qed.

Lemma astate_sub_trans a b c : astate_sub a b = true -> astate_sub b c = true -> astate_sub a c = true.
Proof.
  unfold astate_sub. intros H1 H2.
  apply andb_prop in H1, H2. destruct H1 as [H1 C1]. destruct H2 as [H2 C2].
  apply andb_prop in H1, H2. destruct H1 as [S1 L1]. destruct H2 as [S2 L2].
  rewrite (all2_trans _ ty_sub_trans _ _ _ S1 S2), (all2_trans _ lp_sub_trans _ _ _ L1 L2).
  apply Nat.eqb_eq in C1, C2. rewrite C1, C2, Nat.eqb_refl. reflexivity.
Qed.

Definition agree (T : table) (p : nat) (sg : list astate) : Prop :=
  forall k a, nth_error sg k = Some a -> nth_error T (p + k) = Some (Some a).

Lemma agree_app T p s1 s2 : agree T p (s1 ++ s2) -> agree T p s1 /\ agree T (p + length s1) s2.
Proof.
  intros H. split; intros k a Hk.
  - apply H. rewrite nth_error_app1; [exact Hk|]. apply nth_error_Some. congruence.
  - rewrite <- Nat.add_assoc. apply H. rewrite nth_error_app2 by lia.
    replace (length s1 + k - length s1) with k by lia. exact Hk.
Qed.

Lemma all_from_intro tbl : forall c ip0,
  (forall k i, nth_error c k = Some i -> instr_ok tbl (ip0 + k) i = true) -> all_from tbl ip0 c = true.
Proof.
  induction c as [|x c IH]; intros ip0 H; [reflexivity|]. cbn [all_from].
  rewrite <- (Nat.add_0_r ip0) at 1. rewrite (H 0 x eq_refl). cbn [andb]. apply IH.
  intros k i Hk. replace (S ip0 + k) with (ip0 + S k) by lia. exact (H (S k) i Hk).
Qed.
