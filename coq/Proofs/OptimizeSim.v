(* C09, behavioural half: on an abstract VM in which every instruction other than the ones the
   fusion pass touches has ARBITRARY deterministic semantics, running a chunk and running its
   fused form are equivalent: same final value stack, same loop frames (stored end_ips mapped
   through the index map), same opaque state (output, captures, variables), and one fails
   exactly when the other does.

   Semantics ported from vm/interpreter.rs: LoadName (state.load_name), LoadAttr, WriteTop,
   LoadPath, WritePath (which rejects an Undefined final value as WriteTop does: tera commit
   f1cc69d), Jump, PopJumpIfFalse, JumpIfFalseOrPop, JumpIfTrueOrPop, Iterate (is_over / advance / end_ip store, incl. the
   `end_ip != 0` test of ForLoop::advance), Break, and the loop-stack effect of StartIterate*
   and PopLoop. Everything else goes through the section variable `other`. *)
From TeraV Require Import Model.Value Model.Instr Model.Optimize Gen.Tables Proofs.ListFacts Proofs.OptimizeProofs.
Local Open Scope nat_scope.

Section AbstractVM.
  Variable V : Type.
  Variable S : Type.            (* everything but the value stack and the stored end_ips *)
  Variable undef : V.
  Variable is_undef : V -> bool.
  Hypothesis is_undef_undef : is_undef undef = true.
  Variable get_value : S -> str -> V.      (* State::get_value *)
  Variable dump : S -> V.                   (* State::dump_context *)
  Variable get_attr : V -> str -> option V. (* Value::get_attr *)
  Hypothesis get_attr_undef : forall v a, is_undef v = true -> get_attr v a = None.
  Variable write : V -> S -> option S.      (* format/escape into the current sink; None = io error *)
  Variable truthy : V -> bool.
  Variable is_over : S -> bool.             (* ForLoop::is_over of the innermost loop *)
  Variable advance : S -> bool -> S.        (* ForLoop::advance; the flag is `end_ip != 0` *)
  Variable other : instr -> list V -> S -> option (list V * S).

  Inductive sres :=
  | Next (st : list V) (ends : list nat) (s : S)
  | Goto (t : nat) (st : list V) (ends : list nat) (s : S)
  | Failed.

  Definition load_name (s : S) (n : str) : V := if is_magic n then dump s else get_value s n.
  Definition attr_or_undef (v : V) (a : str) : V :=
    match get_attr v a with Some x => x | None => undef end.

  (* the `for (k, attr) in path[1..]` loop of LoadPath *)
  Fixpoint path_walk (cur : V) (attrs : list str) : option V :=
    match attrs with
    | [] => Some cur
    | a :: r =>
        if is_undef cur then None
        else match get_attr cur a with
             | Some next => path_walk next r
             | None => match r with [] => Some undef | _ => None end
             end
    end.

  Definition load_path (s : S) (path : list str) : option V :=
    match path with
    | [] => None  (* path.len() - 1 underflows: never constructed *)
    | n :: attrs =>
        let val := match attrs with [] => if is_magic n then dump s else get_value s n
                                  | _ => get_value s n end in
        match attrs with
        | [] => Some val
        | _ => if is_undef val then None else path_walk val attrs
        end
    end.

  (* the loop of WritePath: any missing attribute is an error *)
  Fixpoint write_walk (cur : V) (attrs : list str) : option V :=
    match attrs with
    | [] => Some cur
    | a :: r => match get_attr cur a with Some next => write_walk next r | None => None end
    end.

  Definition write_path (s : S) (path : list str) : option S :=
    match path with
    | [] => None
    | n :: attrs =>
        let root := match attrs with [] => if is_magic n then dump s else get_value s n
                                   | _ => get_value s n end in
        if is_undef root then None
        else match write_walk root attrs with
             | Some v => if is_undef v then None else write v s
             | None => None
             end
    end.

  Definition exec (i : instr) (st : list V) (ends : list nat) (s : S) : sres :=
    match i with
    | LoadName n => Next (load_name s n :: st) ends s
    | LoadAttr a =>
        match st with
        | v :: st' => if is_undef v then Failed else Next (attr_or_undef v a :: st') ends s
        | [] => Failed
        end
    | WriteTop =>
        match st with
        | v :: st' => if is_undef v then Failed
                      else match write v s with Some s' => Next st' ends s' | None => Failed end
        | [] => Failed
        end
    | Jump t => Goto t st ends s
    | PopJumpIfFalse t =>
        match st with
        | v :: st' => if truthy v then Next st' ends s else Goto t st' ends s
        | [] => Failed
        end
    | JumpIfFalseOrPop t =>
        match st with
        | v :: st' => if truthy v then Next st' ends s else Goto t st ends s
        | [] => Failed
        end
    | JumpIfTrueOrPop t =>
        match st with
        | v :: st' => if truthy v then Goto t st ends s else Next st' ends s
        | [] => Failed
        end
    | Iterate e =>
        match ends with
        | [] => Next st ends s
        | e0 :: ends' =>
            if is_over s then Goto e st ends s
            else Next st (e :: ends') (advance s (negb (Nat.eqb e0 0)))
        end
    | Break => match ends with e :: _ => Goto e st ends s | [] => Next st ends s end
    | StartIterate _ | StartIterateComprehension _ =>
        match other i st s with Some (st', s') => Next st' (0 :: ends) s' | None => Failed end
    | PopLoop =>
        match other i st s with Some (st', s') => Next st' (tl ends) s' | None => Failed end
    | LoadPath path =>
        match load_path s path with Some v => Next (v :: st) ends s | None => Failed end
    | WritePath path =>
        match write_path s path with Some s' => Next st ends s' | None => Failed end
    | _ => match other i st s with Some (st', s') => Next st' ends s' | None => Failed end
    end.

  Inductive outcome :=
  | Done (st : list V) (ends : list nat) (s : S)
  | Fail
  | OutOfFuel.

  (* `while let Some(instr) = chunk.get(ip)` *)
  Fixpoint run (fuel : nat) (p : list instr) (pc : nat) (st : list V) (ends : list nat) (s : S) : outcome :=
    match fuel with
    | O => OutOfFuel
    | Datatypes.S fu =>
        match nth_error p pc with
        | None => Done st ends s
        | Some i =>
            match exec i st ends s with
            | Next st' ends' s' => run fu p (Datatypes.S pc) st' ends' s'
            | Goto t st' ends' s' => run fu p t st' ends' s'
            | Failed => Fail
            end
        end
    end.

  (* the common form: the walk inside a fused instruction (path_walk, write_walk) and the unfused run
     of LoadAttrs (run_attrs) are both rewritten to it *)
  Fixpoint chain (v : V) (attrs : list str) : option V :=
    match attrs with
    | [] => Some v
    | a :: r => if is_undef v then None else chain (attr_or_undef v a) r
    end.

  Lemma chain_undef r : r <> [] -> chain undef r = None.
  Proof. destruct r; [congruence|]. intros _. cbn. rewrite is_undef_undef. reflexivity. Qed.

  Lemma path_walk_chain : forall attrs v, path_walk v attrs = chain v attrs.
  Proof.
    induction attrs as [|a r IH]; intros v; [reflexivity|]. cbn [path_walk chain].
    destruct (is_undef v) eqn:Ev; [reflexivity|].
    unfold attr_or_undef. destruct (get_attr v a) as [next|] eqn:Eg; [apply IH|].
    destruct r as [|b r']; [reflexivity|]. symmetry. apply chain_undef. discriminate.
  Qed.

  Lemma load_path_chain s n attrs :
    is_magic n = false -> load_path s (n :: attrs) = chain (load_name s n) attrs.
  Proof.
    intros Hm. unfold load_path, load_name. rewrite Hm. destruct attrs as [|a r]; [reflexivity|].
    rewrite path_walk_chain. cbn [chain].
    destruct (is_undef (get_value s n)); reflexivity.
  Qed.

  (* WritePath from its root on, whatever is done with a defined result (k) and on failure (d):
     the chain, then WriteTop's undefined test *)
  Lemma write_root_chain {T} (k : V -> T) (d : T) : forall attrs root,
    (if is_undef root then d
     else match write_walk root attrs with Some v => if is_undef v then d else k v | None => d end)
    = match chain root attrs with Some v => if is_undef v then d else k v | None => d end.
  Proof.
    induction attrs as [|a r IH]; intros root; cbn [write_walk chain]; destruct (is_undef root) eqn:Er;
      rewrite ?Er; try reflexivity.
    unfold attr_or_undef. destruct (get_attr root a) as [next|].
    - rewrite <- IH. destruct (is_undef next) eqn:En; [|reflexivity].
      (* an Undefined stored in a map: both sides fail *)
      destruct r; cbn [write_walk]; rewrite ?En, ?(get_attr_undef _ _ En); reflexivity.
    - destruct r; [cbn; rewrite is_undef_undef|rewrite chain_undef by discriminate]; reflexivity.
  Qed.

  Lemma write_path_chain s n attrs :
    is_magic n = false ->
    write_path s (n :: attrs) =
      match chain (load_name s n) attrs with
      | Some v => if is_undef v then None else write v s
      | None => None
      end.
  Proof.
    intros Hm. unfold write_path, load_name. rewrite Hm.
    replace (match attrs with [] => get_value s n | _ :: _ => get_value s n end) with (get_value s n)
      by (destruct attrs; reflexivity).
    exact (write_root_chain (fun v => write v s) None _ _).
  Qed.

  Lemma run_fuel_mono : forall fuel p pc st ends s d,
    run fuel p pc st ends s <> OutOfFuel -> run (fuel + d) p pc st ends s = run fuel p pc st ends s.
  Proof.
    induction fuel as [|fu IH]; intros p pc st ends s d H; [cbn in H; congruence|].
    cbn [run Nat.add] in *. destruct (nth_error p pc) as [i|]; [|reflexivity].
    destruct (exec i st ends s); try reflexivity; apply IH; exact H.
  Qed.

  Definition code_at (p : list instr) (pc : nat) (code : list instr) : Prop :=
    forall k i, nth_error code k = Some i -> nth_error p (pc + k) = Some i.

  Lemma code_at_tail p pc i code : code_at p pc (i :: code) -> code_at p (Datatypes.S pc) code.
  Proof. intros H k j Hk. replace (Datatypes.S pc + k) with (pc + Datatypes.S k) by lia. apply H. exact Hk. Qed.

  Lemma code_at_head p pc i code : code_at p pc (i :: code) -> nth_error p pc = Some i.
  Proof. intros H. rewrite <- (Nat.add_0_r pc). apply H. reflexivity. Qed.

  Lemma code_at_app p pc a b : code_at p pc (a ++ b) -> code_at p pc a /\ code_at p (pc + length a) b.
  Proof.
    intros H. split; intros k i Hk.
    - apply H. rewrite nth_error_app1; [exact Hk|]. apply nth_error_Some. congruence.
    - rewrite <- Nat.add_assoc. apply H. rewrite nth_error_app2 by lia.
      replace (length a + k - length a) with k by lia. exact Hk.
  Qed.

  Lemma run_attrs : forall attrs p pc v st ends s fuel,
    code_at p pc (map LoadAttr attrs) ->
    run (length attrs + fuel) p pc (v :: st) ends s =
      match chain v attrs with
      | Some v' => run fuel p (pc + length attrs) (v' :: st) ends s
      | None => Fail
      end.
  Proof.
    induction attrs as [|a r IH]; intros p pc v st ends s fuel Hc.
    - cbn. rewrite Nat.add_0_r. reflexivity.
    - cbn [length Nat.add run map]. rewrite (code_at_head _ _ _ _ Hc). cbn [exec chain].
      destruct (is_undef v); [reflexivity|].
      rewrite IH by (eapply code_at_tail; eauto).
      replace (Datatypes.S pc + length r) with (pc + Datatypes.S (length r)) by lia. reflexivity.
  Qed.

  Lemma run_expand1 g p pc st ends s fuel : fused_shape g -> code_at p pc (expand1 g) ->
    run (gsize g + fuel) p pc st ends s =
      match exec g st ends s with
      | Next st' ends' s' => run fuel p (pc + gsize g) st' ends' s'
      | Goto t st' ends' s' => run fuel p t st' ends' s'
      | Failed => Fail
      end.
  Proof.
    intros (n & attrs & Hm & Hg) Hc.
    assert (Hload : forall w fu, code_at p pc (LoadName n :: map LoadAttr attrs ++ w) ->
              run (Datatypes.S (length attrs + fu)) p pc st ends s =
              match chain (load_name s n) attrs with
              | Some v => run fu p (pc + Datatypes.S (length attrs)) (v :: st) ends s
              | None => Fail
              end).
    { intros w fu Hw. cbn [run]. rewrite (code_at_head _ _ _ _ Hw). cbn [exec].
      rewrite run_attrs by exact (proj1 (code_at_app _ _ _ _ (code_at_tail _ _ _ _ Hw))).
      destruct (chain (load_name s n) attrs); [|reflexivity]. f_equal. lia. }
    destruct Hg as [-> | ->]; cbn [expand1] in Hc; cbn [exec].
    - rewrite gsize_LoadPath, (load_path_chain s n attrs Hm). cbn [Nat.add].
      rewrite (Hload [] fuel) by (rewrite app_nil_r; exact Hc).
      destruct (chain (load_name s n) attrs); reflexivity.
    - rewrite gsize_WritePath, (write_path_chain s n attrs Hm).
      replace (Datatypes.S (Datatypes.S (length attrs)) + fuel)
        with (Datatypes.S (length attrs + Datatypes.S fuel)) by lia.
      rewrite (Hload [WriteTop] (Datatypes.S fuel) Hc).
      destruct (chain (load_name s n) attrs) as [v|]; [|reflexivity].
      destruct (code_at_app _ _ (LoadName n :: map LoadAttr attrs) [WriteTop] Hc) as [_ Hw].
      cbn [length] in Hw. rewrite map_length in Hw.
      cbn [run]. rewrite (code_at_head _ _ _ _ Hw). cbn [exec]. destruct (is_undef v); [reflexivity|].
      destruct (write v s); [|reflexivity]. f_equal. lia.
  Qed.

  Variable p o : list instr.
  Hypothesis Hrel : Forall2 (rel o) (expand o) p.
  Hypothesis Hfused : forall g, In g o -> is_fused g = true -> fused_shape g.
  Hypothesis Hiter : forall j t, nth_error p j = Some (Iterate t) -> j < t.

  (* a stored end_ip of p against that of o: the same position through group_start, and 0 on one
     side iff on the other, since ForLoop::advance reads `end_ip != 0` (the flag of `advance`) *)
  Definition end_rel (e e' : nat) : Prop :=
    (e = 0 /\ e' = 0) \/ (e <> 0 /\ e' <> 0 /\ e' <= length o /\ group_start o e' = e).
  Definition ends_rel := Forall2 end_rel.

  Lemma end_rel_zero e e' : end_rel e e' -> Nat.eqb e 0 = Nat.eqb e' 0.
  Proof.
    intros [[-> ->]|(H1 & H2 & _)]; [reflexivity|].
    destruct (Nat.eqb_spec e 0), (Nat.eqb_spec e' 0); congruence.
  Qed.

  Lemma expand_nth_group : forall (o0 : list instr) n g,
    nth_error o0 n = Some g ->
    forall k i, nth_error (expand1 g) k = Some i ->
    nth_error (expand o0) (group_start o0 n + k) = Some i.
  Proof.
    induction o0 as [|g0 o0 IH]; intros n g Hn k i Hk; [destruct n; discriminate|].
    destruct n as [|n].
    - inversion Hn; subst. rewrite group_start_0. cbn [Nat.add expand flat_map].
      rewrite nth_error_app1; [exact Hk|]. apply nth_error_Some. congruence.
    - rewrite group_start_S. cbn [expand flat_map]. fold (expand o0).
      rewrite <- Nat.add_assoc. unfold gsize.
      rewrite nth_error_app2 by lia.
      replace (length (expand1 g0) + (group_start o0 n + k) - length (expand1 g0)) with (group_start o0 n + k) by lia.
      eapply IH; eauto.
  Qed.

  Lemma Forall2_nth {A B} (R : A -> B -> Prop) l l' : Forall2 R l l' ->
    forall k a, nth_error l k = Some a -> exists b, nth_error l' k = Some b /\ R a b.
  Proof.
    induction 1 as [|x y l l' Hxy Hl IH]; intros k a Hk; [destruct k; discriminate|].
    destruct k; [inversion Hk; subst; exists y; auto|]. apply IH. exact Hk.
  Qed.

  Lemma group_instr n g k i' :
    nth_error o n = Some g -> nth_error (expand1 g) k = Some i' ->
    exists i, nth_error p (group_start o n + k) = Some i /\ rel o i' i.
  Proof.
    intros Hn Hk. eapply Forall2_nth; [exact Hrel|]. eapply expand_nth_group; eauto.
  Qed.

  Lemma rel_no_target i' i : rel o i' i -> target_of i' = None -> i = i'.
  Proof.
    unfold rel. destruct (target_of i) as [t|] eqn:Et; [|intros ->; reflexivity].
    intros (t' & -> & _) H. destruct i; cbn in *; discriminate.
  Qed.

  Lemma rel_inv i' i : rel o i' i ->
    (target_of i = None /\ i' = i) \/
    (exists t t', target_of i = Some t /\ i' = set_target i t' /\ t' <= length o /\ group_start o t' = t).
  Proof.
    unfold rel. destruct (target_of i) as [t|] eqn:Et.
    - intros (t' & H1 & H2 & H3). right. exists t, t'. auto.
    - intros ->. left. auto.
  Qed.

  Lemma group_start_succ n g : nth_error o n = Some g -> group_start o (Datatypes.S n) = group_start o n + gsize g.
  Proof.
    clear Hrel Hfused Hiter. revert n. generalize o as o0.
    induction o0 as [|g0 o0 IH]; intros n Hn; [destruct n; discriminate|].
    destruct n as [|n].
    - inversion Hn; subst. rewrite group_start_S, !group_start_0. lia.
    - rewrite !group_start_S. rewrite (IH n Hn). lia.
  Qed.

  Lemma group_start_len_p : group_start o (length o) = length p.
  Proof. rewrite group_start_all. eapply Forall2_length; eauto. Qed.

  Lemma group_start_mono : forall (o0 : list instr) a b, a <= b -> group_start o0 a <= group_start o0 b.
  Proof.
    intros o0 a b Hab. unfold group_start.
    replace (firstn b o0) with (firstn a (firstn b o0) ++ skipn a (firstn b o0)) by apply firstn_skipn.
    rewrite firstn_firstn, Nat.min_l by lia. rewrite expand_app, app_length. lia.
  Qed.

  Lemma plain_group n g :
    nth_error o n = Some g -> is_fused g = false ->
    exists i, nth_error p (group_start o n) = Some i /\ rel o g i /\ gsize g = 1.
  Proof.
    intros Hn Hf.
    pose proof (unfused_expand1 g Hf) as Hex.
    destruct (group_instr n g 0 g Hn) as (i & Hi & Hr); [rewrite Hex; reflexivity|].
    rewrite Nat.add_0_r in Hi. exists i. repeat split; auto. unfold gsize. rewrite Hex. reflexivity.
  Qed.

  Lemma group_code n g : nth_error o n = Some g -> target_of g = None -> code_at p (group_start o n) (expand1 g).
  Proof.
    intros Hn Ht k i Hk. destruct (group_instr n g k i Hn Hk) as (i0 & Hi0 & Hr).
    rewrite Hi0. f_equal. apply rel_no_target; [exact Hr|].
    pose proof (expand1_no_target g Ht) as H. rewrite Forall_forall in H. apply H. eapply nth_error_In; eauto.
  Qed.

  Inductive sres_rel : sres -> sres -> Prop :=
  | sr_next st e e' s : ends_rel e e' -> sres_rel (Next st e s) (Next st e' s)
  | sr_goto t' st e e' s : ends_rel e e' -> t' <= length o ->
      sres_rel (Goto (group_start o t') st e s) (Goto t' st e' s)
  | sr_fail : sres_rel Failed Failed.

  Lemma ends_rel_tl ends ends' : ends_rel ends ends' -> ends_rel (tl ends) (tl ends').
  Proof. intros H. destruct H; [constructor|assumption]. Qed.

  Lemma exec_rel i' i st ends ends' s :
    rel o i' i -> (forall t, i = Iterate t -> t <> 0) -> ends_rel ends ends' ->
    sres_rel (exec i st ends s) (exec i' st ends' s).
  Proof.
    intros Hr Hit Hends.
    assert (H0 : ends_rel (0 :: ends) (0 :: ends')) by (constructor; [left; split; reflexivity|exact Hends]).
    pose proof (ends_rel_tl _ _ Hends) as Htl.
    destruct (rel_inv _ _ Hr) as [[Hnt ->] | (t & t' & Ht & -> & Hle & <-)].
    - (* the same instruction: the arms differ in what they do to the stored ends (nothing, tl, 0 :: _);
         Break is the one that reads them *)
      destruct i; try discriminate Hnt; cbn [exec];
        try (match goal with |- context [other ?j st s] => destruct (other j st s) as [[st2 s2]|] end);
        try (match goal with |- context [match st with [] => _ | _ :: _ => _ end] => destruct st as [|v st'] end);
        try (match goal with |- context [is_undef ?v] => destruct (is_undef v) end);
        try (match goal with |- context [write ?v s] => destruct (write v s) end);
        try (match goal with |- context [load_path s ?pa] => destruct (load_path s pa) end);
        try (match goal with |- context [write_path s ?pa] => destruct (write_path s pa) end);
        try (constructor; assumption).
      (* Break: the stored ends are the targets, related by end_rel; 0 is group_start o 0 *)
      destruct Hends as [|e e' r r' He Hr']; [constructor; constructor|].
      destruct He as [[-> ->]|(H1 & H2 & Hle & <-)]; [apply (sr_goto 0); [constructor; [left; split; reflexivity|exact Hr']|lia]|].
      apply sr_goto; [constructor; [right; auto|exact Hr']|exact Hle].
    - (* a jump, re-pointed *)
      destruct i; try discriminate Ht; injection Ht as ->; cbn [set_target exec];
        try (destruct st as [|v st']; [constructor|]; destruct (truthy v)); try (constructor; assumption).
      (* Iterate: neither new stored end is 0 (Hit; group_start o 0 = 0) *)
      destruct Hends as [|e e' r r' He Hr']; [constructor; constructor|].
      rewrite (end_rel_zero _ _ He). destruct (is_over s); [apply sr_goto; [constructor|]; assumption|].
      constructor. constructor; [right|exact Hr']. pose proof (Hit _ eq_refl).
      repeat split; auto. intros ->. rewrite group_start_0 in *. congruence.
  Qed.

  (* group n of p, run to its end, is one step whose result is that of o's instruction up to sres_rel *)
  Lemma group_step n g st ends ends' s :
    nth_error o n = Some g -> ends_rel ends ends' ->
    exists X, sres_rel X (exec g st ends' s) /\
      forall fuel, run (gsize g + fuel) p (group_start o n) st ends s =
        match X with
        | Next st2 ends2 s2 => run fuel p (group_start o (Datatypes.S n)) st2 ends2 s2
        | Goto t st2 ends2 s2 => run fuel p t st2 ends2 s2
        | Failed => Fail
        end.
  Proof.
    intros Hn Hends. rewrite (group_start_succ n g Hn).
    destruct (is_fused g) eqn:Ef.
    - (* fused group: p holds its expansion, and exec does not look at the stored end_ips *)
      pose proof (Hfused g (nth_error_In _ _ Hn) Ef) as Hsh.
      assert (Htg : target_of g = None) by (destruct Hsh as (nm & attrs & _ & [-> | ->]); reflexivity).
      exists (exec g st ends s). split.
      + apply exec_rel; [unfold rel; rewrite Htg; reflexivity| |exact Hends].
        intros t ->. discriminate Htg.
      + intros fuel. exact (run_expand1 g p _ st ends s fuel Hsh (group_code n g Hn Htg)).
    - (* plain instruction: one step of p *)
      destruct (plain_group n g Hn Ef) as (i & Hi & Hr & Hg1).
      exists (exec i st ends s). split.
      + apply (exec_rel g i st ends ends' s Hr); [|exact Hends].
        intros t ->. pose proof (Hiter _ _ Hi). lia.
      + intros fuel. rewrite Hg1, Nat.add_1_r. cbn [Nat.add run]. rewrite Hi. reflexivity.
  Qed.

  Definition out_rel (a b : outcome) : Prop :=
    match a, b with
    | Done st ends s, Done st' ends' s' => st = st' /\ s = s' /\ ends_rel ends ends'
    | Fail, Fail => True
    | _, _ => False
    end.

  Lemma run_at_end fuel st ends s : run (Datatypes.S fuel) p (group_start o (length o)) st ends s = Done st ends s.
  Proof.
    cbn [run]. rewrite group_start_len_p.
    assert (nth_error p (length p) = None) as -> by (apply nth_error_None; lia). reflexivity.
  Qed.

  Lemma gsize_le_p g : In g o -> gsize g <= length p.
  Proof. intros H. rewrite <- group_start_len_p, group_start_all. exact (gsize_le_expand _ _ H). Qed.

  (* Both directions by one induction on the optimised side's fuel. dir = true: the original run
     is the one known to terminate, and the optimised one does with the same fuel; dir = false:
     the optimised run terminates, and each of its steps is at most |p| original steps. *)
  Lemma sim (dir : bool) : forall fo fp n st ends ends' s,
    (if dir then fp <= fo else Datatypes.S (length p) * fo <= fp) ->
    n <= length o -> ends_rel ends ends' ->
    (if dir then run fp p (group_start o n) st ends s <> OutOfFuel else run fo o n st ends' s <> OutOfFuel) ->
    out_rel (run fp p (group_start o n) st ends s) (run fo o n st ends' s).
  Proof.
    induction fo as [|fo IH]; intros fp n st ends ends' s Hf Hn He Hl.
    - exfalso. destruct dir; [replace fp with 0 in Hl by lia|]; apply Hl; reflexivity.
    - cbn [run] in *. destruct (nth_error o n) as [g|] eqn:Eg.
      + pose proof (gsize_pos g). pose proof (gsize_le_p g (nth_error_In _ _ Eg)).
        (* a live original run has left the group: less fuel than gsize g would have run out inside it *)
        assert (Hfp : run fp p (group_start o n) st ends s =
                      run (gsize g + (fp - gsize g)) p (group_start o n) st ends s).
        { destruct dir; [|f_equal; lia].
          replace (gsize g + (fp - gsize g)) with (fp + (gsize g - fp)) by lia.
          symmetry. apply run_fuel_mono. exact Hl. }
        rewrite Hfp in *.
        destruct (group_step n g st ends ends' s Eg He) as (X & HX & Hrun). rewrite Hrun in *.
        inversion HX as [st2 ends2 ends2' s2 He2 E1 E2|t' st2 ends2 ends2' s2 He2 Htl E1 E2|E1 E2];
          rewrite <- E1, <- E2 in *.
        * apply IH; try assumption.
          -- destruct dir; lia.
          -- apply nth_error_Some. congruence.
        * apply IH; try assumption. destruct dir; lia.
        * exact I.
      + assert (n = length o) by (apply nth_error_None in Eg; lia). subst n.
        destruct fp as [|fp]; [exfalso; destruct dir; [apply Hl; reflexivity|lia]|].
        rewrite run_at_end. cbn. auto.
  Qed.

End AbstractVM.

Definition iterate_forward (p : list instr) : Prop :=
  forall j t, nth_error p j = Some (Iterate t) -> j < t.

Fixpoint iterate_forwardb_from (j : nat) (p : list instr) : bool :=
  match p with
  | [] => true
  | Iterate t :: r => Nat.ltb j t && iterate_forwardb_from (S j) r
  | _ :: r => iterate_forwardb_from (S j) r
  end.
Definition iterate_forwardb (p : list instr) : bool := iterate_forwardb_from 0 p.

Lemma iterate_forwardb_from_ok : forall p j0, iterate_forwardb_from j0 p = true ->
  forall j t, nth_error p j = Some (Iterate t) -> j0 + j < t.
Proof.
  induction p as [|i p IH]; intros j0 H j t Hj; [destruct j; discriminate|].
  destruct j as [|j].
  - cbn in Hj. inversion Hj; subst. cbn in H. apply andb_prop in H. destruct H as [H _].
    apply Nat.ltb_lt in H. lia.
  - cbn in Hj. replace (j0 + S j) with (S j0 + j) by lia. apply IH; [|exact Hj].
    destruct i; cbn in H; try exact H. apply andb_prop in H. destruct H. assumption.
Qed.

Lemma iterate_forwardb_ok p : iterate_forwardb p = true -> iterate_forward p.
Proof. intros H j t Hj. apply (iterate_forwardb_from_ok p 0 H j t Hj). Qed.

(* Behaviour preservation. For every abstract VM (any value type, any opaque state, any
   semantics of the instructions the pass does not touch), every chunk p without fused
   instructions whose jump targets are in range and whose Iterate targets point forward, every
   value stack, every opaque state and every pair of related loop-frame lists: the run of p
   and the run of optimize p terminate together, with the same stack and opaque state (hence the
   same output bytes and captures) and related loop frames, or fail together. *)
Theorem optimize_correct
  (V S : Type) (undef : V) (is_undef : V -> bool) (Hu : is_undef undef = true)
  (get_value : S -> str -> V) (dump : S -> V) (get_attr : V -> str -> option V)
  (Hga : forall v a, is_undef v = true -> get_attr v a = None)
  (write : V -> S -> option S) (truthy : V -> bool) (is_over : S -> bool)
  (advance : S -> bool -> S) (other : instr -> list V -> S -> option (list V * S))
  (p : chunk) :
  unfused p -> targets_in_range p -> iterate_forward (map fst p) ->
  exists o, optimize p = Some o /\
    let runP := run V S undef is_undef get_value dump get_attr write truthy is_over advance other in
    let P := map fst p in let O := map fst o in
    forall st ends ends' s, ends_rel O ends ends' ->
      (forall fuel, runP fuel P 0 st ends s <> OutOfFuel V S ->
         exists fuel', out_rel V S O (runP fuel P 0 st ends s) (runP fuel' O 0 st ends' s)) /\
      (forall fuel', runP fuel' O 0 st ends' s <> OutOfFuel V S ->
         exists fuel, out_rel V S O (runP fuel P 0 st ends s) (runP fuel' O 0 st ends' s)).
Proof.
  intros Hunf Hrange Hit.
  destruct (optimize_structure p Hunf Hrange) as (o & Ho & Hrel & _ & _ & Hshape).
  exists o. split; [exact Ho|]. cbn zeta. intros st ends ends' s He. split.
  - intros fuel Hne. exists fuel.
    pose proof (sim V S undef is_undef Hu get_value dump get_attr Hga write truthy is_over advance
                  other (map fst p) (map fst o) Hrel Hshape Hit true fuel fuel 0 st ends ends' s
                  (le_n _) ltac:(lia) He) as H.
    rewrite group_start_0 in H. exact (H Hne).
  - intros fuel' Hne. exists (Datatypes.S (length (map fst p)) * fuel').
    pose proof (sim V S undef is_undef Hu get_value dump get_attr Hga write truthy is_over advance
                  other (map fst p) (map fst o) Hrel Hshape Hit false fuel' _ 0 st ends ends' s
                  (le_n _) ltac:(lia) He) as H.
    rewrite group_start_0 in H. exact (H Hne).
Qed.
