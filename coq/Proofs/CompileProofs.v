(* C03: the compiler port (Model/Compile.v) is correct with respect to the reference interpreter
   (Spec/Stmt.v) on the concrete VM model (Model/VM.v): compile_correct.

   Method: "code at position pc" invariant + exact fuel accounting.
     steps pc s o pc' s' o'  :=  exists n m, forall k, run (n+k) .. pc s o = run (m+k) .. pc' s' o'
   is reflexive and transitive, so straight-line segments compose without a fuel-monotonicity
   lemma over the 56 instructions; `leads` is that relation and `fails` as one preorder on
   configurations.  A segment `seg pc code pe` carries its end position, so that jump targets are
   read off the hypotheses and no position is computed.  A pure instruction is one application of
   RunStep.pure_step (leads_pure); WriteText, WriteTop and Include are read off RunStep.run_step. *)
From TeraV Require Import Model.Value Model.Instr Model.VFormat Model.Slice Model.VM Model.World0 Spec.Stmt Model.Compile Gen.Tables
  Proofs.ValueFacts Proofs.CompileEqs Proofs.RunStep.
Local Open Scope nat_scope.

Lemma lookup_ctx_get c n : lookup c n = ctx_get c n.
Proof. reflexivity. Qed.

Lemma mark_safe_value_eq v : mark_safe_value v = mark_safe v.
Proof. destruct v; reflexivity. Qed.

Lemma prints_raw_eq v : prints_raw v = value_is_safe v.
Proof. destruct v; reflexivity. Qed.

(* what the reference interpreter sees of a VM state *)

Definition abs_frame (f : loop_frame) : loop_scope :=
  {| ls_key_name := lf_key_name f; ls_val_name := lf_value_name f; ls_item := lf_current f;
     ls_index0 := lf_index0 f; ls_length := lf_length f; ls_locals := lf_context f |}.

Fixpoint abs_scope (sc : scope) : env :=
  match sc with
  | Scope l sv p c g =>
      Env (map abs_frame l) sv
          (match p with Some p' => Some (abs_scope p') | None => None end)
          c (match g with Some g' => g' | None => [] end)
  end.

Definition frame_ok (f : loop_frame) : Prop :=
  lf_first f = Nat.eqb (lf_index0 f) 0 /\ lf_last f = Nat.eqb (S (lf_index0 f)) (lf_length f)
  /\ lf_is_comp f = false.

Fixpoint scope_ok (sc : scope) : Prop :=
  match sc with
  | Scope l _ p _ _ => Forall frame_ok l /\ match p with Some p' => scope_ok p' | None => True end
  end.

Definition lf_set_ctx (f : loop_frame) (c : ctx) : loop_frame :=
  {| lf_rest := lf_rest f; lf_index0 := lf_index0 f; lf_first := lf_first f; lf_last := lf_last f;
     lf_length := lf_length f; lf_end_ip := lf_end_ip f; lf_context := c;
     lf_value_name := lf_value_name f; lf_key_name := lf_key_name f; lf_current := lf_current f;
     lf_iterated := lf_iterated f; lf_is_comp := lf_is_comp f |}.

(* equal up to lf_context: of a frame that is there when a statement starts, the statement changes
   only the variables `set` in it (assign_ok); position, items and end_ip stay *)
Definition frames_eq (l l' : list loop_frame) : Prop :=
  Forall2 (fun f f' => exists c, f' = lf_set_ctx f c) l l'.

Lemma frames_eq_refl l : frames_eq l l.
Proof.
  induction l as [|f t IH]; constructor; [|exact IH]. exists (lf_context f). destruct f; reflexivity.
Qed.

Lemma frames_eq_trans a b c : frames_eq a b -> frames_eq b c -> frames_eq a c.
Proof.
  intros H. revert c. induction H as [|f f' t t' [c1 ->] _ IH]; intros c Hc; inversion Hc; subst; constructor.
  - destruct H1 as [c2 ->]. exists c2. reflexivity.
  - apply IH. assumption.
Qed.

Lemma frames_eq_ok l l' : frames_eq l l' -> Forall frame_ok l -> Forall frame_ok l'.
Proof.
  induction 1 as [|f f' t t' [c ->] _ IH]; intros Hf; [constructor|]. inversion Hf; subst.
  constructor; [|apply IH; assumption]. exact H1.
Qed.

Lemma frames_eq_nonempty l l' : frames_eq l l' -> l <> [] -> l' <> [].
Proof. intros H Hn. destruct H; [congruence|discriminate]. Qed.

Lemma ordinary_name_spec n : ordinary_name n = true ->
  str_eqb n magical_dump_var = false /\ str_eqb n s_loop_index = false /\ str_eqb n s_loop_index0 = false
  /\ str_eqb n s_loop_first = false /\ str_eqb n s_loop_last = false /\ str_eqb n s_loop_length = false.
Proof.
  unfold ordinary_name. intros H.
  repeat (apply andb_prop in H; destruct H as [H ?]).
  repeat match goal with X : negb _ = true |- _ => apply negb_true_iff in X end. auto 10.
Qed.

Lemma loop_lookup_abs f n : ordinary_name n = true -> lf_is_comp f = false ->
  loop_lookup (abs_frame f) n = lf_get f n.
Proof.
  intros Ho Hc. destruct (ordinary_name_spec n Ho) as (_ & H1 & H2 & H3 & H4 & H5).
  unfold loop_lookup, lf_get, abs_frame. cbn [ls_locals ls_val_name ls_key_name ls_item].
  rewrite Hc, H1, H2, H3, H4, H5, lookup_ctx_get. reflexivity.
Qed.

Lemma loops_lookup_abs l n : ordinary_name n = true -> Forall frame_ok l ->
  loops_lookup (map abs_frame l) n = loops_get l n.
Proof.
  intros Ho Hf. induction Hf as [|f t (_ & _ & Hc) _ IH]; [reflexivity|]. cbn [map loops_lookup loops_get].
  rewrite loop_lookup_abs by assumption. destruct (lf_get f n); [reflexivity|exact IH].
Qed.

Lemma env_lookup_abs : forall sc n, ordinary_name n = true -> scope_ok sc ->
  env_lookup (abs_scope sc) n = scope_get sc n.
Proof.
  fix IH 1. intros [l sv p c g] n Ho [Hl Hp]. cbn [abs_scope env_lookup scope_get].
  rewrite loops_lookup_abs by assumption. destruct (loops_get l n); [reflexivity|].
  rewrite lookup_ctx_get. destruct (ctx_get sv n); [reflexivity|].
  assert (Hpar : match (match p with Some p' => Some (abs_scope p') | None => None end) with
                 | Some q => env_lookup q n | None => VUndef end
                 = match p with Some p' => scope_get p' n | None => VUndef end).
  { destruct p as [p'|]; [apply IH; assumption|reflexivity]. }
  rewrite Hpar. destruct (negb (is_undefined match p with Some p' => scope_get p' n | None => VUndef end)); [reflexivity|].
  rewrite lookup_ctx_get. destruct (ctx_get c n); [reflexivity|].
  destruct g as [g'|]; [rewrite lookup_ctx_get; reflexivity|reflexivity].
Qed.

Lemma exec_seq_cons ex s t en :
  exec_seq ex (s :: t) en
  = match ex s en with
    | ROk (en1, t1, SigNormal) =>
        match exec_seq ex t en1 with
        | ROk (en2, t2, sg) => ROk (en2, t1 ++ t2, sg)
        | RErr x => RErr x
        end
    | r => r
    end.
Proof. reflexivity. Qed.

Section SpecFacts.
  Variables (B : builtins) (ae : bool) (inc : str -> env -> res str).

  Lemma exec_list_single s en : exec_list B ae inc [s] en = exec B ae inc s en.
  Proof.
    unfold exec_list. rewrite exec_seq_cons.
    destruct (exec B ae inc s en) as [[[en1 t1] sg]|x]; [|reflexivity].
    destruct sg; cbn; [rewrite app_nil_r|..]; reflexivity.
  Qed.

  Fixpoint first_truthy (branches : list (expr * list stmt)) (els : list stmt) (en : env) : res (list stmt) :=
    match branches with
    | [] => ROk els
    | (c, body) :: rest =>
        match eval B c en with
        | ROk v => if is_truthy v then ROk body else first_truthy rest els en
        | RErr x => RErr x
        end
    end.

  Theorem if_first_truthy_branch : forall branches els en,
    exec_list B ae inc (if_chain branches els) en
    = match first_truthy branches els en with
      | ROk body => exec_list B ae inc body en
      | RErr x => RErr x
      end.
  Proof.
    induction branches as [|[c body] rest IH]; intros els en; cbn [if_chain first_truthy]; [reflexivity|].
    rewrite exec_list_single. cbn [exec]. destruct (eval B c en) as [v|x]; [|reflexivity].
    destruct (is_truthy v); [reflexivity|]. apply IH.
  Qed.
End SpecFacts.

Section Sim.
  Variable W : Type.
  Variable wr : W -> str -> option W.
  Variable wapp : W -> str -> W.
  (* the top-level writer does not fail and appends (C18 treats failing writers) *)
  Hypothesis wr_ok : forall w t, wr w t = Some (wapp w t).
  Hypothesis wapp_app : forall w a b, wapp (wapp w a) b = wapp w (a ++ b).
  Hypothesis wapp_nil : forall w, wapp w [] = w.
  Variable wd : world.
  (* kwargs names are string keys; filters and functions do not look at the VM state. World0 and
     World1 meet the three by computation (Props/C03.v) *)
  Hypothesis H_key : forall k, w_as_key wd (VStr k false) = Some (KStr k true).
  Hypothesis H_fscope : forall n v k sc sc', w_filter wd n v k sc = w_filter wd n v k sc'.
  Hypothesis H_fnscope : forall n k sc sc', w_function wd n k sc = w_function wd n k sc'.

  Let B := builtins_of_world wd.

  Definition sink_add (o : sink W) (t : str) : sink W :=
    match o with SinkTop w => SinkTop (wapp w t) | SinkBuf b => SinkBuf (b ++ t) end.

  Lemma sink_write_ok o t : sink_write W wr o t = Some (sink_add o t).
  Proof. destruct o; cbn; [rewrite wr_ok|]; reflexivity. Qed.
  Lemma sink_add_app o a b : sink_add (sink_add o a) b = sink_add o (a ++ b).
  Proof. destruct o; cbn; [rewrite wapp_app|rewrite <- app_assoc]; reflexivity. Qed.
  Lemma sink_add_nil o : sink_add o [] = o.
  Proof. destruct o; cbn; [rewrite wapp_nil|rewrite app_nil_r]; reflexivity. Qed.

  (* where `text` written by the program ends up: the innermost capture buffer, else the sink *)
  Definition out_caps (c : list str) (t : str) : list str :=
    match c with x :: r => (x ++ t) :: r | [] => [] end.
  Definition out_sink (c : list str) (o : sink W) (t : str) : sink W :=
    match c with _ :: _ => o | [] => sink_add o t end.

  Lemma out_caps_app c a b : out_caps (out_caps c a) b = out_caps c (a ++ b).
  Proof. destruct c; cbn; [|rewrite <- app_assoc]; reflexivity. Qed.
  Lemma out_sink_app c o a b : out_sink (out_caps c a) (out_sink c o a) b = out_sink c o (a ++ b).
  Proof. destruct c; cbn; [apply sink_add_app|reflexivity]. Qed.
  Lemma out_caps_nil c : out_caps c [] = c.
  Proof. destruct c; cbn; [|rewrite app_nil_r]; reflexivity. Qed.
  Lemma out_sink_nil c o : out_sink c o [] = o.
  Proof. destruct c; cbn; [apply sink_add_nil|reflexivity]. Qed.

  (* a VM state as a base (the fields a template body never changes) + the four that change *)
  Definition mk (b : state) (stk : list value) (l : list loop_frame) (sv : ctx) (c : list str) : state :=
    {| stack := stk; loops := l; setvars := sv; caps := c; blocks := blocks b; cur_block := cur_block b;
       parent := parent b; context := context b; global := global b;
       capture_block := capture_block b; block_buffer := block_buffer b |}.

  Lemma mk_id s : mk s (stack s) (loops s) (setvars s) (caps s) = s.
  Proof. destruct s; reflexivity. Qed.

  Definition absE (b : state) (l : list loop_frame) (sv : ctx) : env :=
    abs_scope (Scope l sv (parent b) (context b) (global b)).

  Definition parent_ok (b : state) : Prop :=
    match parent b with Some p => scope_ok p | None => True end.

  Lemma emit_mk b stk l sv c o t :
    emit W wr (mk b stk l sv c) o t = Some (mk b stk l sv (out_caps c t), out_sink c o t).
  Proof. unfold emit. destruct c as [|x r]; cbn; [rewrite sink_write_ok|]; reflexivity. Qed.

  (* the state an include starts from (interpreter.rs render_include) *)
  Definition inc_state (sc : scope) (cx : ctx) : state :=
    {| stack := []; loops := []; setvars := []; caps := []; blocks := []; cur_block := None;
       parent := Some sc; context := cx; global := None; capture_block := None; block_buffer := [] |}.

  (* Include: whatever the included chunk does to ITS state is dropped; the includer continues
     from its own state, changed only by the text appended to its current sink *)
  Theorem include_state_is_fresh : forall f tpl ae depth ch pc s (o : sink W) name t2,
    nth_error ch pc = Some (Include name) -> assoc_get (w_templates wd) name = Some t2 ->
    run W wr wd (S f) tpl ae depth ch pc s o
    = match caps s with
      | [] => match run W wr wd f t2 ae depth (t_root_chunk t2) 0 (inc_state (scope_of s) (context s)) o with
              | RDone _ o1 => run W wr wd f tpl ae depth ch (S pc) s o1
              | RFail e => RFail e
              | ROutOfFuel => ROutOfFuel
              end
      | c :: ct => match run W wr wd f t2 ae depth (t_root_chunk t2) 0 (inc_state (scope_of s) (context s)) (SinkBuf c) with
                   | RDone _ (SinkBuf c1) => run W wr wd f tpl ae depth ch (S pc) (upd_caps s (c1 :: ct)) o
                   | RDone _ (SinkTop _) => RFail ErrPanic
                   | RFail e => RFail e
                   | ROutOfFuel => ROutOfFuel
                   end
      end.
  Proof.
    intros f tpl ae depth ch pc s o name t2 Hi Ht.
    rewrite run_step, Hi. cbv [instr_effect pure_step is_unop is_binop is_stackop]. rewrite Ht.
    destruct (caps s); reflexivity. (* include_start s is inc_state unfolded *)
  Qed.

  Section Tpl.
    Variables (tpl : template) (ae : option bool) (depth : nat) (ch : list instr).
    Variable inc : str -> env -> res str.
    Variable okn : str -> bool.      (* the names an include may use (Compile.wf_stmt) *)

    Notation R := (fun f pc s o => run W wr wd f tpl ae depth ch pc s o).
    Definition aesc : bool := match ae with Some x => x | None => t_autoescape tpl end.

    Definition steps pc s o pc' s' o' : Prop :=
      exists n m, forall k, R (n + k) pc s o = R (m + k) pc' s' o'.
    Definition fails pc s o : Prop :=
      exists n e, forall k, R (n + k) pc s o = RFail e.

    Lemma step1 pc s o pc' s' o' : (forall f, R (S f) pc s o = R f pc' s' o') -> steps pc s o pc' s' o'.
    Proof. intros H. exists 1, 0. intros k. apply H. Qed.
    Lemma fail1 pc s o e : (forall f, R (S f) pc s o = RFail e) -> fails pc s o.
    Proof. intros H. exists 1, e. intros k. apply H. Qed.

    Definition code_at (pc : nat) (code : list instr) : Prop :=
      forall i x, nth_error code i = Some x -> nth_error ch (pc + i) = Some x.

    Lemma code_at_app pc a b : code_at pc (a ++ b) -> code_at pc a /\ code_at (pc + length a) b.
    Proof.
      intros H. split; intros i x Hi.
      - apply H. rewrite nth_error_app1; [exact Hi|]. apply nth_error_Some. congruence.
      - replace (pc + length a + i) with (pc + (length a + i)) by lia. apply H.
        rewrite nth_error_app2 by lia. replace (length a + i - length a) with i by lia. exact Hi.
    Qed.

    Lemma code_at_cons pc x r : code_at pc (x :: r) -> nth_error ch pc = Some x /\ code_at (S pc) r.
    Proof.
      intros H. split.
      - replace pc with (pc + 0) by lia. apply H. reflexivity.
      - intros i y Hi. replace (S pc + i) with (pc + S i) by lia. apply H. exact Hi.
    Qed.

    Definition seg (pc : nat) (code : list instr) (pe : nat) : Prop :=
      code_at pc code /\ pe = pc + length code.

    Lemma seg_app pc a b pe : seg pc (a ++ b) pe -> seg pc a (pc + length a) /\ seg (pc + length a) b pe.
    Proof.
      intros [H ->]. apply code_at_app in H as [Ha Hb]. repeat split; [exact Ha|exact Hb|].
      rewrite app_length. lia.
    Qed.

    Lemma seg_cons pc x r pe : seg pc (x :: r) pe -> nth_error ch pc = Some x /\ seg (S pc) r pe.
    Proof.
      intros [H ->]. apply code_at_cons in H as [Hx Hr]. repeat split; [exact Hx|exact Hr|]. cbn [length]. lia.
    Qed.

    Lemma seg_nil pc pe : seg pc [] pe -> pe = pc.
    Proof. intros [_ ->]. apply Nat.add_0_r. Qed.

    Lemma seg_mid pc a x r pe : seg pc (a ++ x :: r) pe ->
      seg pc a (pc + length a) /\ nth_error ch (pc + length a) = Some x /\ seg (S (pc + length a)) r pe.
    Proof. intros H. apply seg_app in H as [Ha H]. apply seg_cons in H as [Hx H]. auto. Qed.

    Lemma seg_snoc pc a x pe : seg pc (a ++ [x]) pe ->
      seg pc a (pc + length a) /\ nth_error ch (pc + length a) = Some x /\ pe = S (pc + length a).
    Proof. intros H. apply seg_mid in H as (Ha & Hx & H). apply seg_nil in H. auto. Qed.

    (* Every statement below has the form `leads a a'`; a proof executes the goal's left side forward. *)
    Inductive cfg := At (pc : nat) (s : state) (o : sink W) | Stop.

    Definition leads (a a' : cfg) : Prop :=
      match a, a' with
      | At pc s o, At pc' s' o' => steps pc s o pc' s' o'
      | At pc s o, Stop => fails pc s o
      | Stop, _ => a' = Stop
      end.

    Lemma leads_refl a : leads a a.
    Proof. destruct a; [exists 0, 0|]; reflexivity. Qed.

    Lemma leads_trans a1 a2 a3 : leads a1 a2 -> leads a2 a3 -> leads a1 a3.
    Proof.
      destruct a1 as [pc s o|]; [|intros -> H; exact H]. destruct a2 as [pc2 s2 o2|]; [|intros H ->; exact H].
      (* n1 units of fuel reach a2 with m1 left of them; the run from a2 is given n2 more *)
      intros (n1 & m1 & H1) H2.
      assert (E : forall n2 k, R (n1 + n2 + k) pc s o = R (n2 + (m1 + k)) pc2 s2 o2).
      { intros n2 k. replace (n1 + n2 + k) with (n1 + (n2 + k)) by lia. rewrite H1. f_equal. lia. }
      destruct a3 as [pc3 s3 o3|]; destruct H2 as (n2 & x & H2).
      - exists (n1 + n2), (m1 + x). intros k. rewrite E, H2. f_equal. lia.
      - exists (n1 + n2), x. intros k. rewrite E. apply H2.
    Qed.

    Definition after (pc : nat) (o : sink W) (r : pure_res) : cfg :=
      match r with PNext s => At (S pc) s o | PGoto t s => At t s o | PFail _ => Stop end.

    Lemma leads_pure pc s o i r :
      nth_error ch pc = Some i -> pure_step wd i s = Some r -> leads (At pc s o) (after pc o r).
    Proof.
      intros Hi Hr. pose proof (fun fu => run_pure wd W wr fu tpl ae depth ch pc s o i r Hi Hr) as E.
      destruct r as [s'|t s'|e]; [exact (step1 _ _ _ _ _ _ E)..|exact (fail1 _ _ _ e E)].
    Qed.

    (* the reference interpreter's results are in `res`: an error there is a failed run here *)
    Definition on {A} (r : res A) (k : A -> cfg) : cfg := match r with ROk x => k x | RErr _ => Stop end.

    Lemma leads_bind {A A'} a (r : res A) (f : A -> res A') k k' :
      leads a (on r k) -> (forall x, leads (k x) (on (f x) k')) ->
      leads a (on match r with ROk x => f x | RErr e => RErr e end k').
    Proof. intros H K. destruct r as [x|e]; [exact (leads_trans _ _ _ H (K x))|exact H]. Qed.

    Lemma leads_on {A} a (r : res A) k k' : leads a (on r k) -> (forall x, leads (k x) (k' x)) -> leads a (on r k').
    Proof. intros H K. destruct r as [x|e]; [exact (leads_trans _ _ _ H (K x))|exact H]. Qed.

    (* [step Hi]: in a goal `leads (At pc s o) a'`, run the instruction that Hi places at pc, computed on
       the concrete stack, loops and captures of s *)
    Ltac step Hi :=
      eapply leads_trans; [exact (leads_pure _ _ _ _ _ Hi eq_refl)|];
      unfold after, on_res, unop, binop, stackop;
      cbn [stack loops caps mk upd_stack upd_loops upd_caps push pop1 pop2 kwargs_of tl].

    Lemma binop_instr_class op : is_unop (binop_instr op) = false /\ is_binop (binop_instr op) = true.
    Proof. destruct op; split; reflexivity. Qed.

    Lemma binop_of_instr op sc a b : binop wd (binop_instr op) sc a b = binop_result wd op a b.
    Proof. destruct op; reflexivity. Qed.

    Lemma unop_attr_opt a sc v :
      unop wd (LoadAttrOpt a) sc v
      = if is_undefined v || is_none v then ROk VUndef
        else ROk (match w_get_attr wd v a with Some x => x | None => VUndef end).
    Proof. destruct v; reflexivity. Qed.

    Lemma load_name_abs b stk l sv c n : ordinary_name n = true -> Forall frame_ok l -> parent_ok b ->
      load_name_v (mk b stk l sv c) n = env_lookup (absE b l sv) n.
    Proof.
      intros Ho Hl Hp. destruct (ordinary_name_spec n Ho) as (Hm & _).
      unfold load_name_v. rewrite Hm. unfold get_value, absE. symmetry. apply env_lookup_abs; [exact Ho|].
      split; assumption.
    Qed.

    Lemma load_loop_field b stk l sv c fld : l <> [] -> Forall frame_ok l ->
      eval B (ELoop fld) (absE b l sv) = ROk (load_name_v (mk b stk l sv c) (loop_field_name fld)).
    Proof.
      destruct l as [|fr t]; [congruence|]. intros _ Hf. inversion Hf as [|? ? (H1 & H2 & H3)].
      destruct fld; unfold load_name_v, get_value, scope_of, scope_get, loops_get, lf_get; cbn [mk loops];
        rewrite H3; cbn -[Z.of_nat Nat.eqb]; rewrite ?H1, ?H2; reflexivity.
    Qed.

    (* the enclosing loop, as the compiler sees it: (index of its Iterate, its loop_end) *)
    Definition lp_ok (lp : option (nat * nat)) (l : list loop_frame) : Prop :=
      match lp with
      | Some (_, le) => exists fr t, l = fr :: t /\ lf_end_ip fr = le
      | None => True
      end.

    (* lex = true: the code is inside a `for` body (Compile.wf_expr admits loop.* only there), so a frame
       exists for LoadName "loop.index" etc. to read; lp is the enclosing loop that break/continue refer to *)
    Definition pre (lex : bool) (lp : option (nat * nat)) (b : state) (l : list loop_frame) : Prop :=
      (lex = true -> l <> []) /\ Forall frame_ok l /\ parent_ok b /\ lp_ok lp l.

    Lemma pre_None lex lp b l : pre lex lp b l -> pre lex None b l.
    Proof. intros (H1 & H2 & H3 & _). repeat split; assumption. Qed.

    Section Expr.
      Variables (lex : bool) (lp : option (nat * nat)) (b : state) (l : list loop_frame) (sv : ctx).
      Hypothesis Hpre : pre lex lp b l.

      Definition pushes (pc pe : nat) (r : res value) : Prop :=
        forall stk c o, leads (At pc (mk b stk l sv c) o) (on r (fun v => At pe (mk b (v :: stk) l sv c) o)).

      Definition expr_ok (e : expr) : Prop :=
        forall pc pe, wf_expr lex e = true -> seg pc (compile_expr pc e) pe -> pushes pc pe (eval B e (absE b l sv)).

      Lemma unop_ok e i f pc pe : expr_ok e -> wf_expr lex e = true -> seg pc (compile_expr pc e ++ [i]) pe ->
        is_unop i = true -> (forall sc v, unop wd i sc v = f v) ->
        pushes pc pe (match eval B e (absE b l sv) with ROk v => f v | RErr x => RErr x end).
      Proof.
        intros IHe Hwf Hc Hu Hf stk c o. apply seg_snoc in Hc as (Hc & Hi & ->).
        eapply leads_bind; [exact (IHe _ _ Hwf Hc stk c o)|intros v].
        eapply leads_trans; [exact (leads_pure _ _ _ _ _ Hi (pure_step_unop wd i _ Hu))|].
        cbn [pop1 stack mk]. rewrite Hf. destruct (f v); apply leads_refl.
      Qed.

      Lemma binop_ok e1 e2 i f pc pe : expr_ok e1 -> expr_ok e2 -> wf_expr lex e1 && wf_expr lex e2 = true ->
        seg pc (compile_expr pc e1 ++ compile_expr (pc + length (compile_expr pc e1)) e2 ++ [i]) pe ->
        is_unop i = false /\ is_binop i = true -> (forall sc x y, binop wd i sc x y = f x y) ->
        pushes pc pe (match eval B e1 (absE b l sv) with
                      | ROk x => match eval B e2 (absE b l sv) with ROk y => f x y | RErr e => RErr e end
                      | RErr e => RErr e
                      end).
      Proof.
        intros IH1 IH2 Hwf Hc [Hu Hb] Hf stk c o. apply andb_prop in Hwf as [Hw1 Hw2].
        apply seg_app in Hc as [Hc1 Hc]. apply seg_snoc in Hc as (Hc2 & Hi & ->).
        eapply leads_bind; [exact (IH1 _ _ Hw1 Hc1 stk c o)|intros x].
        eapply leads_bind; [exact (IH2 _ _ Hw2 Hc2 _ c o)|intros y].
        eapply leads_trans; [exact (leads_pure _ _ _ _ _ Hi (pure_step_binop wd i _ Hu Hb))|].
        cbn [pop2 stack mk]. rewrite Hf. destruct (f x y); apply leads_refl.
      Qed.

      (* left; JumpIfFalseOrPop end (and) / JumpIfTrueOrPop end (or); right; end: *)
      Lemma and_or_ok e1 e2 : expr_ok e1 -> expr_ok e2 -> expr_ok (EAnd e1 e2) /\ expr_ok (EOr e1 e2).
      Proof.
        intros IH1 IH2. split; intros pc pe Hwf Hc stk c o; cbn [wf_expr compile_expr eval] in Hwf, Hc |- *;
          apply andb_prop in Hwf as [Hw1 Hw2]; rewrite !Nat.add_1_r in Hc;
          apply seg_app in Hc as [Hc1 Hc]; apply seg_cons in Hc as [Hi Hc2]; rewrite <- (proj2 Hc2) in Hi;
          (eapply leads_bind; [exact (IH1 _ _ Hw1 Hc1 stk c o)|intros v]);
          step Hi; destruct (is_truthy v); first [exact (IH2 _ _ Hw2 Hc2 stk c o)|apply leads_refl].
      Qed.

      Lemma eval_kws_cons ev k e t :
        eval_kws ev ((k, e) :: t)
        = match ev e with
          | ROk v => match eval_kws ev t with ROk r => ROk ((k, v) :: r) | RErr x => RErr x end
          | RErr x => RErr x
          end.
      Proof. reflexivity. Qed.

      Lemma eval_kws_length ev : forall kw kws, eval_kws ev kw = ROk kws -> length kws = length kw.
      Proof.
        induction kw as [|[k e] t IH]; intros kws; [intros [= <-]; reflexivity|]. rewrite eval_kws_cons.
        destruct (ev e); [|discriminate]. destruct (eval_kws ev t) as [r|]; [|discriminate].
        intros [= <-]. cbn [length]. rewrite (IH r eq_refl). reflexivity.
      Qed.

      Definition flat_kws (kws : list (str * value)) : list value :=
        flat_map (fun kv => [VStr (fst kv) false; snd kv]) kws.

      Lemma pop_n_app : forall ys stk acc, pop_n (length ys) (ys ++ stk) acc = Some (rev ys ++ acc, stk).
      Proof.
        induction ys as [|y ys IH]; intros stk acc; [reflexivity|]. cbn [length app pop_n rev].
        rewrite IH, <- app_assoc. reflexivity.
      Qed.

      Lemma flat_kws_length kws : length (flat_kws kws) = 2 * length kws.
      Proof. induction kws as [|kv t IH]; [reflexivity|]. unfold flat_kws in *. cbn [flat_map app length]. rewrite IH. lia. Qed.

      Lemma pop_n_kws kws stk :
        pop_n (2 * length kws) (rev (flat_kws kws) ++ stk) [] = Some (flat_kws kws, stk).
      Proof.
        rewrite <- flat_kws_length, <- (rev_length (flat_kws kws)), pop_n_app, rev_involutive, app_nil_r.
        reflexivity.
      Qed.

      Lemma build_map_pairs_kws kws :
        build_map_pairs wd (flat_kws kws) = ROk (map (fun kv => (KStr (fst kv) true, snd kv)) kws).
      Proof.
        induction kws as [|[k v] t IH]; [reflexivity|]. cbn [flat_kws flat_map app build_map_pairs fst snd map].
        rewrite H_key. fold (flat_kws t). rewrite IH. reflexivity.
      Qed.

      Lemma flat_kws_cons_rev k v r stk :
        rev (flat_kws ((k, v) :: r)) ++ stk = rev (flat_kws r) ++ v :: VStr k false :: stk.
      Proof.
        change (flat_kws ((k, v) :: r)) with ([VStr k false; v] ++ flat_kws r).
        rewrite rev_app_distr, <- app_assoc. reflexivity.
      Qed.

      Lemma kws_ok kw : Forall (fun ke => expr_ok (snd ke)) kw -> wf_kws lex kw = true ->
        forall pc pe stk c o, seg pc (compile_kws compile_expr pc kw) pe ->
          leads (At pc (mk b stk l sv c) o)
                (on (eval_kws (fun x => eval B x (absE b l sv)) kw) (fun kws => At pe (mk b (rev (flat_kws kws) ++ stk) l sv c) o)).
      Proof.
        induction 1 as [|[k e] t He _ IH]; intros Hwf pc pe stk c o Hc.
        - apply seg_nil in Hc as ->. apply leads_refl.
        - cbn [snd] in He. apply andb_prop in Hwf as [Hw1 Hw2].
          rewrite compile_kws_cons in Hc. rewrite eval_kws_cons.
          apply seg_app in Hc as [Hc1 Hc2]. apply seg_cons in Hc1 as [Hi Hce]. step Hi.
          eapply leads_bind; [exact (He _ _ Hw1 Hce _ c o)|intros v].
          eapply leads_bind; [exact (IH Hw2 _ _ _ c o Hc2)|intros r].
          cbn [on]. rewrite flat_kws_cons_rev. apply leads_refl.
      Qed.

      (* kwargs; BuildMap: the map the world's filters and functions are called with *)
      Lemma kwargs_ok kw pc pe stk c o :
        Forall (fun ke => expr_ok (snd ke)) kw -> wf_kws lex kw = true -> seg pc (compile_kwargs pc kw) pe ->
        leads (At pc (mk b stk l sv c) o)
              (on (eval_kws (fun x => eval B x (absE b l sv)) kw) (fun kws => At pe (mk b (VMap (kw_map wd kws) :: stk) l sv c) o)).
      Proof.
        intros Hkw Hwf Hc. apply seg_snoc in Hc as (Hc & Hi & ->).
        pose proof (kws_ok kw Hkw Hwf _ _ stk c o Hc) as K.
        destruct (eval_kws (fun x => eval B x (absE b l sv)) kw) as [kws|x] eqn:E; [|exact K].
        eapply leads_trans; [exact K|]. step Hi.
        rewrite <- (eval_kws_length _ _ _ E), pop_n_kws, build_map_pairs_kws. apply leads_refl.
      Qed.

      Lemma filter_step pc v kws stk c o name :
        nth_error ch pc = Some (ApplyFilter name) ->
        leads (At pc (mk b (VMap (kw_map wd kws) :: v :: stk) l sv c) o)
              (on (apply_filter B name v kws) (fun r => At (S pc) (mk b (r :: stk) l sv c) o)).
      Proof.
        intros Hi. step Hi. rewrite (H_fscope name v _ _ no_scope).
        unfold apply_filter. change (b_filter B name v kws) with (w_filter wd name v (kw_map wd kws) no_scope).
        destruct (w_filter wd name v (kw_map wd kws) no_scope) as [[[r|x] safe]|]; apply leads_refl.
      Qed.

      (* a test is called with empty kwargs: the compiler emits BuildMap 0 before RunTest *)
      Lemma test_ok e n : expr_ok e -> expr_ok (ETest e n).
      Proof.
        intros IHe pc pe Hwf Hc stk c o. cbn [wf_expr compile_expr eval] in Hwf, Hc |- *.
        apply seg_app in Hc as [Hc Hc2]. apply seg_cons in Hc2 as [Hi1 Hc2]. apply seg_cons in Hc2 as [Hi2 Hc2].
        apply seg_nil in Hc2 as ->.
        eapply leads_bind; [exact (IHe _ _ Hwf Hc stk c o)|intros v].
        step Hi1. cbn [pop_n Nat.mul Nat.add build_map_pairs].
        change (map_of_pairs wd []) with (@nil (key * value)). step Hi2.
        change (b_test B n v) with (w_test wd n v []).
        destruct (w_test wd n v []) as [[r|x]|]; apply leads_refl.
      Qed.

      Lemma filter_ok e n kw : expr_ok e -> Forall (fun ke => expr_ok (snd ke)) kw -> expr_ok (EFilter e n kw).
      Proof.
        intros IHe H pc pe Hwf Hc stk c o. cbn [wf_expr compile_expr eval] in Hwf, Hc |- *.
        apply andb_prop in Hwf as [Hw1 Hw2]. rewrite <- compile_kwargs_snoc in Hc.
        apply seg_app in Hc as [Hc1 Hc]. apply seg_snoc in Hc as (Hc2 & Hi & ->).
        eapply leads_bind; [exact (IHe _ _ Hw1 Hc1 stk c o)|intros v].
        eapply leads_bind; [exact (kwargs_ok _ _ _ _ c o H Hw2 Hc2)|intros kws].
        exact (filter_step _ _ _ _ _ _ _ Hi).
      Qed.

      (* cond; PopJumpIfFalse else; then-value; Jump end; else: else-value; end: *)
      Lemma ternary_ok e1 e2 e3 : expr_ok e1 -> expr_ok e2 -> expr_ok e3 -> expr_ok (ETernary e1 e2 e3).
      Proof.
        intros IHe1 IHe2 IHe3 pc pe Hwf Hc stk c o. cbn [wf_expr compile_expr eval] in Hwf, Hc |- *.
        apply andb_prop in Hwf as [Hwf Hw3]. apply andb_prop in Hwf as [Hw1 Hw2]. rewrite !Nat.add_1_r in Hc.
        apply seg_app in Hc as [Hc1 Hc]. apply seg_cons in Hc as [Hj1 Hc]. apply seg_app in Hc as [Hc2 Hc].
        apply seg_cons in Hc as [Hj2 Hc3]. rewrite <- (proj2 Hc3) in Hj2.
        eapply leads_bind; [exact (IHe1 _ _ Hw1 Hc1 stk c o)|intros v].
        step Hj1. destruct (is_truthy v); [|exact (IHe3 _ _ Hw3 Hc3 stk c o)].
        eapply leads_on; [exact (IHe2 _ _ Hw2 Hc2 stk c o)|intros v2]. step Hj2. apply leads_refl.
      Qed.

      Lemma const_ok v : expr_ok (EConst v).
      Proof.
        intros pc pe _ Hc stk c o. apply seg_cons in Hc as [Hi Hc]. apply seg_nil in Hc as ->. step Hi. apply leads_refl.
      Qed.

      Lemma loop_field_ok f : expr_ok (ELoop f).
      Proof.
        intros pc pe Hwf Hc stk c o. destruct Hpre as (Hlex & Hfr & _). rewrite (load_loop_field b stk l sv c f (Hlex Hwf) Hfr).
        apply seg_cons in Hc as [Hi Hc]. apply seg_nil in Hc as ->. step Hi. apply leads_refl.
      Qed.

      (* an absent bound is a constant the compiler loads *)
      Lemma slice_ok opt e sa sb sc : expr_ok e ->
        match sa with Some x => expr_ok x | None => True end -> match sb with Some x => expr_ok x | None => True end ->
        match sc with Some x => expr_ok x | None => True end -> expr_ok (ESlice opt e sa sb sc).
      Proof.
        intros IHe H H0 H1 pc pe Hwf Hc stk c o. cbn [wf_expr compile_expr eval] in Hwf, Hc |- *.
        assert (Hopt : forall (o : option expr) d pc pe,
                  match o with Some x => expr_ok x | None => True end ->
                  match o with Some x => wf_expr lex x | None => true end = true ->
                  seg pc (match o with Some x => compile_expr pc x | None => [LoadConst d] end) pe ->
                  pushes pc pe (match o with Some x => eval B x (absE b l sv) | None => ROk d end)).
        { intros [x|] d pc' pe' Hx Hw Hs; [exact (Hx _ _ Hw Hs)|exact (const_ok d _ _ eq_refl Hs)]. }
        apply andb_prop in Hwf as [Hwf Hw4]. apply andb_prop in Hwf as [Hwf Hw3]. apply andb_prop in Hwf as [Hw1 Hw2].
        apply seg_app in Hc as [Hc1 Hc]. apply seg_app in Hc as [Hc2 Hc]. apply seg_app in Hc as [Hc3 Hc].
        apply seg_snoc in Hc as (Hc4 & Hi & ->).
        eapply leads_bind; [exact (IHe _ _ Hw1 Hc1 stk c o)|intros v].
        eapply leads_bind; [exact (Hopt sa VNone _ _ H Hw2 Hc2 _ c o)|intros va].
        eapply leads_bind; [exact (Hopt sb VNone _ _ H0 Hw3 Hc3 _ c o)|intros vb].
        eapply leads_bind; [exact (Hopt sc (VInt I64 1) _ _ H1 Hw4 Hc4 _ c o)|intros vc].
        change (b_slice B opt v va vb vc) with (vm_slice opt v va vb vc).
        destruct opt; step Hi; destruct (vm_slice _ v va vb vc); apply leads_refl.
      Qed.

      Lemma call_ok n kw : Forall (fun ke => expr_ok (snd ke)) kw -> expr_ok (ECall n kw).
      Proof.
        intros H pc pe Hwf Hc stk c o. cbn [wf_expr compile_expr eval] in Hwf, Hc |- *.
        apply andb_prop in Hwf as [Hs Hw]. apply negb_true_iff in Hs. rewrite <- compile_kwargs_snoc in Hc.
        apply seg_snoc in Hc as (Hc & Hi & ->).
        eapply leads_bind; [exact (kwargs_ok _ _ _ stk c o H Hw Hc)|intros kws].
        assert (Hp : pure_step wd (CallFunction n) (mk b (VMap (kw_map wd kws) :: stk) l sv c) = Some _)
          by (unfold pure_step, is_unop; rewrite (Hs : str_eqb n StackCheck.s_super = false); reflexivity).
        eapply leads_trans; [exact (leads_pure _ _ _ _ _ Hi Hp)|].
        unfold after, on_res, unop. cbn [stack mk pop1 kwargs_of]. rewrite (H_fnscope n _ _ no_scope).
        change (b_function B n kws) with (w_function wd n (kw_map wd kws) no_scope).
        destruct (w_function wd n (kw_map wd kws) no_scope) as [[[r|x] safe]|]; apply leads_refl.
      Qed.

      Lemma expr_correct : forall e, expr_ok e.
      Proof.
        induction e using expr_ind'; [exact (const_ok v)| |exact (loop_field_ok f)|..];
          intros pc pe Hwf Hc; cbn [wf_expr compile_expr eval] in Hwf, Hc |- *.
        (* of the goals left, in the order of expr_ind': EAttr, ENot, ENeg *)
        2,3,10: exact (unop_ok _ _ _ _ _ IHe Hwf Hc eq_refl (fun _ _ => eq_refl)).
        - (* EVar *)
          apply seg_cons in Hc as [Hi Hc]. apply seg_nil in Hc as ->. intros stk c o. step Hi.
          destruct Hpre as (_ & Hfr & Hpar & _). rewrite load_name_abs by assumption. apply leads_refl.
        - exact (proj1 (and_or_ok _ _ IHe1 IHe2) _ _ Hwf Hc).
        - exact (proj2 (and_or_ok _ _ IHe1 IHe2) _ _ Hwf Hc).
        - (* EEq *) exact (binop_ok _ _ _ _ _ _ IHe1 IHe2 Hwf Hc (conj eq_refl eq_refl) (fun _ _ _ => eq_refl)).
        - exact (test_ok _ _ IHe _ _ Hwf Hc).
        - exact (filter_ok _ _ _ IHe H _ _ Hwf Hc).
        - (* EBin *) exact (binop_ok _ _ _ _ _ _ IHe1 IHe2 Hwf Hc (binop_instr_class op) (binop_of_instr op)).
        - exact (ternary_ok _ _ _ IHe1 IHe2 IHe3 _ _ Hwf Hc).
        - (* EAttrOpt *) exact (unop_ok _ _ _ _ _ IHe Hwf Hc eq_refl (unop_attr_opt a)).
        - (* ESub *) destruct opt; exact (binop_ok _ _ _ _ _ _ IHe1 IHe2 Hwf Hc (conj eq_refl eq_refl) (fun _ _ _ => eq_refl)).
        - exact (slice_ok _ _ _ _ _ IHe H H0 H1 _ _ Hwf Hc).
        - exact (call_ok _ _ H _ _ Hwf Hc).
        - (* EArr: not covered *) discriminate.
        - (* EMap: not covered *) discriminate.
      Qed.

      Lemma filters_ok stk c o : forall fs pc pe v,
        forallb (fun f => wf_kws lex (snd f)) fs = true -> seg pc (compile_filters pc fs) pe ->
        leads (At pc (mk b (v :: stk) l sv c) o)
              (on (apply_filters B fs v (absE b l sv)) (fun r => At pe (mk b (r :: stk) l sv c) o)).
      Proof.
        induction fs as [|[name kw] t IH]; intros pc pe v Hwf Hc.
        - apply seg_nil in Hc as ->. apply leads_refl.
        - cbn [forallb snd] in Hwf. apply andb_prop in Hwf as [Hw1 Hw2]. cbn [compile_filters apply_filters] in *.
          apply seg_app in Hc as [Hc1 Hc2]. apply seg_snoc in Hc1 as (Hk & Hi & He). rewrite He in Hc2.
          assert (Hkw : Forall (fun ke => expr_ok (snd ke)) kw) by (apply Forall_forall; intros ke _; apply expr_correct).
          eapply leads_bind; [exact (kwargs_ok kw pc _ _ c o Hkw Hw1 Hk)|intros kws].
          eapply leads_bind; [exact (filter_step _ _ _ _ _ _ _ Hi)|intros r]. exact (IH _ _ r Hw2 Hc2).
      Qed.
    End Expr.

    Lemma exec_iter_cons body key val n it rest i en :
      exec_iter body key val n (it :: rest) i en
      = match body (push_loop en {| ls_key_name := key; ls_val_name := val; ls_item := it;
                                    ls_index0 := i; ls_length := n; ls_locals := [] |}) with
        | RErr x => RErr x
        | ROk (en1, t1, SigBreak) => ROk (pop_loop en1, t1, SigNormal)
        | ROk (en1, t1, _) =>
            match exec_iter body key val n rest (S i) (pop_loop en1) with
            | ROk (en2, t2, sg) => ROk (en2, t1 ++ t2, sg)
            | RErr x => RErr x
            end
        end.
    Proof. reflexivity. Qed.

    (* where control is when a statement has ended with sg: behind it, at the loop's end (break) or
       at the loop's Iterate (continue) *)
    Definition target (pc_end : nat) (lp : option (nat * nat)) (sg : signal) : option nat :=
      match sg, lp with
      | SigNormal, _ => Some pc_end
      | SigBreak, Some (_, le) => Some le
      | SigContinue, Some (ls, _) => Some ls
      | _, None => None
      end.

    (* what running a statement from (pc, s0) must do, given the reference outcome r computed in the
       environment of (l, sv); c, o: where output goes *)
    Definition result_ok (pc : nat) (s0 : state) (pc_end : nat) (lp : option (nat * nat))
               (b : state) (stk : list value) (l : list loop_frame) (sv : ctx) (c : list str) (o : sink W)
               (r : outcome) : Prop :=
      match r with
      | RErr _ => fails pc s0 o
      | ROk (env', text, sg) =>
          exists l' sv', env' = absE b l' sv' /\ frames_eq l l' /\
            match target pc_end lp sg with
            | Some t => steps pc s0 o t (mk b stk l' sv' (out_caps c text)) (out_sink c o text)
            | None => False
            end
      end.

    (* the meaning `inc` the reference interpreter gives to included templates is what the VM
       computes for them *)
    Definition inc_sim : Prop :=
      forall name b l sv (o : sink W), okn name = true -> Forall frame_ok l -> parent_ok b ->
        match assoc_get (w_templates wd) name with
        | None => exists x, inc name (absE b l sv) = RErr x
        | Some t2 =>
            let st := inc_state (Scope l sv (parent b) (context b) (global b)) (context b) in
            match inc name (absE b l sv) with
            | RErr _ => exists n e, forall k, run W wr wd (n + k) t2 ae depth (t_root_chunk t2) 0 st o = RFail e
            | ROk text => exists n s', forall k,
                run W wr wd (n + k) t2 ae depth (t_root_chunk t2) 0 st o = RDone s' (sink_add o text)
            end
        end.
    Hypothesis Hinc : inc_sim.

    Section Stmt.
      Variables (b : state) (stk : list value).

    (* result_ok from any configuration: `result_ok pc s0 pe lp l sv c o r` is `result a .. r` at
       a = At pc s0 o, by conversion *)
    Definition result (a : cfg) (pe : nat) (lp : option (nat * nat))
               (l : list loop_frame) (c : list str) (o : sink W) (r : outcome) : Prop :=
      match r with
      | RErr _ => leads a Stop
      | ROk (env', text, sg) =>
          exists l' sv', env' = absE b l' sv' /\ frames_eq l l' /\
            match target pe lp sg with
            | Some t => leads a (At t (mk b stk l' sv' (out_caps c text)) (out_sink c o text))
            | None => False
            end
      end.

    Lemma result_lead a a1 pe lp l c o r : leads a a1 -> result a1 pe lp l c o r -> result a pe lp l c o r.
    Proof.
      intros H. destruct r as [[[en t] sg]|x]; cbn [result]; [|apply leads_trans; exact H].
      intros (l' & sv' & He & Hf & Ht). exists l', sv'. split; [exact He|]. split; [exact Hf|].
      destruct (target pe lp sg); [exact (leads_trans _ _ _ H Ht)|exact Ht].
    Qed.

    Lemma result_bind {A} a (r : res A) k (f : A -> outcome) pe lp l c o :
      leads a (on r k) -> (forall x, result (k x) pe lp l c o (f x)) ->
      result a pe lp l c o match r with ROk x => f x | RErr e => RErr e end.
    Proof. intros H K. destruct r as [x|e]; [exact (result_lead _ _ _ _ _ _ _ _ H (K x))|exact H]. Qed.

    Lemma result_normal a pe lp l c o l' sv' text :
      frames_eq l l' -> leads a (At pe (mk b stk l' sv' (out_caps c text)) (out_sink c o text)) ->
      result a pe lp l c o (ROk (absE b l' sv', text, SigNormal)).
    Proof. intros Hf H. exists l', sv'. split; [reflexivity|]. split; [exact Hf|exact H]. Qed.

    Lemma result_silent a pe lp l c o l' sv' :
      frames_eq l l' -> leads a (At pe (mk b stk l' sv' c) o) ->
      result a pe lp l c o (ROk (absE b l' sv', [], SigNormal)).
    Proof. intros Hf H. apply result_normal; [exact Hf|]. rewrite out_caps_nil, out_sink_nil. exact H. Qed.

    Lemma result_then a pe1 pe2 lp l c o r :
      result a pe1 lp l c o r -> (forall s' o', leads (At pe1 s' o') (At pe2 s' o')) ->
      result a pe2 lp l c o r.
    Proof.
      intros Hr Hs. destruct r as [[[en1 t1] sg]|x]; [|exact Hr].
      destruct Hr as (l' & sv' & He & Hf & Ht). exists l', sv'. split; [exact He|]. split; [exact Hf|].
      destruct sg, lp as [[ls le]|]; cbn [target] in *; first [exact Ht|exact (leads_trans _ _ _ Ht (Hs _ _))].
    Qed.

    Lemma result_app a a1 pe lp l l1 c o t1 r :
      frames_eq l l1 -> leads a a1 -> result a1 pe lp l1 (out_caps c t1) (out_sink c o t1) r ->
      result a pe lp l c o match r with ROk (en2, t2, sg) => ROk (en2, t1 ++ t2, sg) | RErr x => RErr x end.
    Proof.
      intros Hf H Hr. apply (result_lead _ _ _ _ _ _ _ _ H). destruct r as [[[en2 t2] sg]|x]; [|exact Hr].
      destruct Hr as (l2 & sv2 & He & Hf2 & Ht). exists l2, sv2. split; [exact He|].
      split; [exact (frames_eq_trans _ _ _ Hf Hf2)|]. rewrite out_caps_app, out_sink_app in Ht. exact Ht.
    Qed.

    Lemma pre_frames_eq lex lp l l' : frames_eq l l' -> pre lex lp b l -> pre lex lp b l'.
    Proof.
      intros Hf (H1 & H2 & H3 & H4). split; [|split; [|split]].
      - intros Hl. eapply frames_eq_nonempty; [exact Hf|auto].
      - eapply frames_eq_ok; eassumption.
      - exact H3.
      - destruct lp as [[ls le]|]; [|exact I]. destruct H4 as (fr & t & -> & He).
        inversion Hf as [|? f' ? t' [cx ->] Ht]; subst. exists (lf_set_ctx fr cx), t'. split; reflexivity. (* `subst` has put lf_end_ip fr for le *)
    Qed.

    (* The compiler carries the index of the Iterate (lpc), which is all Break/Continue encode, and it
       matters only where they are allowed; the proof also needs the loop's end (lp), where a break lands *)
    Definition lp_code (lp : option (nat * nat)) (lpc : option nat) : Prop :=
      is_some lp = true -> lpc = option_map fst lp.

    Definition stmt_ok (s : stmt) : Prop :=
      forall lex lp lpc pc pe l sv c o,
        wf_stmt okn lex (is_some lp) s = true -> pre lex lp b l -> lp_code lp lpc ->
        seg pc (compile_node pc lpc s) pe ->
        result (At pc (mk b stk l sv c) o) pe lp l c o (exec B aesc inc s (absE b l sv)).

    Definition seq_ok (body : list stmt) : Prop :=
      forall lex lp lpc pc pe l sv c o,
        forallb (wf_stmt okn lex (is_some lp)) body = true -> pre lex lp b l -> lp_code lp lpc ->
        seg pc (compile_seq compile_node pc lpc body) pe ->
        result (At pc (mk b stk l sv c) o) pe lp l c o (exec_list B aesc inc body (absE b l sv)).

    Lemma seq_from_stmts body : Forall stmt_ok body -> seq_ok body.
    Proof.
      induction 1 as [|s t Hs _ IH]; intros lex lp lpc pc pe l sv c o Hwf Hpre Hl Hc.
      - apply seg_nil in Hc as ->. apply result_silent; [apply frames_eq_refl|apply leads_refl].
      - cbn [forallb] in Hwf. apply andb_prop in Hwf as [Hw1 Hw2].
        rewrite compile_seq_cons in Hc. apply seg_app in Hc as [Hc1 Hc2].
        unfold exec_list. rewrite exec_seq_cons.
        specialize (Hs lex lp lpc pc _ l sv c o Hw1 Hpre Hl Hc1).
        destruct (exec B aesc inc s (absE b l sv)) as [[[en1 t1] sg1]|x]; [|exact Hs].
        destruct Hs as (l1 & sv1 & -> & Hf1 & Ht1).
        destruct sg1.
        2,3: exists l1, sv1; split; [reflexivity|]; split; [exact Hf1|];
             destruct lp as [[ls le]|]; cbn [target] in *; exact Ht1.
        exact (result_app _ _ _ _ _ _ _ _ _ _ Hf1 Ht1
                 (IH lex lp lpc _ pe l1 sv1 _ _ Hw2 (pre_frames_eq _ _ _ _ Hf1 Hpre) Hl Hc2)).
    Qed.

    (* the VM's frames in closed form. init_frame: VM.new_loop after the StoreLocals of the header; no
       item yet, lf_last as new_loop sets it, and end_ip 0 until the first Iterate stores the loop's
       end, which is how lf_advance knows the first advance. iter_frame: the frame in iteration i,
       what lf_advance makes of either *)
    Definition iter_frame (key : option str) (val : str) (n le i : nat) (it : option value * value)
               (rest : list (option value * value)) : loop_frame :=
      {| lf_rest := rest; lf_index0 := i; lf_first := Nat.eqb i 0; lf_last := Nat.eqb (S i) n;
         lf_length := n; lf_end_ip := le; lf_context := []; lf_value_name := val; lf_key_name := key;
         lf_current := it; lf_iterated := true; lf_is_comp := false |}.

    Definition init_frame (key : option str) (val : str) (items : list (option value * value)) : loop_frame :=
      {| lf_rest := items; lf_index0 := 0; lf_first := true; lf_last := Nat.eqb (length items) 1;
         lf_length := length items; lf_end_ip := 0; lf_context := []; lf_value_name := val;
         lf_key_name := key; lf_current := (None, VUndef); lf_iterated := false; lf_is_comp := false |}.

    (* StartIterate; StoreLocal value; [StoreLocal key] on the container on top of the stack *)
    Lemma for_header key val pc pe cv l sv c o : val <> [] ->
      seg pc ([StartIterate (is_some key); StoreLocal val] ++ match key with Some k => [StoreLocal k] | None => [] end) pe ->
      leads (At pc (mk b (cv :: stk) l sv c) o)
            match iter_items cv with
            | Some items =>
                if is_some key && negb (is_map cv) then Stop
                else At pe (mk b stk (init_frame key val items :: l) sv c) o
            | None => Stop
            end.
    Proof.
      intros Hv Hc. cbn [app] in Hc. apply seg_cons in Hc as [H1 Hc]. apply seg_cons in Hc as [H2 Hc].
      step H1. destruct (iter_items cv) as [items|]; [|apply leads_refl].
      destruct (is_some key && negb (is_map cv)); [apply leads_refl|]. step H2.
      destruct key as [k|].
      - apply seg_cons in Hc as [H3 Hc]. apply seg_nil in Hc as ->. step H3.
        destruct val; [congruence|apply leads_refl].
      - apply seg_nil in Hc as ->. destruct val; [congruence|apply leads_refl].
    Qed.

    (* The loop from its Iterate at `start` to pe, behind the code at the loop's end S pj.  Iteration i runs
       the body in the frame iter_frame .. i it rest exactly; back at the Iterate the frame is that one up to
       the body's assignments, and Iterate computes the next one from it: two statements, each the other's
       premise, the induction is on the items left *)
    Section Loop.
      Variables (key : option str) (val : str) (n : nat) (body : list stmt) (start pj pe : nat) (lp : option (nat * nat)).
      Hypothesis Hbody : seq_ok body.
      Hypothesis Hit : nth_error ch start = Some (Iterate (S pj)).
      Hypothesis Hcb : seg (S start) (compile_seq compile_node (S start) (Some start) body) pj.
      Hypothesis Hjmp : nth_error ch pj = Some (Jump start).
      Hypothesis Hwf : forallb (wf_stmt okn true true) body = true.
      Hypothesis Hpar : parent_ok b.
      Hypothesis Hexit : forall f l sv c o, lf_iterated f = true ->
        leads (At (S pj) (mk b stk (f :: l) sv c) o) (At pe (mk b stk l sv c) o).

      Definition at_iterate (rest : list (option value * value)) : Prop :=
        forall i itp cx l sv c o, Forall frame_ok l ->
          result (At start (mk b stk (lf_set_ctx (iter_frame key val n (S pj) i itp rest) cx :: l) sv c) o) pe lp l c o
                 (exec_iter (exec_list B aesc inc body) key val n rest (S i) (absE b l sv)).

      Lemma iteration it rest i l sv c o : at_iterate rest -> Forall frame_ok l ->
        result (At (S start) (mk b stk (iter_frame key val n (S pj) i it rest :: l) sv c) o) pe lp l c o
               (exec_iter (exec_list B aesc inc body) key val n (it :: rest) i (absE b l sv)).
      Proof.
        intros K Hfr. rewrite exec_iter_cons. set (fa := iter_frame key val n (S pj) i it rest).
        assert (Hpre : pre true (Some (start, S pj)) b (fa :: l)).
        { split; [discriminate|]. split; [constructor; [repeat split|exact Hfr]|]. split; [exact Hpar|].
          exists fa, l. split; reflexivity. }
        pose proof (Hbody true (Some (start, S pj)) _ (S start) pj (fa :: l) sv c o Hwf Hpre (fun _ => eq_refl) Hcb) as Hb.
        change (push_loop (absE b l sv)
                  {| ls_key_name := key; ls_val_name := val; ls_item := it; ls_index0 := i; ls_length := n; ls_locals := [] |})
          with (absE b (fa :: l) sv).
        destruct (exec_list B aesc inc body (absE b (fa :: l) sv)) as [[[en1 t1] sg1]|x]; [|exact Hb].
        destruct Hb as (lb & sv1 & -> & Hf1 & Ht1).
        inversion Hf1 as [|? fa' ? l1 [cx ->] Hfl]; subst.
        change (pop_loop (absE b (lf_set_ctx fa cx :: l1) sv1)) with (absE b l1 sv1).
        pose proof (K i it cx l1 sv1 (out_caps c t1) (out_sink c o t1) (frames_eq_ok _ _ Hfl Hfr)) as Hk.
        destruct sg1; cbn [target] in Ht1.
        - (* the body falls through to Jump start *)
          refine (result_app _ _ _ _ _ _ _ _ _ _ Hfl (leads_trans _ _ _ Ht1 _) Hk). step Hjmp. apply leads_refl.
        - (* break: at the loop's end *)
          apply result_normal; [exact Hfl|]. exact (leads_trans _ _ _ Ht1 (Hexit (lf_set_ctx fa cx) _ _ _ _ eq_refl)).
        - (* continue: at the Iterate *)
          exact (result_app _ _ _ _ _ _ _ _ _ _ Hfl Ht1 Hk).
      Qed.

      Lemma iterations rest : at_iterate rest.
      Proof.
        induction rest as [|it rest IH]; intros i itp cx l sv c o Hfr.
        - apply result_silent; [apply frames_eq_refl|]. step Hit. apply Hexit. reflexivity.
        - eapply result_lead; [|exact (iteration it rest (S i) l sv c o IH Hfr)]. step Hit. apply leads_refl.
      Qed.

      Lemma loop_ok it rest l sv c o : n = length (it :: rest) -> Forall frame_ok l ->
        result (At start (mk b stk (init_frame key val (it :: rest) :: l) sv c) o) pe lp l c o
               (exec_iter (exec_list B aesc inc body) key val n (it :: rest) 0 (absE b l sv)).
      Proof.
        intros Hn Hfr. eapply result_lead; [|exact (iteration it rest 0 l sv c o (iterations rest) Hfr)].
        step Hit. unfold iter_frame. rewrite Hn, (Nat.eqb_sym 1). apply leads_refl.
      Qed.
    End Loop.

    (* the code at loop_end (CompileEqs.for_exit): pop the frame, and run the else body exactly when
       the loop never iterated *)
    Lemma exit_iterated le lp els pe f l sv c o : lf_iterated f = true ->
      seg le (for_exit le lp els) pe -> leads (At le (mk b stk (f :: l) sv c) o) (At pe (mk b stk l sv c) o).
    Proof.
      intros Hi Hc. destruct els as [|s1 r]; cbn [for_exit app] in Hc; apply seg_cons in Hc as [H1 Hc]; step H1.
      - apply seg_nil in Hc as ->. apply leads_refl.
      - apply seg_cons in Hc as [H2 Hc]. apply seg_cons in Hc as [H3 Hc]. pose proof (proj2 Hc) as ->.
        step H2. step H3. rewrite Hi. apply leads_refl.
    Qed.

    Lemma exit_empty le lp0 lpc els pe lex f l sv c o : lf_iterated f = false ->
      seg le (for_exit le lpc els) pe -> seq_ok els ->
      forallb (wf_stmt okn lex (is_some lp0)) els = true -> pre lex lp0 b l -> lp_code lp0 lpc ->
      result (At le (mk b stk (f :: l) sv c) o) pe lp0 l c o (exec_list B aesc inc els (absE b l sv)).
    Proof.
      intros Hi Hc Hels Hwf Hpre Hl. destruct els as [|s1 r]; cbn [for_exit app] in Hc; apply seg_cons in Hc as [H1 Hc].
      - apply seg_nil in Hc as ->. apply result_silent; [apply frames_eq_refl|]. step H1. apply leads_refl.
      - apply seg_cons in Hc as [H2 Hc]. apply seg_cons in Hc as [H3 Hc].
        eapply result_lead; [|exact (Hels lex lp0 lpc _ _ l sv c o Hwf Hpre Hl Hc)].
        step H1. step H2. step H3. rewrite Hi. apply leads_refl.
    Qed.

    Lemma print_ok lp pc v l sv c o : nth_error ch pc = Some WriteTop ->
      result (At pc (mk b (v :: stk) l sv c) o) (S pc) lp l c o
             match render_value B aesc v with ROk t => ROk (absE b l sv, t, SigNormal) | RErr x => RErr x end.
    Proof.
      intros Hi. unfold render_value.
      destruct (is_undefined v) eqn:Eu;
        [apply (fail1 _ _ _ ErrRender)|apply result_normal; [apply frames_eq_refl|apply step1]]; intros fu;
        rewrite run_step, Hi; cbv [instr_effect pure_step is_unop is_binop is_stackop]; cbn [pop1 stack mk];
        rewrite Eu; [reflexivity|].
      cbn [perform]. change (upd_stack (mk b (v :: stk) l sv c) stk) with (mk b stk l sv c). rewrite emit_mk. reflexivity.
    Qed.

    Lemma assign_ok lp pc (g : bool) n v l sv c o : nth_error ch pc = Some (if g then SetGlobal n else SetI n) ->
      result (At pc (mk b (v :: stk) l sv c) o) (S pc) lp l c o (ROk (assign g (absE b l sv) n v, [], SigNormal)).
    Proof.
      intros Hi. destruct g; [|destruct l as [|fr t]].
      - apply (result_silent _ _ _ _ _ _ l (ctx_set sv n v)); [apply frames_eq_refl|step Hi; apply leads_refl].
      - apply (result_silent _ _ _ _ _ _ [] (ctx_set sv n v)); [constructor|step Hi; apply leads_refl].
      - apply (result_silent _ _ _ _ _ _ (lf_store fr n v :: t) sv); [|step Hi; apply leads_refl].
        constructor; [exists (ctx_set (lf_context fr) n v); reflexivity|apply frames_eq_refl].
    Qed.

    Lemma result_frames a pe lp l l1 c o r :
      frames_eq l l1 -> result a pe lp l1 c o r -> result a pe lp l c o r.
    Proof.
      intros Hf. destruct r as [[[en t] sg]|x]; [|exact id].
      intros (l' & sv' & He & Hf' & Ht). exists l', sv'. split; [exact He|]. split; [exact (frames_eq_trans _ _ _ Hf Hf')|exact Ht].
    Qed.

    (* Capture; body; EndCapture; filters leaves the filtered text of the body on the stack (K: what the
       reference does with that value); break and continue cannot leave the body (wf_stmt with brk = false) *)
    Lemma capture_ok body fs i lex lp lpc pc pe l sv c o (K : value -> env -> outcome) :
      seq_ok body -> forallb (wf_stmt okn lex false) body = true ->
      forallb (fun f => wf_kws lex (snd f)) fs = true -> pre lex lp b l ->
      seg pc (Capture :: compile_seq compile_node (S pc) lpc body ++ EndCapture
                :: compile_filters (S (S pc + length (compile_seq compile_node (S pc) lpc body))) fs ++ [i]) pe ->
      (forall p r l1 sv1, nth_error ch p = Some i ->
         result (At p (mk b (r :: stk) l1 sv1 c) o) (S p) lp l1 c o (K r (absE b l1 sv1))) ->
      result (At pc (mk b stk l sv c) o) pe lp l c o
             match exec_list B aesc inc body (absE b l sv) with
             | ROk (en1, text, SigNormal) =>
                 match apply_filters B fs (VStr text true) en1 with ROk v => K v en1 | RErr x => RErr x end
             | ROk _ => RErr ErrOther
             | RErr x => RErr x
             end.
    Proof.
      intros Lb Hw Hwf Hpre Hc HK.
      apply seg_cons in Hc as [Hcap Hc]. apply seg_mid in Hc as (Hcb & Hend & Hc). apply seg_snoc in Hc as (Hfs & Hi & ->).
      eapply result_lead; [step Hcap; apply leads_refl|].
      pose proof (Lb lex None lpc (S pc) _ l sv ([] :: c) o Hw (pre_None _ _ _ _ Hpre) ltac:(discriminate) Hcb) as Hb.
      destruct (exec_list B aesc inc body (absE b l sv)) as [[[en1 text] sg]|x]; [|exact Hb].
      destruct Hb as (l1 & sv1 & -> & Hf1 & Ht1). destruct sg; cbn [target] in Ht1; try contradiction.
      apply (result_frames _ _ _ _ _ _ _ _ Hf1). eapply result_lead; [exact Ht1|].
      eapply result_lead; [step Hend; apply leads_refl|].
      eapply result_bind; [|intros r; apply HK; exact Hi].
      exact (filters_ok lex lp b l1 sv1 (pre_frames_eq _ _ _ _ Hf1 Hpre) stk c o fs _ _ _ Hwf Hfs).
    Qed.

    (* cond; PopJumpIfFalse else; body; [Jump end; else: else-body;] end: *)
    Lemma if_ok c0 b0 e : seq_ok b0 -> seq_ok e -> stmt_ok (SIf c0 b0 e).
    Proof.
      intros Lb Le lex lp lpc pc pe l sv c o Hwf Hpre Hl Hc.
      cbn [wf_stmt] in Hwf. cbn [exec].
      apply andb_prop in Hwf as [Hwf Hw3]. apply andb_prop in Hwf as [Hw1 Hw2].
      destruct e as [|s0 r]; cbn [compile_node] in Hc; rewrite !Nat.add_1_r in Hc;
        apply seg_mid in Hc as (Hc1 & Hi & Hc);
        (eapply result_bind; [exact (expr_correct lex lp b l sv Hpre c0 _ _ Hw1 Hc1 stk c o)|intros v]);
        (eapply result_lead; [step Hi; apply leads_refl|]).
      + pose proof (proj2 Hc) as ->. destruct (is_truthy v).
        * exact (Lb lex lp lpc _ _ l sv c o Hw2 Hpre Hl Hc).
        * apply result_silent; [apply frames_eq_refl|apply leads_refl].
      + apply seg_mid in Hc as (Hc2 & Hj & Hc3). pose proof (proj2 Hc3) as ->. destruct (is_truthy v).
        * apply (result_then _ _ _ _ _ _ _ _ (Lb lex lp lpc _ _ l sv c o Hw2 Hpre Hl Hc2)).
          intros s' o'. step Hj. apply leads_refl.
        * exact (Le lex lp lpc _ _ l sv c o Hw3 Hpre Hl Hc3).
    Qed.

    Lemma for_ok k v t b0 e : seq_ok b0 -> seq_ok e -> stmt_ok (SFor k v t b0 e).
    Proof.
      intros Lb Le lex lp lpc pc pe l sv c o Hwf Hpre Hl Hc.
      cbn [wf_stmt] in Hwf. cbn [exec].
      apply andb_prop in Hwf as [Hwf Hw4]. apply andb_prop in Hwf as [Hwf Hw3].
      apply andb_prop in Hwf as [Hw1 Hw2].
      assert (Hv : v <> []) by (destruct v; discriminate).
      rewrite compile_for_eq in Hc. cbv zeta in Hc.
      apply seg_app in Hc as [Hc1 Hc]. apply seg_app in Hc as [Hh Hc]. apply seg_cons in Hc as [Hit Hc].
      apply seg_mid in Hc as (Hcb & Hj & Hx).
      eapply result_bind; [exact (expr_correct lex lp b l sv Hpre t _ _ Hw1 Hc1 stk c o)|intros cv].
      eapply result_lead; [exact (for_header k v _ _ cv l sv c o Hv Hh)|].
      change (items_of cv) with (iter_items cv). destruct (iter_items cv) as [items|]; [|apply leads_refl].
      change (match k with Some _ => true | None => false end) with (is_some k).
      destruct (is_some k && negb (is_map cv)); [apply leads_refl|].
      destruct items as [|it rest].
      + (* nothing to iterate: Iterate jumps to loop_end, then the else body *)
        eapply result_lead; [step Hit; apply leads_refl|].
        exact (exit_empty _ _ _ _ _ lex (init_frame k v []) l sv c o eq_refl Hx Le Hw4 Hpre Hl).
      + destruct Hpre as (_ & Hfr & Hpar & _).
        apply (loop_ok k v _ b0 _ _ _ _ Lb Hit Hcb Hj Hw3 Hpar); [|reflexivity|exact Hfr].
        intros f l0 sv0 c1 o1 Hi. exact (exit_iterated _ _ _ _ _ _ _ _ _ Hi Hx).
    Qed.

    Lemma include_ok n : stmt_ok (SInclude n).
    Proof.
      intros lex lp lpc pc pe l sv c o Hwf Hpre Hl Hc.
      cbn [wf_stmt] in Hwf. cbn [exec].
      apply seg_cons in Hc as [Hi Hc]. apply seg_nil in Hc as ->. destruct Hpre as (_ & Hfr & Hpar & _).
      pose proof (Hinc n b l sv (match c with [] => o | c0 :: _ => SinkBuf c0 end) Hwf Hfr Hpar) as HI.
      destruct (assoc_get (w_templates wd) n) as [t2|] eqn:Et.
      + pose proof (fun fu => include_state_is_fresh fu tpl ae depth ch pc (mk b stk l sv c) o n t2 Hi Et) as E.
        cbv zeta in HI. cbn [caps mk] in E.
        destruct (inc n (absE b l sv)) as [text|x]; destruct HI as (k0 & r & Hk).
        * apply result_normal; [apply frames_eq_refl|]. exists (S k0), k0. intros k.
          cbn [plus]. rewrite E. destruct c; rewrite Hk; reflexivity.
        * exists (S k0), r. intros k. cbn [plus]. rewrite E. destruct c; rewrite Hk; reflexivity.
      + destruct HI as [x ->]. apply (fail1 _ _ _ ErrOther). intros fu.
        rewrite run_step, Hi. cbv [instr_effect pure_step is_unop is_binop is_stackop]. rewrite Et. reflexivity.
    Qed.

    Lemma stmt_correct : forall s, stmt_ok s.
    Proof.
      induction s as [t | e | c0 b0 e H H0 | k v t b0 e H H0 | g n e | g n b0 fs H | n kw b0 H | n | | ]
        using stmt_ind'; intros lex lp lpc pc pe l sv c o Hwf Hpre Hl Hc; cbn [wf_stmt] in Hwf; cbn [exec].
      - (* SText *)
        apply seg_cons in Hc as [Hi Hc]. apply seg_nil in Hc as ->. apply result_normal; [apply frames_eq_refl|].
        apply step1. intros fu. rewrite run_step, Hi. cbn [instr_effect pure_step is_unop is_binop is_stackop perform].
        rewrite emit_mk. reflexivity.
      - (* SPrint *)
        apply seg_snoc in Hc as (Hc & Hi & ->).
        eapply result_bind; [exact (expr_correct lex lp b l sv Hpre e _ _ Hwf Hc stk c o)|intros v].
        exact (print_ok _ _ v l sv c o Hi).
      - exact (if_ok _ _ _ (seq_from_stmts _ H) (seq_from_stmts _ H0) _ _ _ _ _ _ _ _ _ Hwf Hpre Hl Hc).
      - exact (for_ok _ _ _ _ _ (seq_from_stmts _ H) (seq_from_stmts _ H0) _ _ _ _ _ _ _ _ _ Hwf Hpre Hl Hc).
      - (* SAssign *)
        apply seg_snoc in Hc as (Hc & Hi & ->).
        eapply result_bind; [exact (expr_correct lex lp b l sv Hpre e _ _ Hwf Hc stk c o)|intros v].
        exact (assign_ok _ _ g n v l sv c o Hi).
      - (* SSetBlock: Capture; body; EndCapture; filters; Set *)
        apply andb_prop in Hwf as [Hw1 Hw2]. cbn [compile_node app] in Hc. rewrite !Nat.add_1_r in Hc.
        exact (capture_ok b0 fs _ lex lp _ pc _ l sv c o (fun v en1 => ROk (assign g en1 n v, [], SigNormal))
                 (seq_from_stmts _ H) Hw1 Hw2 Hpre Hc (fun p r l1 sv1 => assign_ok _ _ g n r l1 sv1 c o)).
      - (* SFilter: a set block with the one filter, printed instead of assigned *)
        apply andb_prop in Hwf as [Hw2 Hw1]. cbn [compile_node app] in Hc. rewrite !Nat.add_1_r, compile_filters_single in Hc.
        assert (Hw : forallb (fun f => wf_kws lex (snd f)) [(n, kw)] = true) by (cbn [forallb snd]; rewrite Hw2; reflexivity).
        exact (capture_ok b0 _ _ lex lp _ pc _ l sv c o
                 (fun v en1 => match render_value B aesc v with ROk t => ROk (en1, t, SigNormal) | RErr x => RErr x end)
                 (seq_from_stmts _ H) Hw1 Hw Hpre Hc (fun p r l1 sv1 => print_ok _ _ r l1 sv1 c o)).
      - exact (include_ok _ _ _ _ _ _ _ _ _ _ Hwf Hpre Hl Hc).
      - (* SBreak *)
        destruct lp as [[ls le]|]; [|discriminate]. apply seg_cons in Hc as [Hi _].
        destruct Hpre as (_ & _ & _ & (fr & t & -> & He)).
        exists (fr :: t), sv. split; [reflexivity|]. split; [apply frames_eq_refl|].
        cbn [target]. rewrite out_caps_nil, out_sink_nil. step Hi. rewrite He. apply leads_refl.
      - (* SContinue *)
        destruct lp as [[ls le]|]; [|discriminate]. rewrite (Hl eq_refl) in Hc. apply seg_cons in Hc as [Hi _].
        exists l, sv. split; [reflexivity|]. split; [apply frames_eq_refl|].
        cbn [target]. rewrite out_caps_nil, out_sink_nil. step Hi. apply leads_refl.
    Qed.

    End Stmt.

    (* seq_ok with the end position computed and lpc read off lp: the form Props/C03.v states *)
    Definition list_ok (body : list stmt) : Prop :=
      forall lex lp pc b stk l sv c o,
        forallb (wf_stmt okn lex (is_some lp)) body = true -> pre lex lp b l ->
        code_at pc (compile_seq compile_node pc (option_map fst lp) body) ->
        result_ok pc (mk b stk l sv c) (pc + length (compile_seq compile_node pc (option_map fst lp) body)) lp
                  b stk l sv c o (exec_list B aesc inc body (absE b l sv)).

    Theorem body_correct : forall body, list_ok body.
    Proof.
      intros body lex lp pc b stk l sv c o Hwf Hpre Hc.
      assert (Hb : seq_ok b stk body) by (apply seq_from_stmts, Forall_forall; intros s _; apply stmt_correct).
      exact (Hb lex lp _ pc _ l sv c o Hwf Hpre (fun _ => eq_refl) (conj Hc eq_refl)).
    Qed.

    (* captures are exact, for compiled bodies: the string a Capture ... EndCapture pair would
       collect is the text the same code appends to the enclosing sink when run uncaptured *)
    Theorem capture_is_exact_compiled : forall body lex pc b stk l sv c o,
      forallb (wf_stmt okn lex false) body = true -> pre lex None b l ->
      code_at pc (compile_seq compile_node pc None body) ->
      match exec_list B aesc inc body (absE b l sv) with
      | ROk (en1, text, SigNormal) =>
          let pe := pc + length (compile_seq compile_node pc None body) in
          (exists l' sv', en1 = absE b l' sv' /\
             steps pc (mk b stk l sv ([] :: c)) o pe (mk b stk l' sv' (text :: c)) o) /\
          (exists l' sv', en1 = absE b l' sv' /\
             steps pc (mk b stk l sv c) o pe (mk b stk l' sv' (out_caps c text)) (out_sink c o text))
      | _ => True
      end.
    Proof.
      intros body lex pc b stk l sv c o Hwf Hpre Hc.
      pose proof (body_correct body lex None pc b stk l sv ([] :: c) o Hwf Hpre Hc) as H1.
      pose proof (body_correct body lex None pc b stk l sv c o Hwf Hpre Hc) as H2.
      destruct (exec_list B aesc inc body (absE b l sv)) as [[[en1 text] sg]|x]; [|exact I].
      destruct sg; try exact I. cbn [result_ok target option_map] in *.
      destruct H1 as (l1 & sv1 & He1 & _ & S1). destruct H2 as (l2 & sv2 & He2 & _ & S2).
      split; [exists l1, sv1|exists l2, sv2]; split; assumption.
    Qed.

    Lemma chunk_correct body b (o : sink W) :
      ch = compile body -> wf_body okn body = true -> parent_ok b ->
      match render_body B aesc inc body (absE b [] []) with
      | ROk text => exists n s', forall k, R (n + k) 0 (mk b [] [] [] []) o = RDone s' (sink_add o text)
      | RErr _ => exists n e, forall k, R (n + k) 0 (mk b [] [] [] []) o = RFail e
      end.
    Proof.
      intros Hch Hwf Hpar.
      assert (Hpre : pre false None b []) by (split; [discriminate|]; split; [constructor|]; split; [exact Hpar|exact I]).
      assert (Hc : code_at 0 (compile_seq compile_node 0 (option_map fst (@None (nat * nat))) body)).
      { intros i x Hi. cbn [plus option_map]. rewrite Hch. exact Hi. }
      pose proof (body_correct body false None 0 b [] [] [] [] o Hwf Hpre Hc) as Hb.
      unfold render_body. destruct (exec_list B aesc inc body (absE b [] [])) as [[[en1 text] sg]|x];
        cbn [result_ok] in Hb; [|exact Hb].
      destruct Hb as (l' & sv' & _ & _ & Ht). destruct sg; cbn [target] in Ht; try contradiction.
      destruct Ht as (n & m & Hk). cbn [out_caps out_sink plus option_map] in Hk.
      exists (S n), (mk b [] l' sv' []). intros k.
      rewrite Nat.add_succ_comm, Hk, <- plus_n_Sm, run_step.
      replace (nth_error ch _) with (@None instr); [reflexivity|]. symmetry. apply nth_error_None. rewrite Hch. unfold compile. lia.
    Qed.
  End Tpl.

  Fixpoint find_t (lib : list tdef) (name : str) : option tdef :=
    match lib with
    | [] => None
    | t :: rest => if str_eqb (td_name t) name then Some t else find_t rest name
    end.

  Definition has_name (lib : list tdef) (n : str) : bool :=
    match find_t lib n with Some _ => true | None => false end.

  (* every body passes Compile.wf_body -- break/continue only inside a loop, loop.* only inside a
     loop, no array or map literal, no super(), no variable with one of the engine's reserved
     names (`__tera_context`, `__tera_loop_*`) -- and its includes name templates listed later *)
  Fixpoint lib_wf (lib : list tdef) : Prop :=
    match lib with
    | [] => True
    | t :: rest => wf_body (has_name rest) (td_body t) = true /\ lib_wf rest
    end.

  Definition world_has (lib : list tdef) : Prop :=
    forall pre rest name t, lib = pre ++ rest -> find_t rest name = Some t ->
      assoc_get (w_templates wd) name = Some (compile_tdef t).

  Lemma world_has_of_map lib :
    NoDup (map td_name lib) ->
    w_templates wd = map (fun t => (td_name t, compile_tdef t)) lib -> world_has lib.
  Proof.
    intros Hnd Hw pre rest name t -> Hf. rewrite Hw. clear Hw.
    induction pre as [|p pre IH]; cbn [app map] in *.
    - induction rest as [|r rest IHr]; [discriminate|]. cbn [find_t map assoc_get] in *.
      destruct (str_eqb (td_name r) name); [congruence|]. apply IHr; [|exact Hf]. inversion Hnd; assumption.
    - inversion Hnd as [|? ? Hnin Hnd']; subst. cbn [assoc_get].
      destruct (str_eqb (td_name p) name) eqn:E; [|apply IH; exact Hnd'].
      exfalso. apply str_eqb_eq in E. apply Hnin. rewrite map_app. apply in_or_app. right.
      clear - Hf E. induction rest as [|r rest IHr]; [discriminate|]. cbn [find_t map] in *.
      destruct (str_eqb (td_name r) name) eqn:E2.
      + left. apply str_eqb_eq in E2. congruence.
      + right. apply IHr. exact Hf.
  Qed.

  Lemma world_has_tl t0 rest : world_has (t0 :: rest) -> world_has rest.
  Proof. intros H pre r name t ->. exact (H (t0 :: pre) r name t eq_refl). Qed.

  (* by induction on the library: a template includes only templates listed after it *)
  Theorem template_correct : forall ae depth lib, world_has lib -> lib_wf lib ->
    forall name t b (o : sink W), find_t lib name = Some t -> parent_ok b ->
      match template_sem B ae lib name (absE b [] []) with
      | ROk text => exists n s', forall k,
          run W wr wd (n + k) (compile_tdef t) ae depth (compile (td_body t)) 0 (mk b [] [] [] []) o
          = RDone s' (sink_add o text)
      | RErr _ => exists n e, forall k,
          run W wr wd (n + k) (compile_tdef t) ae depth (compile (td_body t)) 0 (mk b [] [] [] []) o = RFail e
      end.
  Proof.
    intros ae depth lib. induction lib as [|t0 rest IH]; intros Hworld Hwf name t b o Hf Hpar; [discriminate|].
    cbn [find_t template_sem] in *. destruct Hwf as [Hwf0 Hwfr]. specialize (IH (world_has_tl _ _ Hworld) Hwfr).
    destruct (str_eqb (td_name t0) name); [|exact (IH name t b o Hf Hpar)].
    inversion Hf; subst t.
    apply (chunk_correct (compile_tdef t0) ae depth (compile (td_body t0))
             (fun n includer => template_sem B ae rest n (included_env includer)) (has_name rest));
      [|reflexivity|exact Hwf0|exact Hpar].
    (* the includes of this template *)
    intros n b' l sv o' Hok Hfr Hpar'. unfold has_name in Hok.
    destruct (find_t rest n) as [t'|] eqn:Ef; [|discriminate].
    rewrite (Hworld [t0] rest n t' eq_refl Ef). cbv zeta.
    exact (IH n t' (inc_state (Scope l sv (parent b') (context b') (global b')) (context b')) o' Ef (conj Hfr Hpar')).
  Qed.

  (* a render starts from nothing but the context and the global context: no assignment of an
     earlier render can be visible *)
  Definition fresh_state (cx glob : ctx) : state :=
    {| stack := []; loops := []; setvars := []; caps := []; blocks := []; cur_block := None;
       parent := None; context := cx; global := Some glob; capture_block := None; block_buffer := [] |}.

  (* For every template library (statement trees of any nesting: if/elif/else, for with else over
     arrays, strings and maps, break/continue, set/set_global, set blocks, filter sections,
     includes; expressions as far as lib_wf admits them),
     every context and global context: rendering the compiled library on the VM model produces
     exactly the text of the reference interpreter, or both fail; "enough fuel" is any fuel >= n. *)
  Theorem compile_correct : forall lib name t (cx glob : ctx) (w : W),
    world_has lib -> lib_wf lib -> find_t lib name = Some t ->
    match render B None lib name cx glob with
    | ROk text => exists n s', forall k,
        render_to W wr wd (n + k) (compile_tdef t) None cx glob w = RDone s' (SinkTop (wapp w text))
    | RErr _ => exists n e, forall k,
        render_to W wr wd (n + k) (compile_tdef t) None cx glob w = RFail e
    end.
  Proof.
    intros lib name t cx glob w Hworld Hwf Hf.
    exact (template_correct None 0 lib Hworld Hwf name t (fresh_state cx glob) (SinkTop w) Hf I).
  Qed.

  Lemma inc_state_fresh sc cx :
    stack (inc_state sc cx) = [] /\ loops (inc_state sc cx) = [] /\ setvars (inc_state sc cx) = []
    /\ caps (inc_state sc cx) = [] /\ parent (inc_state sc cx) = Some sc.
  Proof. repeat split. Qed.

  Theorem nothing_survives_render : forall fuel tpl cx glob (w : W),
    render_to W wr wd fuel tpl None cx glob w
    = run W wr wd fuel tpl None 0 (t_root_chunk tpl) 0 (fresh_state cx glob) (SinkTop w)
    /\ forall n, get_value (fresh_state cx glob) n
                 = match ctx_get cx n with
                   | Some v => v
                   | None => match ctx_get glob n with Some v => v | None => VUndef end
                   end.
  Proof. intros. split; reflexivity. Qed.
End Sim.

Lemma compile_correct_str (wd : world) lib name t (cx glob : ctx) (w : str) :
  (forall k, w_as_key wd (VStr k false) = Some (KStr k true)) ->
  (forall n v k sc sc', w_filter wd n v k sc = w_filter wd n v k sc') ->
  (forall n k sc sc', w_function wd n k sc = w_function wd n k sc') ->
  NoDup (map td_name lib) -> w_templates wd = map (fun t => (td_name t, compile_tdef t)) lib ->
  lib_wf lib -> find_t lib name = Some t ->
  match render (builtins_of_world wd) None lib name cx glob with
  | ROk text => exists n s', forall k,
      render_to str wr_str wd (n + k) (compile_tdef t) None cx glob w = RDone s' (SinkTop (w ++ text))
  | RErr _ => exists n e, forall k,
      render_to str wr_str wd (n + k) (compile_tdef t) None cx glob w = RFail e
  end.
Proof.
  intros Hk Hfs Hfn Hnd Hw.
  exact (compile_correct str wr_str (@app N) (fun _ _ => eq_refl) (fun w a b => eq_sym (app_assoc w a b)) (@app_nil_r N)
           wd Hk Hfs Hfn lib name t cx glob w (world_has_of_map wd lib Hnd Hw)).
Qed.
