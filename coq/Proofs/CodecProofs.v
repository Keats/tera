(* Proofs for C20, the parts on percent-encoding, UTF-8 and slug (Model/Codec.v, Model/Utf8.v against
   Spec/Codec.v), and the facts on lists, ranges and division that CodecJsonProofs and CodecB64Proofs
   use as well. *)
From TeraV Require Import Model.Utf8 Gen.CodecTables Model.Codec Spec.Codec.
From Coq Require Import Lia NArith List Bool.
Import ListNotations.
Open Scope N_scope.

Definition below (n : nat) : list N := map N.of_nat (seq 0 n).

Lemma below_complete n d : d < N.of_nat n -> In d (below n).
Proof.
  intros H. unfold below. apply in_map_iff. exists (N.to_nat d). split.
  - apply N2Nat.id.
  - apply in_seq. lia.
Qed.

Lemma below_forall (P : N -> Prop) n : Forall P (below n) -> forall d, d < N.of_nat n -> P d.
Proof. intros H d Hd. rewrite Forall_forall in H. now apply H, below_complete. Qed.

Lemma sweep (P : N -> bool) (n : nat) :
  forallb P (below n) = true -> forall d, d < N.of_nat n -> P d = true.
Proof. intros H. apply below_forall, Forall_forall. now apply forallb_forall. Qed.

Definition bytes (l : list N) : Prop := Forall (fun b => b < 256) l.

Lemma option_map_some {A B} (f : A -> B) o x : o = Some x -> option_map f o = Some (f x).
Proof. intros ->. reflexivity. Qed.

Lemma in_range_iff lo hi x : in_range lo hi x = true <-> lo <= x <= hi.
Proof. unfold in_range. now rewrite andb_true_iff, !N.leb_le. Qed.

Lemma in_range_spec lo hi x : reflect (lo <= x <= hi) (in_range lo hi x).
Proof. apply iff_reflect. symmetry. apply in_range_iff. Qed.

Lemma in_range_out lo hi x : x < lo \/ hi < x -> in_range lo hi x = false.
Proof. intros H. destruct (in_range_spec lo hi x); [lia | reflexivity]. Qed.

Lemma last_cons_ne {A} (x : A) l d : l <> [] -> last (x :: l) d = last l d.
Proof. destruct l; [congruence | reflexivity]. Qed.

Lemma last_rev {A} (l : list A) d : last (rev l) d = hd d l.
Proof. destruct l as [|x l]; [reflexivity | apply last_last]. Qed.

Lemma hd_rev {A} (l : list A) d : hd d (rev l) = last l d.
Proof. rewrite <- (rev_involutive l) at 2. now rewrite last_rev. Qed.

(* quotient and remainder by a literal, named, with the two facts that make them linear *)
Lemma div_mod_pos c (d : positive) :
  exists q r, c / N.pos d = q /\ c mod N.pos d = r /\ c = N.pos d * q + r /\ r < N.pos d.
Proof. exists (c / N.pos d), (c mod N.pos d). repeat split; [apply N.div_mod' | now apply N.mod_lt]. Qed.

Lemma is_alnum_iff b : is_alnum b = true <-> 48 <= b <= 57 \/ 65 <= b <= 90 \/ 97 <= b <= 122.
Proof. unfold is_alnum. rewrite !orb_true_iff, !in_range_iff. tauto. Qed.

Lemma is_unreserved_iff b :
  is_unreserved b = true <-> is_alnum b = true \/ b = 45 \/ b = 46 \/ b = 95 \/ b = 126.
Proof.
  replace (is_unreserved b) with (is_alnum b || (b =? 45) || (b =? 46) || (b =? 95) || (b =? 126)).
  - rewrite !orb_true_iff, !N.eqb_eq. tauto.
  - unfold is_unreserved, is_alnum, is_upper, is_lower, is_digit.
    now destruct (in_range 65 90 b), (in_range 97 122 b), (in_range 48 57 b).
Qed.

Lemma unhex_hex_upper d : d < 16 -> unhex_digit (hex_upper d) = Some d.
Proof.
  intros H.
  pose proof (sweep (fun d => match unhex_digit (hex_upper d) with Some x => x =? d | None => false end)
                    16 ltac:(vm_compute; reflexivity) d H) as E.
  cbv beta in E. destruct (unhex_digit (hex_upper d)); [|discriminate].
  apply N.eqb_eq in E. now subst.
Qed.

Lemma is_hex_hex_upper d : d < 16 -> is_hex (hex_upper d) = true.
Proof. intros H. apply (sweep (fun d => is_hex (hex_upper d)) 16); [vm_compute; reflexivity | exact H]. Qed.

Lemma pct_decode_encoded b rest :
  b < 256 -> pct_decode (pct_encode_byte b ++ rest) = option_map (cons b) (pct_decode rest).
Proof.
  intros Hb. unfold pct_encode_byte. destruct (div_mod_pos b 16) as (h & l & -> & -> & E & Hl).
  cbn [app pct_decode]. rewrite N.eqb_refl, !unhex_hex_upper by lia. now rewrite <- E.
Qed.

Lemma pct_encode_cons ch b l :
  pct_encode ch (b :: l) = (if should_percent_encode ch b then pct_encode_byte b else [b]) ++ pct_encode ch l.
Proof. reflexivity. Qed.

Lemma pct_roundtrip_gen ch l :
  should_percent_encode ch 37 = true -> bytes l -> pct_decode (pct_encode ch l) = Some l.
Proof.
  intros H37 Hl. induction Hl as [|b l Hb Hl IH]; [reflexivity|].
  rewrite pct_encode_cons. destruct (should_percent_encode ch b) eqn:E.
  - rewrite pct_decode_encoded by assumption. now rewrite IH.
  - cbn [app pct_decode]. destruct (N.eqb_spec b 37) as [->|_]; [congruence|]. now rewrite IH.
Qed.

Lemma pct_shape_gen ch extra l :
  extra 37 = false ->
  (forall b, should_percent_encode ch b = false -> is_unreserved b || extra b = true) ->
  bytes l -> pct_shape extra (pct_encode ch l) = true.
Proof.
  intros Hx Hset Hl. induction Hl as [|b l Hb Hl IH]; [reflexivity|].
  rewrite pct_encode_cons. destruct (should_percent_encode ch b) eqn:E.
  - unfold pct_encode_byte. destruct (div_mod_pos b 16) as (h & lo & -> & -> & E16 & Hlo).
    cbn [app pct_shape]. rewrite N.eqb_refl. now rewrite !is_hex_hex_upper by lia.
  - cbn [app pct_shape]. destruct (N.eqb_spec b 37) as [->|_].
    + specialize (Hset _ E). rewrite Hx in Hset. vm_compute in Hset. discriminate.
    + now rewrite (Hset _ E).
Qed.

Lemma non_ascii_encoded ch b : 128 <= b -> should_percent_encode ch b = true.
Proof. intros H. unfold should_percent_encode. now apply N.ltb_ge in H as ->. Qed.

(* A class of ASCII bytes is exactly what a chain leaves alone as soon as the two agree below 128,
   which is decided by evaluation (again whenever urlencode.rs changes). *)
Lemma pct_set_exact ch (P : N -> bool) :
  (forall b, P b = true -> b < 128) ->
  forallb (fun b => Bool.eqb (should_percent_encode ch b) (negb (P b))) (below 128) = true ->
  forall b, should_percent_encode ch b = false <-> P b = true.
Proof.
  intros Hlt Hs b. destruct (N.ltb_spec b 128) as [Hb|Hb].
  - apply (sweep _ 128 Hs), eqb_prop in Hb. rewrite Hb. apply negb_false_iff.
  - rewrite non_ascii_encoded by assumption. split; [discriminate|].
    intros H. apply Hlt in H. lia.
Qed.

Lemma urlencode_set b :
  should_percent_encode urlencode_chain b = false <-> is_unreserved b || (b =? 47) = true.
Proof.
  apply (pct_set_exact _ (fun b => is_unreserved b || (b =? 47))); [|vm_compute; reflexivity].
  intros c. rewrite orb_true_iff, is_unreserved_iff, is_alnum_iff, N.eqb_eq. lia.
Qed.

Lemma urlencode_strict_set b :
  should_percent_encode urlencode_strict_chain b = false <-> is_alnum b = true.
Proof.
  apply pct_set_exact; [|vm_compute; reflexivity]. intros c. rewrite is_alnum_iff. lia.
Qed.

(* the third conjunct is weaker than urlencode_strict_set and written `|| false` so as to be the
   hypothesis of pct_shape_gen at the extra set (fun _ => false) *)
Lemma pct_sets_exact b :
  (should_percent_encode urlencode_chain b = false <-> is_unreserved b || (b =? 47) = true) /\
  (is_alnum b = true -> should_percent_encode urlencode_strict_chain b = false) /\
  (should_percent_encode urlencode_strict_chain b = false -> is_unreserved b || false = true).
Proof.
  split; [apply urlencode_set|]. split; [apply urlencode_strict_set|].
  intros H. apply urlencode_strict_set in H. rewrite orb_false_r. apply is_unreserved_iff. now left.
Qed.

Definition scalars (s : list N) : Prop := Forall (fun c => is_scalar c = true) s.

Lemma is_scalar_range c : is_scalar c = true -> c < 55296 \/ (57343 < c /\ c < 1114112).
Proof.
  unfold is_scalar. destruct (N.ltb_spec c 55296); [now left|].
  destruct (N.ltb_spec 57343 c), (N.ltb_spec c 1114112); cbn; try discriminate. right. lia.
Qed.

(* The encoder writes the base-64 digits of c, most significant first, behind a lead byte that tells
   how many there are.  This is the only place where / and mod are looked into. *)
Lemma utf8_encode_char_cases c :
  (c < 128 /\ utf8_encode_char c = [c]) \/
  (exists a r, 128 <= c < 2048 /\ c = 64 * a + r /\ r < 64 /\ utf8_encode_char c = [192 + a; 128 + r]) \/
  (exists a b r, 2048 <= c < 65536 /\ c = 4096 * a + 64 * b + r /\ b < 64 /\ r < 64 /\
     utf8_encode_char c = [224 + a; 128 + b; 128 + r]) \/
  (exists a b d r, 65536 <= c /\ c = 262144 * a + 4096 * b + 64 * d + r /\ b < 64 /\ d < 64 /\ r < 64 /\
     utf8_encode_char c = [240 + a; 128 + b; 128 + d; 128 + r]).
Proof.
  (* under a name, so that the encoder is unfolded once and not in each of the four cases *)
  remember (utf8_encode_char c) as e eqn:E. revert E. unfold utf8_encode_char.
  replace (c / 4096) with (c / 64 / 64) by now rewrite N.div_div.
  replace (c / 262144) with (c / 64 / 64 / 64) by now rewrite !N.div_div.
  destruct (div_mod_pos c 64) as (q1 & r1 & -> & -> & E1 & R1).
  destruct (div_mod_pos q1 64) as (q2 & r2 & -> & -> & E2 & R2).
  destruct (div_mod_pos q2 64) as (q3 & r3 & -> & -> & E3 & R3).
  destruct (N.ltb_spec c 128); [|destruct (N.ltb_spec c 2048); [|destruct (N.ltb_spec c 65536)]]; intros ->.
  - now left.
  - right; left. exists q1, r1. repeat split; assumption.
  - right; right; left. exists q2, r2, r1. repeat split; (assumption || lia).
  - right; right; right. exists q3, r3, r2, r1. repeat split; (assumption || lia).
Qed.

Lemma utf8_char_bytes c : c < 1114112 -> bytes (utf8_encode_char c).
Proof.
  intros H.
  destruct (utf8_encode_char_cases c)
    as [[? ->]|[(a & r & ? & ? & ? & ->)|[(a & b & r & ? & ? & ? & ? & ->)|(a & b & d & r & ? & ? & ? & ? & ? & ->)]]];
    repeat constructor; lia.
Qed.

Lemma utf8_encode_cons c s : utf8_encode (c :: s) = utf8_encode_char c ++ utf8_encode s.
Proof. reflexivity. Qed.

Lemma utf8_encode_bytes s : scalars s -> bytes (utf8_encode s).
Proof.
  intros H. induction H as [|c s Hc Hs IH]; [constructor|].
  rewrite utf8_encode_cons. apply Forall_app. split; [|exact IH].
  apply utf8_char_bytes. apply is_scalar_range in Hc. lia.
Qed.

(* a continuation byte carries one base-64 digit *)
Lemma is_cont_digit r : r < 64 -> is_cont (128 + r) = true.
Proof. intros H. apply in_range_iff. lia. Qed.

(* Table 3-7 of the Unicode standard (second3_ok, second4_ok): after the lead byte x the second byte
   is a continuation byte cut from below (no overlong form), after y one cut from above (no surrogate,
   nothing past U+10FFFF) *)
Lemma second_ok_iff x y lo hi b0 b1 :
  x <> y -> 128 <= lo -> hi <= 191 ->
  (if b0 =? x then in_range lo 191 b1 else if b0 =? y then in_range 128 hi b1 else is_cont b1) = true <->
  128 <= b1 <= 191 /\ (b0 = x -> lo <= b1) /\ (b0 = y -> b1 <= hi).
Proof.
  intros Hxy Hlo Hhi. change (is_cont b1) with (in_range 128 191 b1).
  destruct (N.eqb_spec b0 x); [|destruct (N.eqb_spec b0 y)]; rewrite in_range_iff; lia.
Qed.

Lemma utf8_decode_1 b rest : b < 128 -> utf8_decode (b :: rest) = option_map (cons b) (utf8_decode rest).
Proof. intros H. cbn [utf8_decode]. now apply N.ltb_lt in H as ->. Qed.

(* each test of the decoder's chain is rewritten to its value: destructing it would carry the rest of
   the decoder's body along *)
Lemma utf8_decode_2 b0 b1 rest :
  194 <= b0 <= 223 -> is_cont b1 = true ->
  utf8_decode (b0 :: b1 :: rest) = option_map (cons ((b0 - 192) * 64 + (b1 - 128))) (utf8_decode rest).
Proof.
  intros H0 H1. cbn [utf8_decode].
  now rewrite H1, (proj2 (N.ltb_ge b0 128)), (proj2 (in_range_iff 194 223 b0)) by lia.
Qed.

Lemma utf8_decode_3 b0 b1 b2 rest :
  224 <= b0 <= 239 -> second3_ok b0 b1 = true -> is_cont b2 = true ->
  utf8_decode (b0 :: b1 :: b2 :: rest) =
  option_map (cons ((b0 - 224) * 4096 + (b1 - 128) * 64 + (b2 - 128))) (utf8_decode rest).
Proof.
  intros H0 H1 H2. cbn [utf8_decode].
  now rewrite H1, H2, (proj2 (N.ltb_ge b0 128)), (in_range_out 194 223), (proj2 (in_range_iff 224 239 b0))
    by lia.
Qed.

Lemma utf8_decode_4 b0 b1 b2 b3 rest :
  240 <= b0 <= 244 -> second4_ok b0 b1 = true -> is_cont b2 = true -> is_cont b3 = true ->
  utf8_decode (b0 :: b1 :: b2 :: b3 :: rest) =
  option_map (cons ((b0 - 240) * 262144 + (b1 - 128) * 4096 + (b2 - 128) * 64 + (b3 - 128))) (utf8_decode rest).
Proof.
  intros H0 H1 H2 H3. cbn [utf8_decode].
  now rewrite H1, H2, H3, (proj2 (N.ltb_ge b0 128)), (in_range_out 194 223), (in_range_out 224 239),
    (proj2 (in_range_iff 240 244 b0)) by lia.
Qed.

Lemma add_sub_l k x : k + x - k = x.
Proof. rewrite N.add_comm. apply N.add_sub. Qed.

Lemma utf8_char_roundtrip c rest :
  is_scalar c = true ->
  utf8_decode (utf8_encode_char c ++ rest) = option_map (cons c) (utf8_decode rest).
Proof.
  intros Hs. apply is_scalar_range in Hs.
  destruct (utf8_encode_char_cases c)
    as [[? ->]|[(a & r & ? & ? & ? & ->)|[(a & b & r & ? & ? & ? & ? & ->)|(a & b & d & r & ? & ? & ? & ? & ? & ->)]]];
    cbn [app].
  - now apply utf8_decode_1.
  - rewrite utf8_decode_2, !add_sub_l; [do 2 f_equal; lia | lia | now apply is_cont_digit].
  - rewrite utf8_decode_3, !add_sub_l;
      [do 2 f_equal; lia | lia | apply (second_ok_iff 224 237 160 159); lia | now apply is_cont_digit].
  - rewrite utf8_decode_4, !add_sub_l;
      [do 2 f_equal; lia | lia | apply (second_ok_iff 240 244 144 143); lia | now apply is_cont_digit ..].
Qed.

Lemma utf8_roundtrip s : scalars s -> utf8_decode (utf8_encode s) = Some s.
Proof.
  intros H. induction H as [|c s Hc Hs IH]; [reflexivity|].
  rewrite utf8_encode_cons, utf8_char_roundtrip by assumption.
  now rewrite IH.
Qed.

Lemma utf8_encode_ascii s : Forall (fun c => c < 128) s -> utf8_encode s = s.
Proof.
  intros H. induction H as [|c s Hc Hs IH]; [reflexivity|].
  rewrite utf8_encode_cons. unfold utf8_encode_char.
  apply N.ltb_lt in Hc as ->. cbn [app]. now rewrite IH.
Qed.

Lemma pct_roundtrip_filters s :
  scalars s ->
  pct_decode (urlencode_filter s) = Some (utf8_encode s) /\
  pct_decode (urlencode_strict_filter s) = Some (utf8_encode s) /\
  utf8_decode (utf8_encode s) = Some s.
Proof.
  intros H. pose proof (utf8_encode_bytes s H) as Hb. repeat split.
  1-2: apply pct_roundtrip_gen; [vm_compute; reflexivity | exact Hb].
  now apply utf8_roundtrip.
Qed.

Lemma pct_alphabet_filters s :
  scalars s ->
  pct_shape (fun c => c =? 47) (urlencode_filter s) = true /\
  pct_shape (fun _ => false) (urlencode_strict_filter s) = true.
Proof.
  intros H. pose proof (utf8_encode_bytes s H) as Hb. split.
  - apply pct_shape_gen; [reflexivity | apply urlencode_set | exact Hb].
  - apply pct_shape_gen; [reflexivity | apply pct_sets_exact | exact Hb].
Qed.

Definition nodd (l : list N) : Prop := forall l1 l2, l <> l1 ++ 45 :: 45 :: l2.

Lemma nodd_cons x l : nodd l -> (x = 45 -> hd 45 l <> 45) -> nodd (x :: l).
Proof.
  intros Hn Hx l1 l2 E. destruct l1 as [|y l1]; cbn in E.
  - injection E as -> ->. now apply Hx.
  - injection E as -> E. now apply (Hn l1 l2).
Qed.

Lemma nodd_rev l : nodd l -> nodd (rev l).
Proof.
  intros H l1 l2 E. apply (f_equal (@rev N)) in E. rewrite rev_involutive in E.
  rewrite rev_app_distr in E. cbn [rev] in E. rewrite <- !app_assoc in E. cbn [app] in E.
  exact (H _ _ E).
Qed.

(* The slug so far, reversed: slug characters, and a hyphen only on top of a character that is not one
   (so never at the bottom). *)
Fixpoint slug_acc (acc : list N) : Prop :=
  match acc with
  | [] => True
  | x :: t => is_slug_char x = true /\ (x = 45 -> hd 45 t <> 45) /\ slug_acc t
  end.

Lemma slug_acc_facts acc :
  slug_acc acc -> Forall (fun c => is_slug_char c = true) acc /\ last acc 0 <> 45 /\ nodd acc.
Proof.
  induction acc as [|x t IH]; cbn [slug_acc].
  - intros _. repeat split; [constructor | discriminate | intros [|? ?] ?; discriminate].
  - intros (Hx & Hh & Ht). destruct (IH Ht) as (F & L & D). repeat split.
    + now constructor.
    + destruct t; [cbn [last]; intros ->; now apply Hh | now rewrite last_cons_ne].
    + now apply nodd_cons.
Qed.

(* the state of slug::_slugify after any number of pushes; prev_is_dash says that a hyphen may not
   be written now (at the start, or just after one) *)
Definition slug_inv (st : list N * bool) : Prop :=
  let '(acc, pd) := st in slug_acc acc /\ pd = (hd 45 acc =? 45).

Lemma slug_push_inv st x : slug_inv st -> slug_inv (slug_push st x).
Proof.
  destruct st as [acc pd]. intros [Hacc Hpd]. unfold slug_push.
  assert (Hkeep : forall y, is_slug_char y = true -> y <> 45 -> slug_inv (y :: acc, false)).
  { intros y Hy Hne. repeat split; [exact Hy | contradiction | exact Hacc | ].
    symmetry. now apply N.eqb_neq. }
  destruct (in_range 97 122 x || in_range 48 57 x) eqn:E1.
  { apply Hkeep.
    - unfold is_slug_char, is_lower, is_digit. now rewrite E1.
    - intros ->. discriminate E1. }
  destruct (in_range_spec 65 90 x) as [Hx|_].
  { apply Hkeep; [|lia]. unfold is_slug_char, is_lower.
    now rewrite (proj2 (in_range_iff 97 122 (x - 65 + 97))) by lia. }
  destruct pd; [now split|].
  repeat split; [|exact Hacc]. intros _. now apply N.eqb_neq.
Qed.

Lemma slug_fold_inv l st : slug_inv st -> slug_inv (fold_left slug_push l st).
Proof. revert st. induction l as [|x l IH]; intros st H; [exact H | cbn; apply IH, slug_push_inv, H]. Qed.

(* `if slug.ends_with('-') { slug.pop(); }` *)
Lemma slug_pop acc :
  slug_acc acc -> exists t, match acc with 45 :: t => t | _ => acc end = t /\ slug_acc t /\ hd 0 t <> 45.
Proof.
  destruct acc as [|a t]; [exists []; repeat split; discriminate|]. intros H.
  destruct (N.eq_dec a 45) as [->|Hne].
  - exists t. destruct H as (_ & Hh & Ht). repeat split; [exact Ht|].
    destruct t; [discriminate | now apply Hh].
  - exists (a :: t). split; [|now split].
    (* the match on the literal 45 reduces only on a numeral: the bits of a are taken apart until
       it differs from 45 or is 45 *)
    destruct a as [|p]; [reflexivity|]. repeat (destruct p as [p|p|]; try reflexivity). contradiction.
Qed.

Lemma slug_alphabet_gen deu s :
  let out := slugify deu s in
  Forall (fun c => is_slug_char c = true) out /\ hd 0 out <> 45 /\ last out 0 <> 45 /\ nodd out.
Proof.
  unfold slugify.
  pose proof (slug_fold_inv (flat_map (slug_char_bytes deu) s) ([], true) (conj I eq_refl)) as H.
  destruct (fold_left slug_push (flat_map (slug_char_bytes deu) s) ([], true)) as [acc pd].
  destruct H as [H _]. destruct (slug_pop acc H) as (t & -> & Ht & Hh).
  destruct (slug_acc_facts t Ht) as (F & L & D). cbv zeta. repeat split.
  - now apply Forall_rev.
  - now rewrite hd_rev.
  - now rewrite last_rev.
  - now apply nodd_rev.
Qed.
