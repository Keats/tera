(* C07: the hypotheses of the soundness theorems are satisfiable — the small concrete world of
   Model/World0.v respects the registry that lists its built-ins. *)
From TeraV Require Import Model.Value Model.Instr Model.VM Model.World0 Model.StackCheck
  Proofs.VMProofs Proofs.StackCheckProofs.
Local Open Scope nat_scope.

Definition reg0 : registry :=
  {| r_filters := [n_default; n_upper; n_safe; n_length]; r_tests := [n_defined; n_undefined]; r_functions := [] |}.

Lemma world0_respects tpls : world_respects (world0 tpls) reg0.
Proof.
  split; [|split].
  (* filters and tests: every listed name is an arm of filter0 / test0 *)
  1-2: (intros n H; intros; cbn in H; cbn [world0 w_filter w_test]; unfold filter0, test0;
        repeat (apply orb_prop in H; destruct H as [H|H]; [apply str_eqb_eq in H; subst n; cbn; discriminate|]);
        discriminate).
  intros n H. discriminate.
Qed.
